(* ServiceProofs.v — invariants of the Service.v transition system and the C16 lemmas.
   Add and Remove rewrite the two maps at one index and the table of actors at one actor: inv_set says
   when that keeps the invariant inv, by the three ways slot_ok lists in which an index and an actor refer
   to each other; inv_upd_actor covers the changes of an actor that the invariant does not read. The
   invariant needs four of the five switches off (slots_clean); terminate_by_index may be on.
   What Remove and the mailbox goroutine do, which several labels share, is said once (do_remove_cases,
   remove_cases, do_remove_self_cases, deliver_cases); add_begin and add_end are unfolded where a proof
   needs them (step_inv, step_actor, add_index_fresh). `touched` lists the actors a label names and
   step_actor says what a step does to one actor; the frame theorems read it off. The file ends with
   the configurations only_* (one switch on each), the runs wit_* that refute the property under them,
   and ex_trace, a run that meets the hypotheses; props/C16.v evaluates them. *)
From Coq Require Import Arith NArith List Bool Lia.
From QV Require Import Service.
Import ListNotations.
Local Open Scope N_scope.

Lemma upd_same : forall A (m : N -> option A) i v, upd m i v i = v.
Proof. intros. unfold upd. now rewrite N.eqb_refl. Qed.
Lemma upd_other : forall A (m : N -> option A) i j v, j <> i -> upd m i v j = m j.
Proof. intros. unfold upd. destruct (N.eqb_spec j i); congruence. Qed.
Lemma updA_same : forall m k v, updA m k v k = v.
Proof. intros. unfold updA. now rewrite Nat.eqb_refl. Qed.
Lemma updA_other : forall m k j v, j <> k -> updA m k v j = m j.
Proof. intros. unfold updA. destruct (Nat.eqb_spec j k); congruence. Qed.

(* look at a map updated at i (an actor map updated at k) at index j: j is i or it is not.  The goal is
   split by computation; a hypothesis that mentions the map at j is introduced after the call. *)
Ltac upd_cases i j := unfold upd; destruct (N.eqb_spec j i) as [->|?].
Ltac updA_cases k j := unfold updA; destruct (Nat.eqb_spec j k) as [->|?].

Lemma first_free_free : forall objs draws i, first_free objs draws = Some i -> objs i = None.
Proof.
  induction draws as [|d r IH]; simpl; intros i H; [discriminate|].
  destruct (objs (mask31 d)) eqn:E; simpl in H; [auto|].
  now inversion H; subst.
Qed.

Lemma choose_index_free : forall c objs draws i, zero_index_untested c = false ->
  choose_index c objs draws = Some i -> objs i = None.
Proof.
  intros c objs draws i Hc H. unfold choose_index in H. rewrite Hc in H.
  destruct (objs 1) eqn:E1; simpl in H; [eauto using first_free_free|].
  destruct (objs 0) eqn:E0; simpl in H; [eauto using first_free_free|].
  now inversion H; subst.
Qed.

Lemma mask31_lt : forall d, mask31 d < 2 ^ 31.
Proof. intros. unfold mask31. apply N.mod_lt. discriminate. Qed.

Lemma hellos_app : forall q m, hellos (q ++ [m]) = hellos q + (if is_hello m then 1 else 0).
Proof.
  intros. unfold hellos. rewrite filter_app, app_length, Nat2N.inj_add. cbn [filter].
  destruct (is_hello m); cbn [List.length]; lia.
Qed.

Definition st (s : state) (k : nat) : status := a_status (actors s k).

Record inv (s : state) : Prop := {
  adding_slot : forall k i, st s k = Adding i -> objects s i = Some SPending;
  live_slot : forall k i, st s k = Live i ->
         objects s i = Some (SObj k) /\ boxes s i = Some (TObj k) /\ a_id (actors s k) = Some i;
  obj_live : forall i k, objects s i = Some (SObj k) -> st s k = Live i;
  box_live : forall i k, boxes s i = Some (TObj k) -> st s k = Live i;
  adding_inj : forall k k' i, st s k = Adding i -> st s k' = Adding i -> k = k';
  no_nil_slot : forall i, objects s i <> Some SNil;
  hooks_once : forall k, a_hooks (actors s k) = match st s k with Removed => 1 | _ => 0 end;
  not_crashed : crashed s = false
}.

(* the three ways in which index i and actor k may refer to each other *)
Inductive slot_ok (i : N) (k : nat) : option slot -> option target -> astate -> Prop :=
| ok_empty a : (forall j, a_status a <> Adding j /\ a_status a <> Live j) -> slot_ok i k None None a
| ok_pending a : a_status a = Adding i -> slot_ok i k (Some SPending) (Some TPending) a
| ok_live a : a_status a = Live i -> a_id a = Some i -> slot_ok i k (Some (SObj k)) (Some (TObj k)) a.

(* Add and Remove rewrite the two maps at one index i and one actor k.  The invariant survives when
   i was free and k live nowhere, or i was the pending or the live slot of k, and now i and k refer to
   each other in one of the three ways.  That nobody else referred to i the invariant says itself. *)
Lemma inv_set : forall s i k o b a', inv s ->
  objects s i = None /\ (forall j, st s k <> Live j) \/ st s k = Adding i \/ objects s i = Some (SObj k) ->
  slot_ok i k o b a' ->
  a_hooks a' = match a_status a' with Removed => 1 | _ => 0 end ->
  inv {| objects := upd (objects s) i o; boxes := upd (boxes s) i b; actors := updA (actors s) k a'; crashed := false |}.
Proof.
  intros s i k o b a' I Hwas Hok Hh.
  assert (Hoth : forall k0, k0 <> k -> st s k0 <> Adding i /\ st s k0 <> Live i).
  { intros k0 Hne. split; intro H0; [pose proof (adding_slot s I _ _ H0) as Ho|destruct (live_slot s I _ _ H0) as [Ho _]];
      destruct Hwas as [[E _]|[E|E]]; try congruence; [apply Hne; eapply adding_inj; eauto|].
    pose proof (adding_slot s I _ _ E). congruence. }
  assert (Hown : forall j, st s k = Live j -> j = i).
  { intros j H0. destruct Hwas as [[_ E]|[E|E]]; [destruct (E j H0)|congruence|]. pose proof (obj_live s I _ _ E). congruence. }
  assert (HA : forall i0, a_status a' = Adding i0 -> i0 = i /\ o = Some SPending).
  { intros i0 H0. destruct Hok as [a Hn|a Ha|a Ha _]; [destruct (Hn i0); contradiction| |congruence].
    split; [congruence|auto]. }
  assert (HB : forall i0, a_status a' = Live i0 -> i0 = i /\ o = Some (SObj k) /\ b = Some (TObj k) /\ a_id a' = Some i).
  { intros i0 H0. destruct Hok as [a Hn|a Ha|a Ha Hi]; [destruct (Hn i0); contradiction|congruence|].
    split; [congruence|auto]. }
  assert (HC : forall k0, o = Some (SObj k0) \/ b = Some (TObj k0) -> k0 = k /\ a_status a' = Live i).
  { intros k0 H0. destruct Hok; destruct H0 as [H0|H0]; try discriminate; inversion H0; auto. }
  assert (HG : o <> Some SNil) by (destruct Hok; discriminate).
  clear Hok. constructor; unfold st in *; simpl.
  - intros k0 i0. updA_cases k k0; intro H0.
    + destruct (HA _ H0) as (-> & ->). apply upd_same.
    + pose proof (adding_slot s I _ _ H0). upd_cases i i0; [destruct (Hoth k0); auto; contradiction|auto].
  - intros k0 i0. updA_cases k k0; intro H0.
    + destruct (HB _ H0) as (-> & -> & -> & ?). rewrite !upd_same. auto.
    + destruct (live_slot s I _ _ H0) as (?&?&?). upd_cases i i0; [destruct (Hoth k0); auto; contradiction|auto].
  - intros i0 k0. upd_cases i i0; intro H0.
    + destruct (HC k0 (or_introl H0)) as [-> ?]. now rewrite updA_same.
    + pose proof (obj_live s I _ _ H0) as H1. updA_cases k k0; [exfalso; eauto|auto].
  - intros i0 k0. upd_cases i i0; intro H0.
    + destruct (HC k0 (or_intror H0)) as [-> ?]. now rewrite updA_same.
    + pose proof (box_live s I _ _ H0) as H1. updA_cases k k0; [exfalso; eauto|auto].
  - intros k0 k' i0. updA_cases k k0; updA_cases k k'; intros H0 H1; auto.
    + destruct (HA _ H0) as (-> & _). destruct (Hoth k'); auto; contradiction.
    + destruct (HA _ H1) as (-> & _). destruct (Hoth k0); auto; contradiction.
    + eapply adding_inj; eauto.
  - intros i0. upd_cases i i0; [exact HG|apply (no_nil_slot s I)].
  - intros k0. updA_cases k k0; [exact Hh|apply (hooks_once s I)].
  - reflexivity.
Qed.

(* bus.NewService: the first object installed in a service that holds nothing *)
Lemma inv_init : inv init.
Proof.
  apply (inv_set {| objects := fun _ => None; boxes := fun _ => None; actors := fun _ => fresh_actor; crashed := false |}).
  - constructor; unfold st; simpl; try discriminate; reflexivity.
  - left. split; [reflexivity|discriminate].
  - constructor; reflexivity.
  - reflexivity.
Qed.

(* changes of an actor that the invariant does not look at *)
Definition same_core (a b : astate) : Prop :=
  a_status a = a_status b /\ a_id a = a_id b /\ a_hooks a = a_hooks b.

Lemma inv_upd_actor : forall s k a', inv s -> same_core a' (actors s k) ->
  inv {| objects := objects s; boxes := boxes s; actors := updA (actors s) k a'; crashed := false |}.
Proof.
  intros s k a' I (Hs & Hi & Hh).
  assert (Hst : forall j, a_status (updA (actors s) k a' j) = st s j) by (intro j; updA_cases k j; auto).
  constructor; unfold st; simpl; intros; rewrite ?Hst in *.
  - eapply adding_slot; eauto.
  - destruct (live_slot s I _ _ H) as (?&?&?). updA_cases k k0; repeat split; congruence.
  - eapply obj_live; eauto.
  - eapply box_live; eauto.
  - eapply adding_inj; eauto.
  - eapply no_nil_slot; eauto.
  - rewrite <- (hooks_once s I). updA_cases k k0; auto.
  - reflexivity.
Qed.

Lemma do_remove_cases : forall c s i s' fr r, do_remove c s i = (s', fr, r) ->
  (forall j, j <> i -> objects s' j = objects s j /\ boxes s' j = boxes s j) /\
  ((forall k, objects s i <> Some (SObj k)) /\ fr = [] /\ actors s' = actors s \/
   exists k, objects s i = Some (SObj k) /\
     fr = map (term_frame (obj_id (actors s k))) (a_subs (actors s k)) /\
     actors s' = updA (actors s) k (fst (on_terminate (actors s k)))).
Proof.
  intros c s i s' fr r. unfold do_remove.
  destruct (objects s i) as [[| |k]|]; [destruct (remove_pending_slot c)| | |]; cbn; intro H; injection H as <- <- <-.
  all: split; [intros j Hj; simpl; destruct (keep_box_on_remove c); now rewrite ?upd_other by assumption|].
  4: right; exists k; repeat split.   (* the fourth case is Some (SObj k): an object is there *)
  all: left; repeat split; discriminate.
Qed.

Lemma remove_cases : forall c s i s' o, remove c s i = Some (s', o) ->
  exists fr r r', do_remove c s i = (s', fr, r) /\ o = fr ++ [r'].
Proof.
  intros c s i s' o H. unfold remove in H. destruct (do_remove c s i) as [[s1 fr] r].
  exists fr, r. destruct r; injection H as <- <-; eauto.
Qed.

(* clean but for terminate_by_index, the switch that /repo still has on (objectTerminator calls Remove(id)):
   the invariant and what rests on it need no more *)
Definition slots_clean (c : cfg) : Prop :=
  keep_box_on_remove c = false /\ zero_index_untested c = false /\
  nil_slot_on_failed_activate c = false /\ remove_pending_slot c = false.

Lemma clean_slots c : clean c -> slots_clean c.
Proof. unfold clean, slots_clean. tauto. Qed.

Lemma do_remove_inv : forall c s i s' fr r, slots_clean c -> inv s ->
  do_remove c s i = (s', fr, r) -> inv s'.
Proof.
  intros c s i s' fr r (Hkb & _ & _ & Hrp) I H. unfold do_remove in H. rewrite Hkb, Hrp in H.
  destruct (objects s i) as [[| |k]|] eqn:E; [|destruct (no_nil_slot s I _ E)| |]; simpl in H; injection H as <- <- <-; auto.
  pose proof (obj_live s I _ _ E) as HL. pose proof (hooks_once s I k) as Hh. rewrite HL in Hh.
  apply inv_set; auto.
  - constructor. split; discriminate.
  - simpl. now rewrite Hh.
Qed.

Lemma do_remove_self_cases : forall c s k i,
  do_remove_self c s k i = do_remove c s i /\ (terminate_by_index c = false -> objects s i = Some (SObj k)) \/
  do_remove_self c s k i = (s, [], RmMissing).
Proof.
  intros. unfold do_remove_self. destruct (terminate_by_index c); [left; split; [reflexivity|discriminate]|].
  destruct (objects s i) as [[| |k']|]; auto. destruct (Nat.eqb_spec k' k) as [->|]; auto.
Qed.

Lemma do_remove_self_own : forall c s k i, objects s i = Some (SObj k) -> do_remove_self c s k i = do_remove c s i.
Proof. intros c s k i H. unfold do_remove_self. rewrite H, Nat.eqb_refl. now destruct (terminate_by_index c). Qed.

Lemma deliver_cases : forall c s k s' o, deliver c s k = Some (s', o) ->
  exists a1, same_core a1 (actors s k) /\ potential a1 = potential (actors s k) /\
    let s1 := {| objects := objects s; boxes := boxes s; actors := updA (actors s) k a1; crashed := false |} in
    s' = s1 \/ exists fr r, do_remove c s1 (obj_id (actors s k)) = (s', fr, r) /\
                 (terminate_by_index c = false -> objects s (obj_id (actors s k)) = Some (SObj k)).
Proof.
  intros c s k s' o H. unfold deliver in H. destruct (a_queue (actors s k)) as [|[cn f] q] eqn:Eq; [discriminate|].
  assert (Hpop : potential (pop_mail (actors s k)) + (if is_hello (cn, f) then 1 else 0) = potential (actors s k)).
  { unfold potential, hellos. simpl. rewrite Eq. simpl. destruct (is_hello (cn, f)); simpl; lia. }
  unfold is_hello in Hpop. simpl in Hpop.
  destruct (f_act f) as [| |arg|arg sg uid].
  - injection H as <- <-. eexists. split; [|split; [|left; reflexivity]]; [repeat split|].
    unfold potential in *. simpl in *. lia.
  - injection H as <- <-. exists (pop_mail (actors s k)). split; [repeat split|]. split; [lia|now left].
  - exists (pop_mail (actors s k)). split; [repeat split|]. split; [lia|].
    destruct (wrong_id _ arg); [injection H as <- <-; now left|].
    (* the terminate action is Remove of the own index, or finds another object there and does nothing *)
    edestruct do_remove_self_cases as [[E Hk]|E]; rewrite E in H; [|injection H as <- <-; now left].
    destruct (do_remove c _ _) as [[s2 fr] r] eqn:E'. right. exists fr, r. destruct r; injection H as <- <-; exact (conj E' Hk).
  - destruct (wrong_id _ arg); [injection H as <- <-; exists (pop_mail (actors s k)); split; [repeat split|]; split; [lia|now left]|].
    destruct (uid_known _ uid); [discriminate|]. injection H as <- <-.
    eexists. split; [|split; [|left; reflexivity]]; [repeat split|]. unfold potential in *. simpl in *. lia.
Qed.

Lemma step_inv : forall c s l s' o, slots_clean c -> inv s -> step c s l = Some (s', o) -> inv s'.
Proof.
  intros c s l s' o Hc I H. pose proof Hc as (Hkb & Hz & Hn & Hrp).
  unfold step in H. rewrite (not_crashed s I) in H. destruct l as [k draws|k ok|i|cn f|k|k sg].
  - (* AddBegin: a free index becomes pending for k *)
    unfold add_begin in H. destruct (a_status (actors s k)) eqn:Es; try discriminate.
    destruct (choose_index c (objects s) draws) as [i|] eqn:Ei; [|discriminate].
    injection H as <- <-. pose proof (choose_index_free _ _ _ _ Hz Ei) as Hfree.
    pose proof (hooks_once s I k) as Hh. unfold st in Hh. rewrite Es in Hh.
    apply inv_set; auto; [|now constructor].
    left. unfold st. rewrite Es. split; [exact Hfree|discriminate].
  - (* AddEnd: the pending index of k goes to k, or is given up *)
    unfold add_end in H. destruct (a_status (actors s k)) eqn:Es; try discriminate.
    pose proof (hooks_once s I k) as Hh. unfold st in Hh. rewrite Es in Hh.
    destruct ok; [|rewrite Hn in H]; injection H as <- <-; apply inv_set; auto.
    + now constructor.
    + constructor. split; discriminate.
  - destruct (remove_cases _ _ _ _ _ H) as (fr & r & _ & E & _). apply (do_remove_inv _ _ _ _ _ _ Hc I E).
  - unfold recv in H. destruct (boxes s (f_obj f)) as [[|k]|]; injection H as <- _; auto.
    apply inv_upd_actor; auto. repeat split.
  - destruct (deliver_cases _ _ _ _ _ H) as (a1 & Hcore & _ & [->|(fr & r & E & _)]).
    + now apply inv_upd_actor.
    + eapply do_remove_inv; [exact Hc| |exact E]. now apply inv_upd_actor.
  - unfold emit in H. destruct (a_id (actors s k)); [|discriminate]. now injection H as <- _.
Qed.

Theorem reach_inv : forall c s, slots_clean c -> reach c s -> inv s.
Proof. intros c s Hc R. induction R; eauto using inv_init, step_inv. Qed.

Theorem add_index_fresh : forall c s k draws s' o, zero_index_untested c = false -> inv s ->
  step c s (LAddBegin k draws) = Some (s', o) ->
  exists i, o = [OIndex i] /\ objects s i = None /\ st s' k = Adding i /\
    (forall k', st s k' <> Live i /\ st s k' <> Adding i) /\
    (forall j, j <> i -> objects s' j = objects s j /\ boxes s' j = boxes s j) /\
    (forall k', k' <> k -> actors s' k' = actors s k').
Proof.
  intros c s k draws s' o Hz I H.
  unfold step in H. rewrite (not_crashed s I) in H. unfold add_begin in H.
  destruct (a_status (actors s k)) eqn:Es; try discriminate.
  destruct (choose_index c (objects s) draws) as [i|] eqn:Ei; [|discriminate].
  inversion H; subst; clear H. pose proof (choose_index_free _ _ _ _ Hz Ei) as Hfree.
  exists i. unfold st; simpl. rewrite updA_same. simpl. repeat split; auto using upd_other, updA_other.
  - intro H0. destruct (live_slot s I _ _ H0). congruence.
  - intro H0. pose proof (adding_slot s I _ _ H0). congruence.
Qed.

Theorem live_receives : forall c s k cn f, inv s -> live s k (f_obj f) ->
  step c s (LRecv cn f) =
    Some ({| objects := objects s; boxes := boxes s;
             actors := updA (actors s) k (push_mail (actors s k) (cn, f)); crashed := false |}, []).
Proof.
  intros c s k cn f I HL.
  destruct (live_slot s I _ _ HL) as (_ & Hb & _).
  unfold step. rewrite (not_crashed s I). unfold recv. now rewrite Hb.
Qed.

Theorem remove_live : forall c s k i, keep_box_on_remove c = false -> inv s -> live s k i ->
  exists s', step c s (LRemove i) =
      Some (s', map (term_frame i) (a_subs (actors s k)) ++ [ORet true]) /\
    st s' k = Removed /\ a_hooks (actors s' k) = 1 /\ a_subs (actors s' k) = [] /\
    objects s' i = None /\ boxes s' i = None /\
    a_execs (actors s' k) = a_execs (actors s k) /\ a_queue (actors s' k) = a_queue (actors s k) /\
    (forall k', k' <> k -> actors s' k' = actors s k') /\
    (forall j, j <> i -> objects s' j = objects s j /\ boxes s' j = boxes s j).
Proof.
  intros c s k i Hkb I HL.
  destruct (live_slot s I _ _ HL) as (Ho & _ & Hid). pose proof (hooks_once s I k) as Hh. rewrite HL in Hh.
  unfold step. rewrite (not_crashed s I). unfold remove, do_remove. rewrite Ho, Hkb. simpl.
  eexists. split; [unfold obj_id; rewrite Hid; reflexivity|].
  unfold st; simpl. rewrite updA_same, !upd_same. simpl. rewrite Hh.
  repeat split; auto using updA_other, upd_other.
Qed.

Theorem terminate_live : forall c s k i cn f q arg, keep_box_on_remove c = false -> inv s -> live s k i ->
  a_queue (actors s k) = (cn, f) :: q -> f_act f = ATerminate arg -> (arg = 0 \/ arg = i) ->
  exists s', step c s (LDeliver k) =
      Some (s', map (term_frame i) (a_subs (actors s k)) ++ answer cn f TReply) /\
    st s' k = Removed /\ a_hooks (actors s' k) = 1 /\ a_subs (actors s' k) = [] /\
    objects s' i = None /\ boxes s' i = None /\
    a_execs (actors s' k) = a_execs (actors s k) /\ a_queue (actors s' k) = q /\
    (forall k', k' <> k -> actors s' k' = actors s k') /\
    (forall j, j <> i -> objects s' j = objects s j /\ boxes s' j = boxes s j).
Proof.
  intros c s k i cn f q arg Hkb I HL Hq Hf Harg.
  destruct (live_slot s I _ _ HL) as (Ho & _ & Hid). pose proof (hooks_once s I k) as Hh. rewrite HL in Hh.
  assert (Hoid : obj_id (pop_mail (actors s k)) = i) by (unfold obj_id; simpl; now rewrite Hid).
  assert (Hw : wrong_id (pop_mail (actors s k)) arg = false).
  { unfold wrong_id. rewrite Hoid. destruct Harg as [->| ->]; [reflexivity|]. rewrite N.eqb_refl. apply andb_false_r. }
  unfold step. rewrite (not_crashed s I). unfold deliver. rewrite Hq, Hf, Hw, Hoid.
  (* under its own index a live object finds itself, whatever terminate_by_index says *)
  rewrite do_remove_self_own by exact Ho. unfold do_remove. simpl. rewrite Ho, Hkb, updA_same. simpl.
  eexists. split; [rewrite Hoid; reflexivity|].
  unfold st; simpl. rewrite updA_same, !upd_same. simpl. rewrite Hh, Hq.
  repeat split; auto using upd_other. intros k' Hk. now rewrite !updA_other.
Qed.

Theorem recv_not_found : forall c s cn f, crashed s = false -> boxes s (f_obj f) = None ->
  step c s (LRecv cn f) = Some (s, [OFrame cn (TError ENotFound) (f_obj f) (act_num (f_act f)) (f_id f)]).
Proof. intros c s cn f Hcr Hb. unfold step. rewrite Hcr. unfold recv. now rewrite Hb. Qed.

Definition touched (s : state) (l : label) (k' : nat) : Prop :=
  match l with
  | LAddBegin k _ | LAddEnd k _ | LEmit k _ => k' = k
  | LRemove i => objects s i = Some (SObj k')
  | LRecv _ f => boxes s (f_obj f) = Some (TObj k')
  | LDeliver k => k' = k \/ objects s (obj_id (actors s k)) = Some (SObj k')
  end.

Lemma do_remove_actor : forall c s i s' fr r k, do_remove c s i = (s', fr, r) ->
  actors s' k = actors s k \/
  objects s i = Some (SObj k) /\ st s' k = Removed /\ potential (actors s' k) = potential (actors s k).
Proof.
  intros c s i s' fr r k H.
  destruct (do_remove_cases _ _ _ _ _ _ H) as (_ & [(_ & _ & ->)|(k0 & Ho & _ & Ha)]); [now left|].
  unfold st. rewrite Ha. updA_cases k0 k; [right; repeat split; assumption|now left].
Qed.

(* A step leaves an actor as it was, or touches it; then its status moves forward only, and what it has
   executed or is committed to execute grows only by a frame received into its mailbox. *)
Lemma step_actor : forall c s l s' o k, step c s l = Some (s', o) ->
  actors s' k = actors s k \/
  touched s l k /\
  (st s' k = st s k \/ st s' k = Removed \/ st s k = Fresh \/ exists i, st s k = Adding i) /\
  (potential (actors s' k) = potential (actors s k) \/ exists cn f, l = LRecv cn f).
Proof.
  intros c s l s' o k H. unfold step in H. destruct (crashed s); [discriminate|]. unfold st.
  destruct l as [k0 draws|k0 ok|i|cn f|k0|k0 sg]; cbn [touched].
  - unfold add_begin in H. destruct (a_status (actors s k0)) eqn:Es; try discriminate.
    destruct (choose_index c (objects s) draws); [|discriminate]. injection H as <- <-. simpl.
    updA_cases k0 k; [right|now left]. rewrite Es. repeat split; auto.
  - unfold add_end in H. destruct (a_status (actors s k0)) eqn:Es; try discriminate.
    destruct ok; [|destruct (nil_slot_on_failed_activate c)]; injection H as <- <-; simpl;
      (updA_cases k0 k; [right|now left]); rewrite Es; repeat split; eauto.
  - destruct (remove_cases _ _ _ _ _ H) as (fr & r & _ & E & _).
    destruct (do_remove_actor _ _ _ _ _ _ k E) as [|(Ho & Hs & Hp)]; [now left|right; repeat split; auto].
  - unfold recv in H. destruct (boxes s (f_obj f)) as [[|k1]|] eqn:Eb; injection H as <- <-; auto.
    simpl. updA_cases k1 k; [right|now left]. repeat split; eauto.
  - destruct (deliver_cases _ _ _ _ _ H) as (a1 & (Hst & _) & Hpot & Hs').
    set (s1 := {| objects := objects s; boxes := boxes s; actors := updA (actors s) k0 a1; crashed := false |}) in Hs'.
    assert (H1 : actors s1 k = actors s k \/
                 k = k0 /\ a_status (actors s1 k) = a_status (actors s k) /\ potential (actors s1 k) = potential (actors s k)).
    { unfold s1; simpl. updA_cases k0 k; auto. }
    destruct Hs' as [->|(fr & r & E & _)]; [|destruct (do_remove_actor _ _ _ _ _ _ k E) as [->|(Ho & Hs & Hp)]].
    1, 2: destruct H1 as [->|(-> & ? & ?)]; [now left|right; repeat split; auto].
    right. repeat split; [right; exact Ho|auto|left].
    rewrite Hp. destruct H1 as [->|(_ & _ & ?)]; auto.
  - unfold emit in H. destruct (a_id (actors s k0)); [|discriminate]. injection H as <- _. now left.
Qed.

Theorem step_frame : forall c s l s' o k', step c s l = Some (s', o) ->
  ~ touched s l k' -> actors s' k' = actors s k'.
Proof. intros c s l s' o k' H Hn. destruct (step_actor _ _ _ _ _ k' H) as [|[Ht _]]; [auto|contradiction]. Qed.

Theorem removed_never_invoked_again : forall c tr s s' o k, slots_clean c -> inv s ->
  st s k = Removed -> run c s tr = Some (s', o) ->
  st s' k = Removed /\ potential (actors s' k) = potential (actors s k).
Proof.
  intros c tr. induction tr as [|l r IH]; intros s s' o k Hc I Hs H; simpl in H.
  - inversion H; subst. auto.
  - destruct (step c s l) as [[s1 o1]|] eqn:E; [|discriminate].
    destruct (run c s1 r) as [[s2 o2]|] eqn:E2; [|discriminate]. inversion H; subst; clear H.
    assert (H1 : st s1 k = Removed /\ potential (actors s1 k) = potential (actors s k)).
    { destruct (step_actor _ _ _ _ _ k E) as [E1|(Ht & Hst & Hp)]; [unfold st; rewrite E1; auto|]. split.
      - rewrite Hs in Hst. destruct Hst as [->|[|[|[i ?]]]]; auto; discriminate.
      - (* a frame is not received into the mailbox of a removed object: it has none *)
        destruct Hp as [|(cn & f & ->)]; [auto|]. pose proof (box_live s I _ _ Ht). congruence. }
    destruct H1 as [Hs1 <-]. exact (IH _ _ _ _ Hc (step_inv _ _ _ _ _ Hc I E) Hs1 E2).
Qed.

Theorem deliver_touches_self : forall c s k s' o k', terminate_by_index c = false ->
  step c s (LDeliver k) = Some (s', o) -> k' <> k -> actors s' k' = actors s k'.
Proof.
  intros c s k s' o k' Htb H Hk. unfold step in H. destruct (crashed s); [discriminate|].
  destruct (deliver_cases _ _ _ _ _ H) as (a1 & _ & _ & [->|(fr & r & E & Hown)]); simpl.
  - now rewrite updA_other.
  - destruct (do_remove_actor _ _ _ _ _ _ k' E) as [->|(Ho & _)]; [simpl; now rewrite updA_other|].
    simpl in Ho. rewrite (Hown Htb) in Ho. congruence.
Qed.

(* Remove changes the maps of the service only at the index it names *)
Theorem remove_maps_frame : forall c s i s' o j, step c s (LRemove i) = Some (s', o) -> j <> i ->
  objects s' j = objects s j /\ boxes s' j = boxes s j.
Proof.
  intros c s i s' o j H Hj. unfold step in H. destruct (crashed s); [discriminate|].
  destruct (remove_cases _ _ _ _ _ H) as (fr & r & _ & E & _).
  now apply (do_remove_cases _ _ _ _ _ _ E).
Qed.

(* the notices Remove sends go to the subscribers of the removed object and to nobody else *)
Theorem remove_outputs : forall c s i s' o, step c s (LRemove i) = Some (s', o) ->
  (exists k r, objects s i = Some (SObj k) /\
     o = map (term_frame (obj_id (actors s k))) (a_subs (actors s k)) ++ [r]) \/
  (exists r, (forall k, objects s i <> Some (SObj k)) /\ o = [r]).
Proof.
  intros c s i s' o H. unfold step in H. destruct (crashed s); [discriminate|].
  destruct (remove_cases _ _ _ _ _ H) as (fr & r & r' & E & ->).
  destruct (do_remove_cases _ _ _ _ _ _ E) as (_ & [(Hn & -> & _)|(k & Ho & -> & _)]);
    [right; exists r'|left; exists k, r']; split; auto.
Qed.

Definition only_keep_box : cfg := {| keep_box_on_remove := true; zero_index_untested := false;
  nil_slot_on_failed_activate := false; remove_pending_slot := false; terminate_by_index := false |}.
Definition only_zero_index : cfg := {| keep_box_on_remove := false; zero_index_untested := true;
  nil_slot_on_failed_activate := false; remove_pending_slot := false; terminate_by_index := false |}.
Definition only_nil_slot : cfg := {| keep_box_on_remove := false; zero_index_untested := false;
  nil_slot_on_failed_activate := true; remove_pending_slot := false; terminate_by_index := false |}.
Definition only_remove_pending : cfg := {| keep_box_on_remove := false; zero_index_untested := false;
  nil_slot_on_failed_activate := false; remove_pending_slot := true; terminate_by_index := false |}.
Definition only_terminate_by_index : cfg := {| keep_box_on_remove := false; zero_index_untested := false;
  nil_slot_on_failed_activate := false; remove_pending_slot := false; terminate_by_index := true |}.

Definition hello_call (i id : N) : frame := {| f_kind := KCall; f_obj := i; f_act := AHello; f_id := id |}.

(* Add an object (it gets index 5), remove it, then call it: it still executes and answers *)
Definition wit_keep_box : list label :=
  [LAddBegin 1 [5]; LAddEnd 1 true; LRemove 5; LRecv 0 (hello_call 5 7); LDeliver 1].

(* remove object 1, then add two objects: both are told index 0 and both are live *)
Definition wit_zero_index : list label :=
  [LRemove 1; LAddBegin 1 []; LAddEnd 1 true; LAddBegin 2 []; LAddEnd 2 true].

(* an object whose Activate fails leaves a nil entry: removing that index ends the process *)
Definition wit_nil_slot : list label := [LAddBegin 1 [5]; LAddEnd 1 false; LRemove 5].

(* Remove during the activation of actor 1 succeeds on the placeholder; actor 2 is added at the
   freed index inside the same window; then actor 1's Add completes: two live objects, one id *)
Definition wit_remove_pending : list label :=
  [LAddBegin 1 [5]; LRemove 5; LAddBegin 2 [5]; LAddEnd 2 true; LAddEnd 1 true].

(* object 1 (index 5) has its own terminate queued when Service.Remove(5) removes it; the freed index
   is given to object 2; then object 1's mailbox handles the stale terminate: object 2 is terminated *)
Definition wit_terminate_by_index : list label :=
  [LAddBegin 1 [5]; LAddEnd 1 true;
   LRecv 0 {| f_kind := KPost; f_obj := 5; f_act := ATerminate 5; f_id := 7 |};
   LRemove 5; LAddBegin 2 [5]; LAddEnd 2 true; LDeliver 1].

(* with the switch off the same run leaves object 2 alone *)
Lemma clean_stale_terminate_harmless : exists s o, run cfg_clean init wit_terminate_by_index = Some (s, o) /\
  live s 2%nat 5 /\ a_hooks (actors s 2%nat) = 0.
Proof. eexists. eexists. split; [vm_compute; reflexivity|]. vm_compute. auto. Qed.

Lemma clean_cfg_clean : clean cfg_clean.
Proof. repeat split. Qed.

Definition ex_trace : list label :=
  [LAddBegin 1 [1; 9]; LAddEnd 1 true;
   LRecv 2 {| f_kind := KCall; f_obj := 9; f_act := ARegister 9 102 77; f_id := 3 |}; LDeliver 1;
   LRecv 0 (hello_call 9 4); LRecv 0 {| f_kind := KPost; f_obj := 9; f_act := ATerminate 0; f_id := 5 |};
   LRecv 0 (hello_call 9 6); LDeliver 1; LDeliver 1; LRecv 0 (hello_call 9 8); LDeliver 1].
