(* ReaderProofs.v — ReadN over every fragmentation; WriteN over every short-write schedule.
   Everything about ReadN follows from what one Read does (read1_spec), what the loop makes
   of it (readN_decide_eq), and one induction on the fuel, readN_loop_spec: there is a result,
   what an Ok result is, and when the result is Ok. *)
From QV Require Import Reader.
Local Open Scope nat_scope.

Definition pos_sched (sch : list (nat * bool)) : Prop := Forall (fun p => 1 <= fst p) sch.

Lemma firstn_firstn_skipn' {A} (m L : nat) (d : list A) :
  m <= L -> firstn m d ++ firstn (L - m) (skipn m d) = firstn L d.
Proof.
  revert L d; induction m as [|m IH]; intros L d H.
  - cbn. now rewrite Nat.sub_0_r.
  - destruct L as [|L]; [lia|]. destruct d as [|x d]; cbn [firstn skipn app Nat.sub].
    + now rewrite firstn_nil.
    + f_equal. apply IH. lia.
Qed.

Lemma pos_sched_tl sch : pos_sched sch -> pos_sched (tl sch).
Proof. intros [|p r _ Hr]; [constructor|exact Hr]. Qed.

Lemma chunk_spec {A} k L (d : list A) : let m := Nat.min k (Nat.min L (List.length d)) in
  firstn m d ++ skipn m d = d /\ List.length (firstn m d) <= L /\
  (List.length (firstn m d) = L \/ skipn m d = [] \/ List.length (firstn m d) = k).
Proof.
  intro m. assert (H : m <= List.length d /\ m <= L /\ (m = L \/ List.length d <= m \/ m = k)) by lia.
  destruct H as (H1 & H2 & H3). rewrite firstn_length, (Nat.min_l _ _ H1).
  split; [apply firstn_skipn|split; [exact H2|]].
  destruct H3 as [H|[H|H]]; [now left|right; left; now apply skipn_all2|now right; right].
Qed.

Lemma read1_spec L s : let '(got, eof, s1) := read1 L s in
  got ++ s_data s1 = s_data s /\ s_sched s1 = tl (s_sched s) /\ List.length got <= L /\
  (List.length got = L \/ s_data s1 = [] \/ exists e r, s_sched s = (List.length got, e) :: r) /\
  (s_data s = [] -> eof = true) /\ (eof = true -> s_data s1 = []).
Proof.
  destruct s as [[|x d] [|[k e] r]]; unfold read1; cbn [s_data s_sched tl];
    try (repeat split; auto using Nat.le_0_l; fail).
  - destruct (chunk_spec L L (x :: d)) as (C1 & C2 & C3).
    repeat split; [exact C1|exact C2| |discriminate|destruct (skipn _ (x :: d)); discriminate].
    destruct C3 as [C|[C|C]]; [now left|now right; left|now left].
  - destruct (chunk_spec k L (x :: d)) as (C1 & C2 & C3).
    repeat split; [exact C1|exact C2| |discriminate|destruct (skipn _ (x :: d)); [reflexivity|discriminate]].
    destruct C3 as [C|[C|C]]; [now left|now right; left|right; right; exists e, r; now rewrite C].
Qed.

Lemma readN_decide_eq read size n eof : readN_decide read size n eof =
  if eof then (if Nat.eqb size n then LBreak else if Nat.eqb size 0 then LEOF else LFail)
  else if Nat.eqb read 0 then LFail else LContinue.
Proof. unfold readN_decide. now destruct eof, (Nat.eqb read 0). Qed.

Lemma readN_loop_full fuel n acc s : n <= List.length acc ->
  readN_loop fuel n acc s = Some (Ok (acc, s), s).
Proof. intro H. destruct fuel; cbn [readN_loop]; now rewrite (proj2 (Nat.leb_le _ _) H). Qed.

Lemma readN_loop_S fuel n acc s : List.length acc < n ->
  readN_loop (S fuel) n acc s =
  let '(got, eof, s') := read1 (n - List.length acc) s in
  match readN_decide (List.length got) (List.length (acc ++ got)) n eof with
  | LContinue => readN_loop fuel n (acc ++ got) s'
  | LBreak => Some (Ok (acc ++ got, s'), s')
  | LEOF => Some (Err EEOF, s')
  | LFail => Some (Err EOther, s')
  end.
Proof. intro H. cbn [readN_loop]. now rewrite (proj2 (Nat.leb_gt _ _) H). Qed.

(* What the loop returns.  Fuel |schedule| + 2 is enough whatever the schedule does: a read with the
   schedule exhausted fills the buffer or drains the source, and the read after that reports EOF.
   With positive chunks every read makes progress and EOF can only come with the last byte
   needed, so an error exit then means that the source ran short. *)
Lemma readN_loop_spec : forall fuel n acc s,
  n <= List.length acc \/ s_data s = [] /\ 1 <= fuel \/ List.length (s_sched s) + 2 <= fuel ->
  exists r s1, readN_loop fuel n acc s = Some (r, s1) /\
    (pos_sched (s_sched s) -> pos_sched (s_sched s1)) /\
    match r with
    | Ok (b, sb) => sb = s1 /\ b ++ s_data s1 = acc ++ s_data s /\ (List.length acc <= n -> List.length b = n)
    | Err _ => pos_sched (s_sched s) -> List.length acc + List.length (s_data s) < n
    end.
Proof.
  induction fuel as [|fuel IH]; intros n acc s H;
    (destruct (Nat.le_gt_cases n (List.length acc)) as [Hn|Hn];
     [rewrite readN_loop_full by exact Hn; exists (Ok (acc, s)), s; repeat split; [auto|lia]|]); [lia|].
  rewrite (readN_loop_S _ _ _ _ Hn).
  pose proof (read1_spec (n - List.length acc) s) as R.
  destruct (read1 _ s) as [[got eof] s']. destruct R as (R1 & R2 & R3 & R4 & R5 & R6).
  rewrite readN_decide_eq. rewrite <- R1, app_assoc, !app_length.
  assert (Hp : pos_sched (s_sched s) -> pos_sched (s_sched s')) by (rewrite R2; apply pos_sched_tl).
  destruct eof.
  - destruct (Nat.eqb_spec (List.length acc + List.length got) n) as [E|E].
    + exists (Ok (acc ++ got, s')), s'. rewrite app_length. repeat split; auto.
    + destruct (Nat.eqb _ 0); eexists; exists s'; (split; [reflexivity|]); (split; [exact Hp|]);
        rewrite (R6 eq_refl); cbn [List.length]; lia.
  - destruct (Nat.eqb_spec (List.length got) 0) as [E|E].
    + exists (Err EOther), s'. repeat split; [exact Hp|]. intro Hpos.
      destruct R4 as [R4|[R4|(e & r & R4)]]; [lia|rewrite R4; cbn [List.length]; lia|].
      rewrite R4 in Hpos. inversion Hpos. cbn [fst] in *. lia.
    + destruct (IH n (acc ++ got) s') as (r & s1 & Hrun & Hp1 & Hr).
      { rewrite R2, app_length. destruct H as [H|[[H _]|H]]; [lia|now specialize (R5 H)|].
        destruct (s_sched s) as [|p sch]; [|right; right; cbn in *; lia].
        destruct R4 as [R4|[R4|(e & r & R4)]]; [left; lia|right; left; split; [exact R4|cbn in H; lia]|discriminate]. }
      exists r, s1. split; [exact Hrun|]. split; [auto|]. rewrite app_length in Hr.
      destruct r as [[b sb]|e]; [|intro Hpos; specialize (Hr (Hp Hpos)); lia].
      destruct Hr as (Hsb & Hcat & Hb). repeat split; [exact Hsb|exact Hcat|]. intros _. apply Hb. lia.
Qed.

Theorem readN_frag :
  forall n bs rest sch, pos_sched sch -> List.length bs = n ->
    exists sch', readN_full n {| s_data := bs ++ rest; s_sched := sch |} =
      Some (Ok (bs, {| s_data := rest; s_sched := sch' |}), {| s_data := rest; s_sched := sch' |})
      /\ pos_sched sch'.
Proof.
  intros n bs rest sch Hpos Hlen. unfold readN_full. cbn [s_sched].
  destruct (readN_loop_spec (List.length sch + 2) n [] {| s_data := bs ++ rest; s_sched := sch |})
    as (r & [d1 sch1] & Hrun & Hp & Hr); [now right; right|].
  rewrite Hrun. cbn [s_data s_sched List.length app] in Hp, Hr.
  destruct r as [[b sb]|e]; [|specialize (Hr Hpos); rewrite app_length in Hr; lia].
  destruct Hr as (-> & Hcat & Hb).
  destruct (app_eq_len_split _ _ _ _ Hcat) as [-> ->]; [rewrite Hb; lia|].
  exists sch1. auto.
Qed.

Lemma readN_full_total n s : readN_full n s <> None.
Proof.
  destruct (readN_loop_spec (List.length (s_sched s) + 2) n [] s) as (r & s1 & H & _); [now right; right|].
  unfold readN_full. now rewrite H.
Qed.

Lemma readN_full_ok n s b sb s1 : readN_full n s = Some (Ok (b, sb), s1) ->
  b ++ s_data s1 = s_data s /\ List.length b = n.
Proof.
  intro H. destruct (readN_loop_spec (List.length (s_sched s) + 2) n [] s) as (r & s2 & Hrun & _ & Hr); [now right; right|].
  unfold readN_full in H. rewrite Hrun in H. injection H as -> ->. destruct Hr as (_ & Hcat & Hb).
  split; [exact Hcat|apply Hb, Nat.le_0_l].
Qed.

Lemma readN_full_short n s r s' :
  List.length (s_data s) < n -> readN_full n s = Some (r, s') -> exists e, r = Err e.
Proof.
  intros Hshort Hrun. destruct r as [[b sb]|e]; [exfalso|eauto].
  apply readN_full_ok in Hrun as [Hcat Hb]. rewrite <- Hcat, app_length in Hshort. lia.
Qed.

(* an empty source gives io.EOF itself (forwarded by Message.Read) when n > 0 *)
Lemma readN_full_empty n sch : 1 <= n ->
  exists sch', readN_full n {| s_data := []; s_sched := sch |} =
               Some (Err EEOF, {| s_data := []; s_sched := sch' |}).
Proof. intro Hn. destruct n; [lia|]. destruct sch as [|[k e] r]; eexists; reflexivity. Qed.

Definition pos_wsched (sch : list nat) : Prop := Forall (fun k => 1 <= k) sch.

Lemma write1_spec buf w : buf <> [] -> pos_wsched (w_sched w) -> let '(m, w') := write1 buf w in
  m <> 0 /\ w_calls w' = w_calls w ++ [firstn m buf] /\ w_sched w' = tl (w_sched w) /\
  (w_sched w = [] -> m = List.length buf).
Proof.
  intros Hb Hp. unfold write1. destruct (w_sched w) as [|k r]; cbn [w_calls w_sched tl].
  - rewrite firstn_all. destruct buf; [congruence|]. repeat split. discriminate.
  - inversion Hp; subst. destruct buf; [congruence|]. repeat split; [cbn [List.length]; lia|discriminate].
Qed.

Lemma writeN_loop_concat : forall fuel buf w, pos_wsched (w_sched w) ->
  buf = [] \/ List.length (w_sched w) < fuel ->
  exists w', writeN_loop fuel (List.length buf) buf w = Some (Ok w') /\
    exists more, w_calls w' = w_calls w ++ more /\ concat more = buf.
Proof.
  induction fuel as [|fuel IH]; intros buf w Hp Hf;
    (destruct buf as [|x b]; [exists w; split; [reflexivity|exists []; now rewrite app_nil_r]|]);
    [destruct Hf; [discriminate|lia]|].
  set (buf := x :: b) in *. change (writeN_loop (S fuel) (List.length buf) buf w)
    with (let '(m, w') := write1 buf w in
          if Nat.eqb m 0 then Some (Err EOther) else writeN_loop fuel (List.length buf - m) (skipn m buf) w').
  pose proof (write1_spec buf w) as W. destruct (write1 buf w) as [m w1].
  destruct W as (Hm & Hc & Hs & Hall); [discriminate|exact Hp|].
  rewrite (proj2 (Nat.eqb_neq m 0) Hm), <- skipn_length.
  destruct (IH (skipn m buf) w1) as (w' & Hrun & more & Hc' & Hcat).
  - rewrite Hs. destruct Hp; [constructor|assumption].
  - rewrite Hs. destruct (w_sched w); [left; rewrite Hall by reflexivity; apply skipn_all|right].
    destruct Hf; [discriminate|cbn in *; lia].
  - exists w'. split; [exact Hrun|]. exists (firstn m buf :: more).
    rewrite Hc', Hc, <- app_assoc. split; [reflexivity|]. cbn [concat]. rewrite Hcat. apply firstn_skipn.
Qed.

Lemma writeN_once buf calls : buf <> [] ->
  writeN buf (List.length buf) {| w_calls := calls; w_sched := [] |} =
  Some (Ok {| w_calls := calls ++ [buf]; w_sched := [] |}).
Proof.
  intro Hb. destruct buf as [|x b]; [congruence|]. unfold writeN. cbn [w_sched List.length Nat.add writeN_loop].
  unfold write1. cbn [w_sched w_calls Nat.eqb List.length]. now rewrite Nat.sub_diag.
Qed.
