(* SignalsInv1.v — invariants of the LTS of Signals.v about ids and calls in flight.
   [KInv], kept by every [Step] of any configuration: per connection, the keys of the table entries,
   of the registrations in flight and of the registrations removed and acknowledged are pairwise
   distinct and known to that client; proved once over the key (Section KeyInv) and read twice, at
   handler ids ([UidInv], removed ones not followed) and at message ids ([MidInv]).
   [Conserve], kept by every [CStep]: every remote call (registerEvent of SubscribeID,
   unregisterEvent of cancel) that waits for its answer has exactly one representative on the way
   (the request not yet taken by the object, the answer being written, or the answer not yet
   dispatched), message ids are never reused, and nothing else of that kind is on the way. *)
From QV Require Import Signals SignalsLemmas SignalsStep.
From Coq Require Import Permutation.
Local Open Scope N_scope.

Definition subperm {A} (l l' : list A) : Prop := exists r, Permutation l (r ++ l').
Lemma subperm_refl {A} (l : list A) : subperm l l.
Proof. exists []. apply Permutation_refl. Qed.
Lemma subperm_NoDup {A} (l l' : list A) : subperm l l' -> NoDup l -> NoDup l'.
Proof. intros [r P] H. apply (Permutation_NoDup P) in H. now apply NoDup_app_iff in H. Qed.
Lemma subperm_In {A} (l l' : list A) x : subperm l l' -> In x l' -> In x l.
Proof. intros [r P] H. apply (Permutation_in _ (Permutation_sym P)). apply in_or_app. now right. Qed.
Lemma subperm_perm {A} (l l' : list A) : Permutation l l' -> subperm l l'.
Proof. intro P. exists []. exact P. Qed.
Lemma subperm_perm_l {A} (l l1 l' : list A) : Permutation l l1 -> subperm l1 l' -> subperm l l'.
Proof. intros P [r Q]. exists r. exact (Permutation_trans P Q). Qed.
Lemma subperm_cons {A} (x : A) l : subperm (x :: l) l.
Proof. exists [x]. apply Permutation_refl. Qed.
Lemma subperm_app {A} (a a' b b' : list A) : subperm a a' -> subperm b b' -> subperm (a ++ b) (a' ++ b').
Proof.
  intros [r P] [r' P']. exists (r ++ r'). apply (Permutation_trans (Permutation_app P P')).
  rewrite <- !app_assoc. apply Permutation_app_head. rewrite !app_assoc. apply Permutation_app_tail, Permutation_app_comm.
Qed.

Definition conn_ents (t : list user) (c : nat) : list user := filter (fun u => Nat.eqb (u_conn u) c) t.
Lemma conn_ents_app t t' c : conn_ents (t ++ t') c = conn_ents t c ++ conn_ents t' c.
Proof. apply filter_app. Qed.
Lemma conn_ents_swap_remove t i e c : nth_error t i = Some e ->
  Permutation (conn_ents t c) (conn_ents (e :: swap_remove t i) c).
Proof. intro H. apply Permutation_filter. now apply swap_remove_perm. Qed.

Section Keys.
  Variable ku : user -> N.
  Variable kf : N -> N -> N -> N.            (* key of the frame UReg m sig h *)

  Definition fkeys (l : list uframe) : list N :=
    flat_map (fun f => match f with UReg m s h => [kf m s h] | UUnreg _ _ _ => [] end) l.
  Definition keys (st : state) (c : nat) : list N := map ku (conn_ents (table st) c) ++ fkeys (up st c).

  Lemma fkeys_app a b : fkeys (a ++ b) = fkeys a ++ fkeys b.
  Proof. apply flat_map_app. Qed.

  Lemma fkeys_pop (u : nat -> list uframe) c f rest c0 : u c = f :: rest ->
    subperm (fkeys (u c0)) (fkeys (fupd u c rest c0)).
  Proof.
    intro H. destruct (Nat.eq_dec c0 c) as [->|Ne]; [|rewrite fset_neq by exact Ne; apply subperm_refl].
    rewrite fset_eq, H. exists (fkeys [f]). change (f :: rest) with ([f] ++ rest). now rewrite fkeys_app.
  Qed.

  Lemma keys_same_tables st st' c : table st' = table st -> up st' c = up st c -> keys st' c = keys st c.
  Proof. unfold keys. now intros -> ->. Qed.

  Lemma keys_swap_remove t i e c : nth_error t i = Some e ->
    subperm (map ku (conn_ents t c)) (map ku (conn_ents (swap_remove t i) c)).
  Proof.
    intro Ee. pose proof (conn_ents_swap_remove _ _ _ c Ee) as P. cbn [conn_ents filter] in P.
    destruct (Nat.eqb (u_conn e) c).
    - exists [ku e]. cbn. apply (Permutation_map ku) in P. exact P.
    - apply subperm_perm. now apply Permutation_map.
  Qed.
End Keys.

(* The keys a connection has used ([used]): of its table entries and registrations in flight ([keys])
   and of the registrations whose removal the object has acknowledged.  The reply to unregisterEvent
   notes the message id of the entry it removed; [kn] turns that note into keys (into none where
   removed keys are not followed), [pendnote] reads it off the answer being written and [gone_of] off
   the log of the answers written.  Only sending a registration adds a key, and that one is new to
   the client; an acknowledged removal moves a key from [keys] to [pendnote], the reply from there to
   the log; every other step leaves a [subperm]. *)
Section KeyInv.
  Variable ku : user -> N.
  Variable kf : N -> N -> N -> N.
  Variable kn : N -> list N.
  Variable known : cstate -> N -> Prop.
  Hypothesis ku_new : forall c m sig h, ku (new_user c m sig h) = kf m sig h.
  Hypothesis kn_ku : forall e, subperm [ku e] (kn (u_mid e)).
  Hypothesis known_count : forall k sig n x, known k x -> known (with_count k sig n) x.
  Hypothesis known_lock : forall k sig b x, known k x -> known (with_lock k sig b) x.
  Hypothesis known_reg : forall k sig h x, known k x ->
    known {| c_count := c_count k; c_hid := nupd (c_hid k) sig (c_hid k sig + h); c_lock := c_lock k;
             c_mid := c_mid k + 2; c_drawn := h :: c_drawn k |} x.
  Hypothesis fresh_reg : forall k sig h, h <> 0 -> ~ In h (c_drawn k) ->
    ~ known k (kf (c_mid k + 2) sig h) /\
    known {| c_count := c_count k; c_hid := nupd (c_hid k) sig (c_hid k sig + h); c_lock := c_lock k;
             c_mid := c_mid k + 2; c_drawn := h :: c_drawn k |} (kf (c_mid k + 2) sig h).
  Hypothesis known_unreg : forall k sig x, known k x ->
    known {| c_count := c_count k; c_hid := nupd (c_hid k) sig 0; c_lock := c_lock k;
             c_mid := c_mid k + 2; c_drawn := c_drawn k |} x.

  Definition note_keys (e : dframe * option N) : list N :=
    match e with (DReply _ _, Some m) => kn m | _ => [] end.
  Definition gone_of (log : list (dframe * option N)) : list N := flat_map note_keys log.
  Definition pendnote (st : state) (c : nat) : list N :=
    match pend st with Some (c', f, n) => if Nat.eqb c' c then note_keys (f, n) else [] | None => [] end.
  Definition used (st : state) (c : nat) : list N := keys ku kf st c ++ gone_of (dlog st c) ++ pendnote st c.
  Definition KInv (st : state) : Prop :=
    forall c, NoDup (used st c) /\ forall k, In k (used st c) -> known (cl st c) k.

  Lemma KInv_init : KInv init.
  Proof. intro c. split; [constructor|intros k []]. Qed.

  Lemma KInv_keys st c : KInv st -> NoDup (keys ku kf st c).
  Proof. intro H. exact (proj1 (proj1 (NoDup_app_iff _ _) (proj1 (H c)))). Qed.

  Lemma KInv_sub st st' :
    KInv st ->
    (forall c, subperm (used st c) (used st' c)) ->
    (forall c k, known (cl st c) k -> known (cl st' c) k) ->
    KInv st'.
  Proof.
    intros H Hs Hk c. destruct (H c) as [Hn Hin]. split.
    - eapply subperm_NoDup; [apply Hs|exact Hn].
    - intros k Hk'. apply Hk, Hin. eapply subperm_In; [apply Hs|exact Hk'].
  Qed.

  Lemma known_fupd (f : nat -> cstate) c0 k' c x :
    (known (f c0) x -> known k' x) -> known (f c) x -> known (fupd f c0 k' c) x.
  Proof. intros H Hx. unfold fupd. destruct (Nat.eqb c c0) eqn:E; [apply Nat.eqb_eq in E; subst; auto|exact Hx]. Qed.

  Lemma used_sub st st' c :
    subperm (keys ku kf st c) (keys ku kf st' c) ->
    gone_of (dlog st' c) ++ pendnote st' c = gone_of (dlog st c) ++ pendnote st c ->
    subperm (used st c) (used st' c).
  Proof. intros Hk Hg. unfold used. rewrite Hg. apply subperm_app; [exact Hk|apply subperm_refl]. Qed.

  Lemma KInv_step g st l st' : KInv st -> Step g st l st' -> KInv st'.
  Proof.
    (* the cases come in the order of the constructors of [Step]; two of them are taken out by number *)
    intros H HS. destruct HS.
    4:{ (* SSendReg, the fourth: the one step that adds a key; it is fresh *)
      intro c. destruct (H c) as [Hn Hin]. unfold used, keys, pendnote in *. psimpl.
      destruct (Nat.eq_dec c (s_conn x)) as [->|Ne]; [|rewrite !fset_neq by exact Ne; split; assumption].
      rewrite !fset_eq. rewrite fkeys_app. cbn [fkeys flat_map app].
      destruct (fresh_reg (cl st (s_conn x)) (s_sig x) h) as [F1 F2]; [assumption|assumption|].
      set (k := kf (c_mid (cl st (s_conn x)) + 2) (s_sig x) h) in *.
      set (A := map ku (conn_ents (table st) (s_conn x))) in *. set (F := fkeys kf (up st (s_conn x))) in *.
      set (G := gone_of (dlog st (s_conn x)) ++ _) in *.
      assert (P : Permutation (k :: (A ++ F) ++ G) ((A ++ F ++ [k]) ++ G)).
      { rewrite (app_assoc A F [k]). apply (Permutation_app_tail G (Permutation_cons_append (A ++ F) k)). }
      split.
      - apply (Permutation_NoDup P). constructor; [|exact Hn]. intro Hk. apply F1. now apply Hin.
      - intros k0 Hk. apply (Permutation_in _ (Permutation_sym P)) in Hk as [<-|Hk]; [exact F2|].
        apply known_reg. now apply Hin. }
    (* every other step: no client forgets an id it knows, and the keys in use after the step are among those
       before it *)
    all: apply (KInv_sub _ _ H);
      [intro c0
      |intros c0 k Hk; psimpl; try assumption; (apply known_fupd; [|assumption]);
       auto using known_count, known_lock, known_unreg].
    7:{ (* SMboxUnreg, the eighth of [Step], the seventh left: the key of the removed entry goes from the table
           to the note of the reply *)
      edestruct (find_idx_some (A := user)) as (e & Ee & Ie); [eassumption|].
      rewrite (nth_error_nth _ _ no_user Ee). unfold used, keys, pendnote. psimpl. rewrite Hpend.
      apply andb_prop in Ie as [_ Ec]. apply Nat.eqb_eq in Ec.
      pose proof (conn_ents_swap_remove _ _ _ c0 Ee) as P. cbn [conn_ents filter] in P. rewrite Ec in P.
      apply (Permutation_map ku) in P.
      destruct (Nat.eqb c c0).
      + apply subperm_perm_l with ((map ku (conn_ents (swap_remove (table st) i) c0) ++ fkeys kf (up st c0)) ++
                                   gone_of (dlog st c0) ++ [ku e]).
        * rewrite app_nil_r. cbn [map] in P.
          apply (Permutation_trans (Permutation_app_tail _ (Permutation_app_tail _ P))). cbn [app].
          rewrite (app_assoc _ (gone_of _) [ku e]). apply Permutation_cons_append.
        * apply subperm_app; [apply subperm_app; [apply subperm_refl|eapply fkeys_pop; eassumption]|].
          apply subperm_app; [apply subperm_refl|apply kn_ku].
      + apply subperm_app; [|apply subperm_refl].
        apply subperm_app; [apply subperm_perm; exact P|eapply fkeys_pop; eassumption]. }
    (* the same keys, unless a request is taken or sent; the same removed keys: a reply only carries its note to the
       log.  What is left after this line is named at each bullet *)
    all: apply used_sub;
      [unfold keys; psimpl; try apply subperm_refl
      |unfold pendnote; psimpl; try reflexivity; try (rewrite Hpend; now destruct (Nat.eqb c c0))].
    - (* SMboxReg *)
      destruct (Nat.eq_dec c0 c) as [->|Ne].
      + rewrite fset_eq, conn_ents_app. cbn [conn_ents filter new_user u_conn]. rewrite Nat.eqb_refl.
        rewrite Hup. cbn [fkeys flat_map app]. rewrite map_app. cbn [map]. rewrite ku_new.
        rewrite <- app_assoc. apply subperm_refl.
      + rewrite fset_neq by exact Ne. rewrite conn_ents_app. cbn [conn_ents filter new_user u_conn].
        rewrite (proj2 (Nat.eqb_neq c c0)) by congruence. rewrite app_nil_r. apply subperm_refl.
    - (* SMboxRegDead *)
      edestruct (find_idx_some (A := user)) as (e & Ee & _); [eassumption|].
      apply subperm_app; [exact (keys_swap_remove ku _ _ _ c0 Ee)|eapply fkeys_pop; eassumption].
    - (* SMboxRegErr *) apply subperm_app; [apply subperm_refl|eapply fkeys_pop; eassumption].
    - (* SMboxUnregErr *) apply subperm_app; [apply subperm_refl|eapply fkeys_pop; eassumption].
    - (* SReply *)
      rewrite Hpend. unfold gone_of. rewrite flat_map_push. apply app_nil_r.
    - (* SEmitSend *)
      unfold gone_of. rewrite flat_map_push. cbn [note_keys]. destruct (Nat.eqb _ c0); now rewrite app_nil_r.
    - (* SSendUnreg *)
      unfold fkeys. rewrite flat_map_push. destruct (Nat.eqb _ c0); rewrite app_nil_r; apply subperm_refl.
  Qed.
End KeyInv.

(* handler ids: distinct per connection among table entries and registrations in flight, all drawn by that client *)
Definition UidInv : state -> Prop := KInv u_uid (fun _ _ h => h) (fun _ => []) (fun k h => In h (c_drawn k)).
Lemma UidInv_init : UidInv init. Proof. apply KInv_init. Qed.
Lemma UidInv_step g st l st' : UidInv st -> Step g st l st' -> UidInv st'.
Proof.
  apply KInv_step; cbn; intros; auto. now exists [u_uid e].
Qed.

(* message ids of registrations: distinct per connection, allocated by that client *)
Definition MidInv : state -> Prop := KInv u_mid (fun m _ _ => m) (fun m => [m]) (fun k m => m <= c_mid k).
Lemma MidInv_init : MidInv init. Proof. apply KInv_init. Qed.
Lemma MidInv_step g st l st' : MidInv st -> Step g st l st' -> MidInv st'.
Proof.
  apply KInv_step; cbn; intros; try assumption; try lia. apply subperm_refl.
Qed.

(* with ids compared per connection, a registerEvent call in flight never meets a known id *)
Lemma uid_global_off_no_dup g st c m sig uid rest i :
  uid_global g = false -> UidInv st -> up st c = UReg m sig uid :: rest ->
  find_idx (same_user g c uid) (table st) = Some i -> False.
Proof.
  intros Hg H Hu Hf. destruct (find_idx_some _ _ _ Hf) as (e & Ee & Se).
  unfold same_user in Se. rewrite Hg in Se. cbn [orb] in Se. apply andb_prop in Se as [S1 S2].
  apply N.eqb_eq in S1. pose proof (KInv_keys _ _ _ _ _ c H) as Hn. unfold keys in Hn. rewrite Hu in Hn. cbn [fkeys flat_map app] in Hn.
  apply NoDup_app_iff in Hn as (_ & _ & Hd). eapply Hd; [|now left].
  rewrite <- S1. apply in_map. unfold conn_ents. apply filter_In. split; [eapply nth_error_In; exact Ee|exact S2].
Qed.

Definition uact (f : uframe) : N := match f with UReg _ _ _ => A_register | UUnreg _ _ _ => A_unregister end.
Definition umid (f : uframe) : N := match f with UReg m _ _ | UUnreg m _ _ => m end.
Definition umatch (a m : N) (f : uframe) : bool := (uact f =? a) && (umid f =? m).
Definition is_rep (a m : N) (f : dframe) : bool :=
  match dreply f with Some (a', m') => (a' =? a) && (m' =? m) | None => false end.
Definition n_up (st : state) (c : nat) (a m : N) : nat := cnt (umatch a m) (up st c).
Definition n_pend (st : state) (c : nat) (a m : N) : nat :=
  match pend st with Some (c', f, _) => if Nat.eqb c' c && is_rep a m f then 1 else 0 | None => 0 end.
Definition n_down (st : state) (c : nat) (a m : N) : nat := cnt (is_rep a m) (down st c).
Definition n_wait (st : state) (c : nat) (a m : N) : nat := cnt (waits c a m) (subs st).

Lemma is_rep_event a m sig mm p : is_rep a m (DEvent sig mm p) = false.
Proof. reflexivity. Qed.
Lemma is_rep_of a0 m0 r a m : dreply r = Some (a, m) -> is_rep a0 m0 r = (a =? a0) && (m =? m0).
Proof. unfold is_rep. now intros ->. Qed.

(* the call a subscriber waits for the answer of: action and message id *)
Definition wkey (p : pc) : option (N * N) :=
  match p with PWaitReg m => Some (A_register, m) | PWaitUnreg m => Some (A_unregister, m) | _ => None end.
Lemma waits_wkey c a m x : waits c a m x =
  Nat.eqb (s_conn x) c && match wkey (s_pc x) with Some (a', m') => (a' =? a) && (m' =? m) | None => false end.
Proof. unfold waits. destruct (s_pc x); cbn [wkey]; now rewrite ?(N.eqb_sym a). Qed.
Lemma waits_inv c a m x : waits c a m x = true ->
  s_conn x = c /\ ((a = A_register /\ s_pc x = PWaitReg m) \/ (a = A_unregister /\ s_pc x = PWaitUnreg m)).
Proof.
  unfold waits. intro H. apply andb_prop in H as [H1 H2]. apply Nat.eqb_eq in H1. split; [exact H1|].
  destruct (s_pc x); try discriminate; apply andb_prop in H2 as [Ha Hm]; apply N.eqb_eq in Ha, Hm; subst; auto.
Qed.

Lemma waits_same c a m x c0 a0 m0 : waits c a m x = true ->
  waits c0 a0 m0 x = Nat.eqb c c0 && ((a =? a0) && (m =? m0)).
Proof.
  intro H. destruct (waits_inv _ _ _ _ H) as [<- [[-> E]|[-> E]]]; unfold waits; rewrite E; now rewrite (N.eqb_sym a0).
Qed.

Definition Conserve (st : state) : Prop := forall c a m,
  (n_up st c a m + n_pend st c a m + n_down st c a m = n_wait st c a m)%nat /\
  (n_wait st c a m <= 1)%nat /\
  ((n_wait st c a m > 0)%nat -> m <= c_mid (cl st c)).

Lemma Conserve_init : Conserve init.
Proof. intros c a m. cbv. repeat split; lia. Qed.

(* an answer on its way down belongs to a call that waits for it *)
Lemma answer_has_waiter st c f rest act m :
  Conserve st -> down st c = f :: rest -> dreply f = Some (act, m) -> find_idx (waits c act m) (subs st) <> None.
Proof.
  intros H Hd Hr Hf. destruct (H c act m) as (E & _). unfold n_up, n_pend, n_down, n_wait in E.
  rewrite (proj2 (cnt_zero_iff _ _) (find_idx_none _ _ Hf)) in E.
  rewrite Hd, cnt_cons, (is_rep_of _ _ _ _ _ Hr), !N.eqb_refl in E. cbn [andb] in E. lia.
Qed.

(* a subscriber moves on: the waiting calls stay as they are unless it sends a request or takes an answer *)
Lemma waits_keep c a m l s x x' : nth_error l s = Some x -> s_conn x' = s_conn x -> wkey (s_pc x') = wkey (s_pc x) ->
  cnt (waits c a m) (set_nth l s x') = cnt (waits c a m) l.
Proof.
  intros Hx Hc Hw. pose proof (cnt_set_nth (waits c a m) l s x' x Hx) as E.
  rewrite (waits_wkey c a m x'), Hc, Hw, <- waits_wkey in E. lia.
Qed.
Lemma c_mid_fupd (f : nat -> cstate) c0 k c : c_mid (f c0) <= c_mid k -> c_mid (f c) <= c_mid (fupd f c0 k c).
Proof. intro H. unfold fupd. destruct (Nat.eqb c c0) eqn:E; [apply Nat.eqb_eq in E; subst; exact H|lia]. Qed.
(* a subscriber sends the request f of a call, drawing the message id c_mid k: the one step after which a call waits
   that did not wait before; its id is above every id the client has used *)
Lemma call_sent (u : nat -> list uframe) (kf : nat -> cstate) l s x x' f k c a m (P D : nat) :
  nth_error l s = Some x -> s_conn x' = s_conn x -> wkey (s_pc x) = None -> wkey (s_pc x') = Some (uact f, umid f) ->
  c_mid k = umid f -> c_mid (kf (s_conn x)) < umid f ->
  (cnt (umatch a m) (u c) + P + D = cnt (waits c a m) l)%nat -> (cnt (waits c a m) l <= 1)%nat ->
  ((cnt (waits c a m) l > 0)%nat -> m <= c_mid (kf c)) ->
  (cnt (umatch a m) (fupd u (s_conn x) (u (s_conn x) ++ [f]) c) + P + D = cnt (waits c a m) (set_nth l s x'))%nat /\
  (cnt (waits c a m) (set_nth l s x') <= 1)%nat /\
  ((cnt (waits c a m) (set_nth l s x') > 0)%nat -> m <= c_mid (fupd kf (s_conn x) k c)).
Proof.
  intros Hx Hc Hw Hw' Hk Hlt E L B. pose proof (cnt_set_nth (waits c a m) l s x' x Hx) as En.
  rewrite !waits_wkey, Hc, Hw, Hw', andb_false_r in En. fold (umatch a m f) in En. rewrite cnt_push.
  destruct (Nat.eqb_spec (s_conn x) c) as [<-|Ne]; cbn [andb] in *; [|rewrite fset_neq by congruence; lia].
  rewrite fset_eq. destruct (umatch a m f) eqn:Em; [|lia]. apply andb_prop in Em as [_ Em]. apply N.eqb_eq in Em. lia.
Qed.

(* client.messageID only grows *)
Lemma c_mid_mono g st l st' c : CStep g st l st' -> c_mid (cl st c) <= c_mid (cl st' c).
Proof. destruct 1; psimpl; try apply N.le_refl; apply c_mid_fupd; cbn; lia. Qed.

Lemma Conserve_step g st l st' : Conserve st -> CStep g st l st' -> Conserve st'.
Proof.
  (* one call (c0, a0, m0) at a time: each case says which of its four counts the step moves.  B': a call that waited
     before the step keeps its bound; only a request just sent needs more *)
  intros H HS c0 a0 m0. destruct (H c0 a0 m0) as (E & L & B).
  pose proof (fun Hw => N.le_trans _ _ _ (B Hw) (c_mid_mono g st l st' c0 HS)) as B'.
  unfold n_up, n_pend, n_down, n_wait in *. destruct HS; psimpl.
  - (* CInstall *) rewrite cnt_app, cnt_cons, cnt_nil, waits_wkey. cbn [new_sub s_pc wkey]. rewrite andb_false_r. lia.
  - (* CCountFirst *) rewrite (waits_keep _ _ _ _ _ _ _ Hx) by (cbn; now rewrite ?Hpc). auto.
  - (* CCountMore *) rewrite (waits_keep _ _ _ _ _ _ _ Hx) by (cbn; now rewrite ?Hpc). auto.
  - (* CSendReg *) eapply call_sent; try eassumption; cbn; rewrite ?Hpc; try reflexivity; lia.
  - (* CMboxReg *) rewrite Hpend, (cnt_pop _ _ _ _ _ c0 Hup) in E. unfold is_rep, umatch in *. cbn [dreply uact umid] in *. lia.
  - (* CMboxUnreg *) rewrite Hpend, (cnt_pop _ _ _ _ _ c0 Hup) in E. unfold is_rep, umatch in *. cbn [dreply uact umid] in *. lia.
  - (* CReply *) rewrite Hpend in E. rewrite cnt_push. lia.
  - (* CEmitSnap *)
    rewrite cnt_map; [lia|]. intro y. unfold waits, note_emit. now destruct ((s_sig y =? sig) && live (s_pc y)).
  - (* CEmitSend *) rewrite cnt_push, is_rep_event, andb_false_r. lia.
  - (* CRecvEvent *)
    rewrite (cnt_pop _ _ _ _ _ c0 Hdown), is_rep_event, andb_false_r in E. cbn [dispatch_event fst].
    rewrite cnt_map; [lia|]. intro y. unfold waits, enqueue.
    destruct (Nat.eqb (s_conn y) c && (s_sig y =? sig) && live (s_pc y)); try reflexivity.
    now destruct (Nat.ltb (List.length (s_queue y)) QueueCap).
  - (* CRecvAnswer: answer dispatched: the call's one representative leaves down c, the call returns *)
    pose proof (cnt_set_nth (waits c0 a0 m0) _ s (answer_sub x f) x Hx) as Hc.
    assert (Hx' : waits c0 a0 m0 (answer_sub x f) = false).
    { rewrite waits_wkey. unfold answer_sub. destruct (s_pc x), f; apply andb_false_r. }
    rewrite Hx', (waits_same _ _ _ _ c0 a0 m0 Hw) in Hc.
    rewrite (cnt_pop _ _ _ _ _ c0 Hdown), (is_rep_of _ _ _ _ _ Hrep) in E. lia.
  - (* CCancelLast *) rewrite (waits_keep _ _ _ _ _ _ _ Hx) by (cbn; now rewrite ?Hpc). auto.
  - (* CCancelMore *) rewrite (waits_keep _ _ _ _ _ _ _ Hx) by (cbn; now rewrite ?Hpc). auto.
  - (* CSendUnreg *) eapply call_sent; try eassumption; cbn; rewrite ?Hpc; try reflexivity; lia.
  - (* CDeliver *) rewrite (waits_keep _ _ _ _ _ _ _ Hx) by reflexivity. auto.
  - (* CFanClose *) rewrite (waits_keep _ _ _ _ _ _ _ Hx) by (cbn; now rewrite ?Hpc). auto.
Qed.
