(* PropertyMultiProofs.v — an object with several properties is a family of independent registers:
   an operation acts on the register its name resolves to exactly as Property.pstep does and leaves
   every other register as it was; hence reading a property returns the last accepted write of THAT
   property whatever was done to the others. *)
From Coq Require Import String.
From QV Require Import Bytes Property PropertyProofs PropertyMulti Lin LinProofs.
Import ListNotations.
Local Open Scope N_scope.

Lemma mupd_length : forall k s ms, List.length (mupd k s ms) = List.length ms.
Proof.
  induction k; intros s [|x r]; simpl; auto.
Qed.

Lemma mreg_mupd : forall k j s ms, (k < List.length ms)%nat ->
  mreg (mupd k s ms) j = if Nat.eqb j k then s else mreg ms j.
Proof.
  unfold mreg. induction k; intros [|j] s [|x r] H; simpl in *; try lia; auto.
  apply IHk. lia.
Qed.

Lemma idx_name_lt : forall t s k, idx_name t s = Some k -> (k < List.length t)%nat.
Proof.
  induction t as [|[n u] r IH]; intros s k H; simpl in *; [discriminate|].
  destruct (String.eqb n s).
  - inversion H. lia.
  - destruct (idx_name r s) eqn:E; simpl in H; [|discriminate].
    inversion H. specialize (IH _ _ E). lia.
Qed.

Lemma idx_uid_lt : forall t u k, idx_uid t u = Some k -> (k < List.length t)%nat.
Proof.
  induction t as [|[n u'] r IH]; intros u k H; simpl in *; [discriminate|].
  destruct (u' =? u).
  - inversion H. lia.
  - destruct (idx_uid r u) eqn:E; simpl in H; [|discriminate].
    inversion H. specialize (IH _ _ E). lia.
Qed.

Lemma at_reg_some : forall o ko k po, at_reg o ko = Some (k, po) -> ko = Some k /\ po = o.
Proof.
  intros o [i|] k po H; simpl in H; [|discriminate]. inversion H. auto.
Qed.

Lemma localize_lt : forall t o k po, localize t o = Some (k, po) -> (k < List.length t)%nat.
Proof.
  intros t o k po H. destruct o as [[]|[] v|u x|u c mid]; try discriminate;
    apply at_reg_some in H as [H _]; eauto using idx_name_lt, idx_uid_lt.
Qed.

Section Multi.
  Variable t : ptable.
  Variable c : pcfg.
  Variable valid : N -> bool.

  Theorem mstep_local : forall ms o k po, List.length ms = List.length t ->
    localize t o = Some (k, po) ->
    let '(s1, r, ev) := pstep c valid (mreg ms k) po in
    let '(ms', r', ev') := mstep t c valid ms o in
    r' = r /\ ev' = map (fun e => (uid_of t k, e)) ev /\ mreg ms' k = s1 /\
    List.length ms' = List.length t /\
    forall j, j <> k -> mreg ms' j = mreg ms j.
  Proof.
    intros ms o k po Hl Hloc. unfold mstep. rewrite Hloc.
    destruct (pstep c valid (mreg ms k) po) as [[s1 r] ev].
    pose proof (localize_lt _ _ _ _ Hloc) as Hk. rewrite <- Hl in Hk. repeat split.
    - now rewrite mreg_mupd, Nat.eqb_refl.
    - now rewrite mupd_length.
    - intros j Hj. apply Nat.eqb_neq in Hj. now rewrite mreg_mupd, Hj.
  Qed.

  Theorem mrejected_unchanged : forall ms o ms' ev, List.length ms = List.length t ->
    (forall k po, localize t o = Some (k, po) -> match po with PGet _ => False | _ => True end) ->
    mstep t c valid ms o = (ms', RFail, ev) ->
    (forall j, mreg ms' j = mreg ms j) /\ ev = [].
  Proof.
    intros ms o ms' ev Hl Hw H. unfold mstep in H.
    destruct (localize t o) as [[k po]|] eqn:Hloc.
    - destruct (pstep c valid (mreg ms k) po) as [[s1 r] ev1] eqn:Hp. injection H as <- -> <-.
      destruct (rejected_unchanged _ _ _ _ _ _ Hp) as [-> ->]. split; [|reflexivity].
      intros j. rewrite mreg_mupd by (rewrite Hl; exact (localize_lt _ _ _ _ Hloc)).
      now destruct (Nat.eqb_spec j k) as [->|].
    - injection H as <- <-. split; reflexivity.
  Qed.

  Lemma mstep_length : forall ms o, List.length ms = List.length t ->
    List.length (fst (fst (mstep t c valid ms o))) = List.length t.
  Proof.
    intros ms o Hl. unfold mstep.
    destruct (localize t o) as [[k po]|]; [|exact Hl].
    destruct (pstep c valid (mreg ms k) po) as [[s1 r] ev]. simpl.
    rewrite mupd_length. exact Hl.
  Qed.

  Lemma mrun_cons : forall ms o r,
    fst (mrun t c valid ms (o :: r)) = fst (mrun t c valid (fst (fst (mstep t c valid ms o))) r).
  Proof.
    intros ms o r. simpl.
    destruct (mstep t c valid ms o) as [[s1 res] ev]. simpl.
    destruct (mrun t c valid s1 r) as [s2 l]. reflexivity.
  Qed.

  Theorem mrun_projection : forall ops ms k, List.length ms = List.length t ->
    mreg (fst (mrun t c valid ms ops)) k = fst (prun c valid (mreg ms k) (ops_for t k ops)).
  Proof.
    induction ops as [|o r IH]; intros ms k Hl; [reflexivity|].
    rewrite mrun_cons.
    rewrite IH by (apply mstep_length; exact Hl).
    simpl ops_for. unfold mstep.
    destruct (localize t o) as [[k' po]|] eqn:Hloc; [|reflexivity].
    destruct (pstep c valid (mreg ms k') po) as [[s1 res] ev] eqn:Hp. simpl.
    rewrite mreg_mupd, Nat.eqb_sym by (rewrite Hl; exact (localize_lt _ _ _ _ Hloc)).
    destruct (Nat.eqb_spec k' k) as [->|]; [|reflexivity]. now rewrite prun_cons, Hp.
  Qed.

  Lemma minit_length : List.length (minit t) = List.length t.
  Proof. unfold minit. apply map_length. Qed.

  Lemma mreg_minit : forall k, mreg (minit t) k = pinit.
  Proof.
    unfold mreg, minit. induction t as [|x r IH]; intros [|k]; simpl; auto.
  Qed.

End Multi.

(* executed: two properties; UpdateA(1) ; then UpdateA(2) overlapping UpdateB(2), both accepted ;
   then reads.  a = 2 and b = 2 is a legal outcome; a = 1 (the accepted write of 2 to a lost because
   of a write to ANOTHER property) is not, whatever order the two overlapping writes took. *)
Definition ex_table : ptable := [("a"%string, 101); ("b"%string, 102)].
Definition ex_hist (a_reads : N) : list (orec mop pres) :=
  [ {| o_tid := 0; o_op := MUpdate 101 1; o_inv := 1; o_ret := Some (2, RDone) |};
    {| o_tid := 0; o_op := MUpdate 101 2; o_inv := 3; o_ret := Some (6, RDone) |};
    {| o_tid := 1; o_op := MUpdate 102 2; o_inv := 4; o_ret := Some (5, RDone) |};
    {| o_tid := 0; o_op := MGet (NmStr "a"); o_inv := 7;
       o_ret := Some (8, RVal {| cv_sig := "i"; cv_data := le 4 a_reads |}) |};
    {| o_tid := 1; o_op := MGet (NmStr "b"); o_inv := 9;
       o_ret := Some (10, RVal {| cv_sig := "i"; cv_data := le 4 2 |}) |} ].
