(* SigFacts.v — facts about the definitions of Sig.v: the boolean equalities decide equality; the character classes
   hold no white space and no '<'; what an identifier and a struct name look like. *)
From QV Require Import Sig Peg PegProofs.

Lemma scalar_eqb_eq : forall a b, scalar_eqb a b = true <-> a = b.
Proof. intros a b; split; [destruct a, b; (discriminate || reflexivity)|intros <-; destruct a; reflexivity]. Qed.

Lemma ty_eqb_refl : forall t, ty_eqb t t = true.
Proof.
  induction t as [s|t IHt|k v IHk IHv|ts IHts|n fs IHfs] using ty_ind2; cbn [ty_eqb].
  - now apply scalar_eqb_eq.
  - exact IHt.
  - now rewrite IHk, IHv.
  - induction IHts as [|x r Hx Hr IH]; [reflexivity|]. now rewrite Hx, IH.
  - rewrite String.eqb_refl. cbn [andb].
    induction IHfs as [|[a x] r Hx Hr IH]; [reflexivity|]. cbn [snd] in Hx.
    now rewrite String.eqb_refl, Hx, IH.
Qed.

Lemma ty_eqb_true : forall a b, ty_eqb a b = true -> a = b.
Proof.
  induction a as [s|t IHt|k v IHk IHv|ts IHts|n fs IHfs] using ty_ind2; intros b H;
    destruct b as [s'|t'|k' v'|ts'|n' fs']; cbn [ty_eqb] in H; try discriminate.
  - f_equal. now apply scalar_eqb_eq.
  - f_equal. now apply IHt.
  - apply andb_true_iff in H as [H1 H2]. f_equal; [now apply IHk|now apply IHv].
  - f_equal. revert ts' H.
    induction IHts as [|x r Hx Hr IH]; intros [|y r'] H; try discriminate; [reflexivity|].
    apply andb_true_iff in H as [H1 H2]. f_equal; [now apply Hx|now apply IH].
  - apply andb_true_iff in H as [Hn H]. apply String.eqb_eq in Hn. subst n'. f_equal.
    revert fs' H.
    induction IHfs as [|[a x] r Hx Hr IH]; intros [|[b y] r'] H; try discriminate; [reflexivity|].
    cbn [snd] in Hx.
    apply andb_true_iff in H as [H12 H3]. apply andb_true_iff in H12 as [H1 H2].
    apply String.eqb_eq in H1. subst b. f_equal; [f_equal; now apply Hx|now apply IH].
Qed.

Local Open Scope string_scope.

Lemma alpha_not_ws c : is_alpha c = true -> @is_ws c = false.
Proof. now apply class_not_ws. Qed.
Lemma alnum_not_ws c : is_alnum_ c = true -> @is_ws c = false.
Proof. now apply class_not_ws. Qed.
Lemma alpha_alnum c : is_alpha c = true -> is_alnum_ c = true.
Proof. unfold is_alnum_. now intros ->. Qed.
Lemma alnum_not_lt c : is_alnum_ c = true -> Ascii.eqb c "<" = false.
Proof. now apply class_neq. Qed.

Lemma last_char c r : exists i x, String c r = i ++ String x "".
Proof.
  revert c; induction r as [|c' r IH]; intro c.
  - exists "", c. reflexivity.
  - destruct (IH c') as (i & x & E). exists (String c i), x. cbn. now rewrite E.
Qed.

Lemma substring_skip a k b : substring (String.length a) k (a ++ b) = substring 0 k b.
Proof. induction a as [|c a IH]; cbn; [reflexivity|exact IH]. Qed.

Lemma substring_take a b : substring 0 (String.length a) (a ++ b) = a.
Proof.
  induction a as [|c a IH]; cbn.
  - destruct b; reflexivity.
  - now rewrite IH.
Qed.

Lemma drop_last_gt_app i x : drop_last_gt (i ++ String x "") = if Ascii.eqb x ">" then Some i else None.
Proof.
  unfold drop_last_gt. rewrite slen_app. cbn [String.length]. rewrite Nat.add_1_r.
  rewrite substring_skip, substring_take. cbn.
  destruct (Ascii.eqb x ">"); reflexivity.
Qed.

Lemma drop_last_gt_spec s i : drop_last_gt s = Some i -> s = i ++ ">".
Proof.
  destruct s as [|c r]; [discriminate|].
  destruct (last_char c r) as (j & x & E). rewrite E, drop_last_gt_app.
  destruct (Ascii.eqb x ">") eqn:Hx; [|discriminate].
  apply Ascii.eqb_eq in Hx. subst x. intro H. now inversion H.
Qed.

Lemma split_lt_spec s a b : split_lt s = Some (a, b) -> s = a ++ String "<" b.
Proof.
  revert a b; induction s as [|c s IH]; cbn; intros a b H; [discriminate|].
  destruct (Ascii.eqb c "<") eqn:Hc.
  - apply Ascii.eqb_eq in Hc. inversion H; subst. reflexivity.
  - destruct (split_lt s) as [[a' b']|]; [|discriminate]. inversion H; subst.
    cbn. now rewrite (IH a' b eq_refl).
Qed.

Lemma split_lt_app a x : all_chars is_alnum_ a = true -> split_lt (a ++ String "<" x) = Some (a, x).
Proof.
  induction a as [|c a IH]; cbn; intro H; [reflexivity|].
  apply andb_prop in H as [Hc Ha]. rewrite (alnum_not_lt c Hc), IH by assumption. reflexivity.
Qed.

Definition sn_shape (n : string) : Prop :=
  is_ident n = true \/
  exists a b, n = a ++ "<" ++ b ++ ">" /\ is_ident a = true /\ is_ident b = true.

Lemma is_struct_name_shape n : is_struct_name n = true -> sn_shape n.
Proof.
  unfold is_struct_name. intro H. apply orb_prop in H as [H|H]; [now left|right].
  destruct (split_lt n) as [[a b]|] eqn:E1; [|discriminate].
  destruct (drop_last_gt b) as [i|] eqn:E2; [|discriminate].
  apply andb_prop in H as [Ha Hi]. apply split_lt_spec in E1. apply drop_last_gt_spec in E2.
  exists a, i. subst b. auto.
Qed.

Lemma is_ident_inv s : is_ident s = true -> exists c r, s = String c r /\ is_alpha c = true /\ all_chars is_alnum_ r = true.
Proof. destruct s as [|c r]; cbn; [discriminate|]. intro H. apply andb_prop in H as [H1 H2]. eauto. Qed.

Lemma shape_is_struct_name n : sn_shape n -> is_struct_name n = true.
Proof.
  unfold is_struct_name. intros [H|(a & b & E & Ha & Hb)]; [now rewrite H|].
  apply orb_true_iff. right.
  destruct (is_ident_inv a Ha) as (c & r & Ea & Hc & Hr).
  assert (Hall : all_chars is_alnum_ a = true) by (subst a; cbn; now rewrite (alpha_alnum c Hc), Hr).
  subst n. rewrite sapp_cons, sapp_nil_l, split_lt_app, drop_last_gt_app by assumption. cbn. now rewrite Ha, Hb.
Qed.

Lemma skip_ws_alpha c r : is_alpha c = true -> skip_ws (String c r) = String c r.
Proof. intro H. cbn. now rewrite (alpha_not_ws c H). Qed.
