(* The handler table of bus/net/endpoint.go. A handler is in one of four phases: in the table, before the first or
   the second half of its closeWith goroutine, through. [hinv] says what a phase promises of a handler, [Inv] that
   every handler keeps the promise of its phase. An operation on one handler is specified by the phase it leaves the
   handler in and by [evolves], a label by [outcome_ok] ([step_inv]), a sequence of labels by [run_from_spec] (C17, and
   the queues of C10). What the theorems say of a handler is read off a state that satisfies [Inv]: its history oldest
   first ([open_shape], [half_shape], [done_shape], together [lifecycle]), its counters ([closed_once]), and for C10
   what its filter was shown and what it kept ([window] and [expect] of Endpoint.v, [selected]). Progress is apart from
   the invariant: the goroutine at the head of [st_go] can take its step ([go_head_runs]) and [go_weight] falls, so the
   goroutines drain ([goroutines_finish]); a consumer empties its queue ([drain_queue]). The senders' theorems of C10
   ([Interleaving], [send_run]) all come from one fact about [pop_nth]. Last, the computed runs that props/ cite as
   witnesses: every kind of label ([ex_run]), two senders ([ex_send]). *)
From QV Require Import ListFacts ReaderProofs MessageProofs Endpoint.
From Coq Require Import Permutation.
Local Open Scope nat_scope.

Lemma nth_error_lt_Some {A} (l : list A) n : n < List.length l -> exists x, nth_error l n = Some x.
Proof. intro H. destruct (nth_error l n) eqn:E; [eauto|]. apply nth_error_None in E. lia. Qed.

Lemma nth_error_snoc_neq {A} (l : list A) a n : n <> List.length l -> nth_error (l ++ [a]) n = nth_error l n.
Proof.
  intro H. destruct (Nat.lt_ge_cases n (List.length l)); [now apply nth_error_app1|].
  transitivity (@None A); [|symmetry]; apply nth_error_None; rewrite ?app_length; cbn; lia.
Qed.

Lemma nth_error_split_set {A} (l : list A) n x y : nth_error l n = Some x ->
  exists l1 l2, l = l1 ++ x :: l2 /\ set_nth n y l = l1 ++ y :: l2.
Proof.
  revert n; induction l as [|z l IH]; intros [|n] H; cbn in H; try discriminate.
  - inversion H; subst. exists [], l. auto.
  - destruct (IH n H) as (l1 & l2 & E1 & E2). exists (z :: l1), l2. cbn. rewrite <- E1, E2. auto.
Qed.

Lemma in_elt_iff {A} (a y : A) l1 l2 : y <> a -> In y (l1 ++ a :: l2) <-> In y (l1 ++ l2).
Proof. intro H. rewrite !in_app_iff. cbn. intuition congruence. Qed.

Lemma all_nil_nth {A} (ls : list (list A)) i : Forall (fun l => l = []) ls -> nth i ls [] = [].
Proof.
  intro F. destruct (nth_in_or_default i ls []) as [Hin|E]; [|exact E]. rewrite Forall_forall in F. now apply F.
Qed.

Lemma proj_cons {A} i j (x : A) t :
  map snd (List.filter (fun p => Nat.eqb (fst p) j) ((i, x) :: t)) =
  (if Nat.eqb i j then [x] else []) ++ map snd (List.filter (fun p => Nat.eqb (fst p) j) t).
Proof. cbn. destruct (Nat.eqb i j); reflexivity. Qed.

Lemma slot_hids_app a b : slot_hids (a ++ b) = slot_hids a ++ slot_hids b.
Proof. induction a as [|[x|] a IH]; cbn; [reflexivity| now rewrite IH | exact IH]. Qed.

Lemma slot_hids_all_none (sl : list (option nat)) : slot_hids (map (fun _ => None) sl) = [].
Proof. induction sl; cbn; auto. Qed.

Lemma slot_hids_set_some sl i x : nth_error sl i = Some None -> Permutation (slot_hids (set_nth i (Some x) sl)) (x :: slot_hids sl).
Proof.
  intro H. destruct (nth_error_split_set sl i None (Some x) H) as (l1 & l2 & E1 & E2).
  rewrite E2, E1, !slot_hids_app. cbn. symmetry. apply Permutation_middle.
Qed.

Lemma in_slot_hids sl n x : nth_error sl n = Some (Some x) -> In x (slot_hids sl).
Proof. intro H. destruct (nth_error_split_set sl n _ None H) as (l1 & l2 & -> & _). rewrite slot_hids_app. apply in_elt. Qed.

Lemma first_free_spec sl i : first_free sl = Some i -> nth_error sl i = Some None.
Proof.
  revert i; induction sl as [|[x|] sl IH]; intros i H; cbn in H; try discriminate.
  - destruct (first_free sl) as [j|]; [|discriminate]. inversion H; subst. cbn. now apply IH.
  - inversion H; subst. reflexivity.
Qed.

Lemma first_free_none sl : first_free sl = None -> forall i, nth_error sl i <> Some None.
Proof.
  induction sl as [|[x|] sl IH]; intros H i; cbn in H.
  - destruct i; discriminate.
  - destruct (first_free sl) eqn:E; [discriminate|]. destruct i; cbn; [discriminate| now apply IH].
  - discriminate.
Qed.

Lemma find_go_spec hid st g e pre post : find_go hid st g = Some (e, pre, post) -> g = pre ++ (hid, e, st) :: post.
Proof.
  revert pre; induction g as [|[[h e0] b] g IH]; intros pre H; cbn [find_go] in H; [discriminate|].
  destruct (Nat.eqb h hid && Bool.eqb b st) eqn:E.
  - injection H as <- <- <-. apply andb_true_iff in E as [E1 E2]. apply Nat.eqb_eq in E1. apply Bool.eqb_prop in E2. now subst.
  - destruct (find_go hid st g) as [[[e' pre'] post']|]; [|discriminate]. injection H as <- <- <-. cbn [app]. f_equal. now apply IH.
Qed.

Definition is_msg (e : hev) : bool := match e with HMsg _ _ _ _ => true | _ => false end.

Definition open_log (l : list hev) : Prop := exists evs i, l = evs ++ [HMade i] /\ forallb is_msg evs = true.
Definition closer_part (cl : option bool) (e : cerr) : list hev := match cl with None => [] | Some _ => [HCloser e] end.
Definition half_log (cl : option bool) (e : cerr) (l : list hev) : Prop := exists l0, l = closer_part cl e ++ l0 /\ open_log l0.
Definition done_log (cl : option bool) (l : list hev) : Prop := exists e l0, l = HQClose :: closer_part cl e ++ l0 /\ open_log l0.

Lemma open_log_cons_msg m a k r l : open_log l -> open_log (HMsg m a k r :: l).
Proof. intros (evs & i & E & F). exists (HMsg m a k r :: evs), i. subst. cbn. auto. Qed.

(* every HMsg entry carries the filter's answer on the headers shown before *)
Definition filter_ok (f : filter) (l : list hev) : Prop :=
  forall l1 m a k r l2, l = l1 ++ HMsg m a k r :: l2 -> (a, k) = f (seen_of l2) (m_header m).

Lemma filter_ok_cons f e l : filter_ok f (e :: l) <->
  match e with HMsg m a k _ => (a, k) = f (seen_of l) (m_header m) | _ => True end /\ filter_ok f l.
Proof.
  split.
  - intro H. split; [destruct e; auto; exact (H [] _ _ _ _ l eq_refl)|].
    intros l1 m a k r l2 E. apply (H (e :: l1) m a k r l2). cbn. now rewrite E.
  - intros [He H] l1 m a k r l2 E. destruct l1 as [|x l1]; cbn in E; inversion E; subst; [exact He|eapply H; eauto].
Qed.

Inductive phase := PLive | PPend0 (e : cerr) | PPend1 (e : cerr) | PDone.

Definition go_hids (g : list (nat * cerr * bool)) : list nat := map (fun x => fst (fst x)) g.

Definition phase_rel (s : state) (hid : nat) (ph : phase) : Prop :=
  match ph with
  | PLive => In hid (slot_hids (st_slots s))
  | PPend0 e => In (hid, e, false) (st_go s)
  | PPend1 e => In (hid, e, true) (st_go s)
  | PDone => ~ In hid (slot_hids (st_slots s)) /\ ~ In hid (go_hids (st_go s))
  end.

Definition hinv (ph : phase) (h : handler) : Prop :=
  match ph with
  | PLive | PPend0 _ => h_closed h = false /\ open_log (h_log h)
  | PPend1 e => h_closed h = false /\ half_log (h_closer h) e (h_log h)
  | PDone => h_closed h = true /\ done_log (h_closer h) (h_log h)
  end
  /\ h_recvd h ++ h_buf h = enqueued h
  /\ filter_ok (h_filter h) (h_log h).

(* What an operation does to a handler is said twice: where it moves the handler in its life (hinv),
   and what a later observer can tell ([evolves]: whether its callbacks call back into the endpoint
   is as it was, the filter has been consulted for these messages since). *)
Definition evolves (ms : list msg) (h h' : handler) : Prop :=
  h_fre h' = h_fre h /\ h_closer h' = h_closer h /\ consulted h' = consulted h ++ ms.

Lemma evolves_refl h : evolves [] h h.
Proof. unfold evolves. now rewrite app_nil_r. Qed.
Lemma evolves_trans a b h1 h2 h3 : evolves a h1 h2 -> evolves b h2 h3 -> evolves (a ++ b) h1 h3.
Proof. intros (?&?&C1) (?&?&C2). unfold evolves. rewrite C2, C1, <- app_assoc. repeat split; congruence. Qed.

Lemma evolves_add_other e h : is_msg e = false -> evolves [] h (add_log e h).
Proof. intro H. unfold evolves. rewrite app_nil_r. destruct e; try discriminate; repeat split. Qed.

Lemma enqueued_add_other e h : is_msg e = false -> enqueued (add_log e h) = enqueued h.
Proof. intro H. unfold enqueued, add_log, set_log; cbn. destruct e; try discriminate; reflexivity. Qed.

Definition queue_ok (h : handler) : Prop :=
  h_recvd h ++ h_buf h = enqueued h /\ filter_ok (h_filter h) (h_log h).

Lemma queue_ok_add_other e h : is_msg e = false -> queue_ok h -> queue_ok (add_log e h).
Proof.
  intros He [Hq Hf]. split; [rewrite enqueued_add_other by exact He; exact Hq|apply filter_ok_cons; split; [destruct e; try discriminate; exact I|exact Hf]].
Qed.

(* what an operation that takes a handler to phase ph promises of its result; dl is what a deadlock tells *)
Inductive hres_to (ph : phase) (h : handler) (dl : Prop) : hres -> Prop :=
| to_ok h' : hinv ph h' -> evolves [] h h' -> hres_to ph h dl (HOk h')
| to_deadlock : dl -> hres_to ph h dl HDeadlock.

Lemma call_closer_spec ul e h : hinv (PPend0 e) h ->
  hres_to (PPend1 e) h (ul = true /\ h_closer h = Some true) (call_closer ul e h).
Proof.
  intros ((Hc & Hlog) & Hq). unfold call_closer. destruct (h_closer h) as [re|] eqn:E.
  - destruct (re && ul) eqn:B; [apply andb_true_iff in B as [-> ->]; now right|].
    left; [|now apply evolves_add_other]. split; [split; [exact Hc|]|now apply queue_ok_add_other].
    cbn [h_closer h_log add_log set_log]. rewrite E. exists (h_log h). auto.
  - left; [|apply evolves_refl]. split; [split; [exact Hc|]|exact Hq]. rewrite E. exists (h_log h). auto.
Qed.

Lemma close_queue_spec e h : hinv (PPend1 e) h -> hres_to PDone h False (close_queue h).
Proof.
  intros ((Hc & l0 & Hl & Ho) & Hq). unfold close_queue. rewrite Hc.
  left; [|exact (evolves_add_other HQClose (set_closed h) eq_refl)].
  split; [split; [reflexivity|]|exact (queue_ok_add_other HQClose (set_closed h) eq_refl Hq)].
  exists e, l0. cbn. now rewrite Hl.
Qed.

Lemma close_with_spec e h : hinv PLive h -> hres_to PDone h (h_closer h = Some true) (close_with true e h).
Proof.
  intro Hi. unfold close_with. destruct (call_closer_spec true e h Hi) as [h1 I1 E1|[_ Hd]]; [|now right].
  destruct (close_queue_spec e h1 I1) as [h2 I2 E2|[]]. left; [exact I2|exact (evolves_trans [] [] _ _ _ E1 E2)].
Qed.

(* a handler that breaks the contract: its filter or its closer calls back into the endpoint *)
Definition bad (h : handler) : Prop := h_fre h = true \/ h_closer h = Some true.

Lemma disp_one_spec m h ret : hinv PLive h ->
  match disp_one m h ret with
  | D1Panic _ => False
  | D1Deadlock => bad h
  | D1Ok h' keepslot _ _ => hinv (if keepslot then PLive else PDone) h' /\ evolves [m] h h'
  end.
Proof.
  intros ((Hc & Hlog) & Hq & Hf). unfold disp_one.
  destruct (h_fre h) eqn:Hfre; [now left|].
  destruct (h_filter h (seen_of (h_log h)) (m_header m)) as [matched keep] eqn:Ef.
  rewrite Hc, andb_false_r.
  set (room := Nat.ltb (List.length (h_buf h)) (h_cap h)).
  set (h1 := if matched && room then set_buf h (h_buf h ++ [m]) else h).
  set (h2 := add_log (HMsg m matched keep room) h1).
  assert (E2 : evolves [m] h h2) by (unfold h2, h1; destruct (matched && room); repeat split).
  assert (I2 : hinv PLive h2).
  { assert (Hf2 : filter_ok (h_filter h) (HMsg m matched keep room :: h_log h))
      by (apply filter_ok_cons; split; [now rewrite Ef|exact Hf]).
    unfold h2, h1. destruct matched, room; cbn [andb];
      (split; [split; [exact Hc|exact (open_log_cons_msg _ _ _ _ _ Hlog)]|split; [|exact Hf2]]); try exact Hq.
    (* delivered: the message goes to the back of the buffer and of [enqueued] *)
    unfold enqueued in *. cbn. now rewrite app_assoc, Hq. }
  destruct keep; [now split|].
  destruct (close_with_spec CNil h2 I2) as [h3 I3 E3|Hd].
  - split; [exact I3|exact (evolves_trans [m] [] _ _ _ E2 E3)].
  - right. destruct E2 as (_ & Hcl & _). congruence.
Qed.

Lemma take_one_spec ph h m rest : hinv ph h -> h_buf h = m :: rest ->
  hinv ph (take_one h m rest) /\ evolves [] h (take_one h m rest).
Proof.
  intros (H1 & Hq & Hf) Hbuf. split; [|exact (evolves_refl h)]. split; [destruct ph; exact H1|split; [|exact Hf]].
  cbn. rewrite <- app_assoc. cbn. rewrite <- Hbuf. exact Hq.
Qed.

Lemma new_handler_inv f fre cl cap i : hinv PLive (new_handler f fre cl cap i).
Proof.
  split; [split|split]; cbn; auto.
  - exists [], i. auto.
  - intros l1 m a k r l2 E. destruct l1 as [|x [|y l1]]; cbn in E; inversion E.
Qed.

Record Inv (s : state) : Prop := {
  inv_nodup : NoDup (slot_hids (st_slots s) ++ go_hids (st_go s));
  inv_bound : forall hid, In hid (slot_hids (st_slots s) ++ go_hids (st_go s)) -> hid < List.length (st_hs s);
  inv_h : forall hid h ph, nth_error (st_hs s) hid = Some h -> phase_rel s hid ph -> hinv ph h }.

Lemma in_go_hids_iff hid g : In hid (go_hids g) <-> exists e b, In (hid, e, b) g.
Proof.
  unfold go_hids. rewrite in_map_iff. split.
  - intros ([[x e] b] & E & H). cbn in E. subst x. eauto.
  - intros (e & b & H). exists (hid, e, b). auto.
Qed.

Lemma go_hids_app a b : go_hids (a ++ b) = go_hids a ++ go_hids b.
Proof. unfold go_hids. apply map_app. Qed.

Lemma phase_exists s hid : exists ph, phase_rel s hid ph.
Proof.
  destruct (in_dec Nat.eq_dec hid (slot_hids (st_slots s))) as [H|H]; [exists PLive; exact H|].
  destruct (in_dec Nat.eq_dec hid (go_hids (st_go s))) as [G|G]; [|exists PDone; split; assumption].
  apply in_go_hids_iff in G as (e & [] & Hin); [exists (PPend1 e)|exists (PPend0 e)]; exact Hin.
Qed.

(* a handler in the table or in a goroutine exists, in the state of its phase *)
Lemma Inv_phase s hid ph : Inv s -> phase_rel s hid ph ->
  match ph with PDone => True | _ => exists h, nth_error (st_hs s) hid = Some h /\ hinv ph h end.
Proof.
  intros [_ Hb Hh] P. destruct ph; [| | |exact I];
    (destruct (nth_error_lt_Some (st_hs s) hid) as (h & Hhid); [apply Hb, in_or_app|exists h; split; [exact Hhid|exact (Hh hid h _ Hhid P)]]);
    [left; exact P|right; apply in_go_hids_iff; eauto..].
Qed.

(* the ids are distinct: a handler is in the table or in one goroutine, at one stage, or in neither *)
Lemma phase_unique s hid p q : NoDup (slot_hids (st_slots s) ++ go_hids (st_go s)) ->
  phase_rel s hid p -> phase_rel s hid q -> p = q.
Proof.
  intros N P Q. apply NoDup_app_iff in N as (_ & Ng & D). unfold not in D.
  assert (G : forall e b, In (hid, e, b) (st_go s) -> In hid (go_hids (st_go s))) by (intros; apply in_go_hids_iff; eauto).
  destruct p, q; cbn [phase_rel] in P, Q; try reflexivity.
  all: try (pose proof (NoDup_map_inj _ _ _ _ Ng P Q eq_refl); congruence).
  all: exfalso; try destruct P as [PL PG]; try destruct Q as [QL QG]; eauto using D, G.
Qed.

(* the shape of most steps: handler hid moves to phase ph0; off hid, handlers and phases stay *)
Lemma Inv_change s s' hid h' ph0 : Inv s ->
  NoDup (slot_hids (st_slots s') ++ go_hids (st_go s')) ->
  (forall x, x <> hid -> nth_error (st_hs s') x = nth_error (st_hs s) x) ->
  (forall x, x <> hid -> In x (slot_hids (st_slots s')) <-> In x (slot_hids (st_slots s))) ->
  (forall x e b, x <> hid -> In (x, e, b) (st_go s') <-> In (x, e, b) (st_go s)) ->
  nth_error (st_hs s') hid = Some h' -> phase_rel s' hid ph0 -> hinv ph0 h' -> Inv s'.
Proof.
  intros [_ Hb Hh] N O SL GO Hn P0 H0. split; [exact N| |]; intros x.
  - (* an id other than hid was an id before, and its handler is where it was *)
    intro Hx. apply nth_error_Some. destruct (Nat.eq_dec x hid) as [->|Hne]; [congruence|].
    rewrite (O x Hne). apply nth_error_Some, Hb, in_or_app. apply in_app_or in Hx as [Hx|Hx]; [left; now apply SL|right].
    apply in_go_hids_iff in Hx as (e & b & Hx). apply in_go_hids_iff. exists e, b. now apply GO.
  - intros h ph Hx Hph. destruct (Nat.eq_dec x hid) as [->|Hne].
    + rewrite (phase_unique s' hid ph ph0 N Hph P0). congruence.
    + rewrite (O x Hne) in Hx. apply (Hh x h ph Hx). specialize (SL x Hne).
      destruct ph; cbn [phase_rel] in *; try (now apply SL || now apply GO).
      destruct Hph as [A B']. split; [tauto|]. rewrite in_go_hids_iff in *. intros (e & b & H). apply B'. exists e, b. now apply GO.
Qed.

Lemma Inv_set s s' hid h h' ph0 : Inv s -> nth_error (st_hs s) hid = Some h -> st_hs s' = set_nth hid h' (st_hs s) ->
  NoDup (slot_hids (st_slots s') ++ go_hids (st_go s')) ->
  (forall x, x <> hid -> In x (slot_hids (st_slots s')) <-> In x (slot_hids (st_slots s))) ->
  (forall x e b, x <> hid -> In (x, e, b) (st_go s') <-> In (x, e, b) (st_go s)) ->
  phase_rel s' hid ph0 -> hinv ph0 h' -> Inv s'.
Proof.
  intros HI Hh E N SL GO P0 H0. apply (Inv_change s s' hid h' ph0 HI); auto; rewrite E.
  - intros x Hne. apply nth_error_lset_neq. congruence.
  - exact (nth_error_lset_eq _ _ _ _ Hh).
Qed.

(* handler hid is through: it leaves the table or the goroutines and goes nowhere else *)
Lemma Inv_leave s s' hid h h' : Inv s -> nth_error (st_hs s) hid = Some h -> st_hs s' = set_nth hid h' (st_hs s) ->
  Permutation (slot_hids (st_slots s) ++ go_hids (st_go s)) (hid :: slot_hids (st_slots s') ++ go_hids (st_go s')) ->
  (forall x, x <> hid -> In x (slot_hids (st_slots s')) <-> In x (slot_hids (st_slots s))) ->
  (forall x e b, x <> hid -> In (x, e, b) (st_go s') <-> In (x, e, b) (st_go s)) ->
  hinv PDone h' -> Inv s'.
Proof.
  intros HI Hh E P SL GO Hd. pose proof (Permutation_NoDup P (inv_nodup s HI)) as N. apply NoDup_cons_iff in N as [Hnot N].
  apply (Inv_set s s' hid h h' PDone HI Hh E N); auto.
  split; intro Hx; apply Hnot, in_or_app; auto.
Qed.

(* the handler in a slot is closed and the slot cleared (RemoveHandler; dispatch, when the filter answers keep = false) *)
Lemma Inv_drop s s' l1 l2 hid h h' : Inv s -> st_slots s = l1 ++ Some hid :: l2 -> st_slots s' = l1 ++ None :: l2 ->
  st_go s' = st_go s -> nth_error (st_hs s) hid = Some h -> st_hs s' = set_nth hid h' (st_hs s) -> hinv PDone h' -> Inv s'.
Proof.
  intros HI E1 E2 EG Hh EH Hd. apply (Inv_leave s s' hid h h' HI Hh EH); auto.
  - rewrite EG, E1, E2, !slot_hids_app, <- !app_assoc. symmetry. apply Permutation_middle.
  - intros x Hne. rewrite E1, E2, !slot_hids_app. symmetry. now apply in_elt_iff.
  - intros x e b _. now rewrite EG.
Qed.

Lemma init_inv : Inv init.
Proof.
  split; cbn.
  - constructor.
  - intros hid [].
  - intros hid h ph H. destruct hid; discriminate.
Qed.

Lemma registered_iff s hid : registered s hid = true <-> In hid (slot_hids (st_slots s)).
Proof. exact (existsb_eqb_In Nat.eqb Nat.eqb_eq hid _). Qed.
Lemma registered_false_iff s hid : registered s hid = false <-> ~ In hid (slot_hids (st_slots s)).
Proof. rewrite <- registered_iff. destruct (registered s hid); split; intro H; congruence. Qed.

(* the messages label l shows to the filter of handler hid *)
Definition contrib (s : state) (l : label) (hid : nat) : list msg :=
  match l with LDispatch m => if registered s hid then [m] else [] | _ => [] end.

(* handlers are never dropped from st_hs and evolve by what the label shows them; only LMake adds one;
   no handler that exists comes back into the table *)
Definition table_step (s : state) (l : label) (s' : state) : Prop :=
  List.length (st_hs s') = List.length (st_hs s) + made_count [l] /\
  (forall hid h, nth_error (st_hs s) hid = Some h ->
     exists h', nth_error (st_hs s') hid = Some h' /\ evolves (contrib s l hid) h h') /\
  (forall f fre cl cap, l = LMake f fre cl cap ->
     exists i, nth_error (st_hs s') (List.length (st_hs s)) = Some (new_handler f fre cl cap i)) /\
  (forall x, In x (slot_hids (st_slots s')) -> In x (slot_hids (st_slots s)) \/ List.length (st_hs s) <= x).

Definition breach (s : state) : Prop := exists hid h, nth_error (st_hs s) hid = Some h /\ bad h.

(* what the invariant promises of the outcome of label l in state s *)
Definition outcome_ok (s : state) (l : label) (o : outcome) : Prop :=
  match o with Run s' _ => Inv s' /\ table_step s l s' | Panic _ => False | Deadlock => breach s | Disabled => True end.

Lemma evolves_same hs : forall x (hx : handler), nth_error hs x = Some hx -> exists hx', nth_error hs x = Some hx' /\ evolves [] hx hx'.
Proof. intros x hx Hx. exists hx. split; [exact Hx|apply evolves_refl]. Qed.

Lemma table_quiet s l s' : match l with LMake _ _ _ _ | LDispatch _ => False | _ => True end ->
  List.length (st_hs s') = List.length (st_hs s) ->
  (forall x hx, nth_error (st_hs s) x = Some hx -> exists hx', nth_error (st_hs s') x = Some hx' /\ evolves [] hx hx') ->
  (forall x, In x (slot_hids (st_slots s')) -> In x (slot_hids (st_slots s))) -> table_step s l s'.
Proof.
  intros Hl Hlen Hev Hsl. destruct l; try contradiction; (split; [cbn; lia|split; [exact Hev|split; [discriminate|auto]]]).
Qed.

Lemma table_set s l s' hid h h' : match l with LMake _ _ _ _ | LDispatch _ => False | _ => True end ->
  nth_error (st_hs s) hid = Some h -> st_hs s' = set_nth hid h' (st_hs s) -> evolves [] h h' ->
  (forall x, In x (slot_hids (st_slots s')) -> In x (slot_hids (st_slots s))) -> table_step s l s'.
Proof.
  intros Hl Hh E Ev Hsl. apply table_quiet; auto; rewrite E; [apply lset_length|].
  intros x hx Hx. destruct (Nat.eq_dec hid x) as [<-|Hne].
  - exists h'. split; [exact (nth_error_lset_eq _ _ _ _ Hh)|]. congruence.
  - exists hx. rewrite nth_error_lset_neq by assumption. split; [assumption|apply evolves_refl].
Qed.

Lemma make_spec s f fre cl cap : Inv s -> outcome_ok s (LMake f fre cl cap) (do_make s f fre cl cap).
Proof.
  intros HI. pose proof HI as [Hnd Hb _]. unfold do_make. set (hid := List.length (st_hs s)).
  assert (Hfresh : ~ In hid (slot_hids (st_slots s) ++ go_hids (st_go s))) by (intro Hin; apply Hb in Hin; unfold hid in Hin; lia).
  (* both branches: the new table holds the old handlers plus hid *)
  assert (Hgen : forall sl' i, Permutation (slot_hids sl') (hid :: slot_hids (st_slots s)) ->
            Inv (with_slots_hs s sl' (st_hs s ++ [new_handler f fre cl cap i])) /\
            table_step s (LMake f fre cl cap) (with_slots_hs s sl' (st_hs s ++ [new_handler f fre cl cap i]))).
  { intros sl' i P.
    assert (Hin : forall x, In x (slot_hids sl') <-> x = hid \/ In x (slot_hids (st_slots s))).
    { intro x. split; intro Hx; [apply (Permutation_in _ P) in Hx|apply (Permutation_in _ (Permutation_sym P))];
        destruct Hx; cbn; auto. }
    assert (Hnew : nth_error (st_hs s ++ [new_handler f fre cl cap i]) hid = Some (new_handler f fre cl cap i))
      by apply nth_error_app_last.
    split.
    - apply (Inv_change s _ hid (new_handler f fre cl cap i) PLive HI); cbn [with_slots_hs st_slots st_go st_hs]; auto.
      + apply (Permutation_NoDup (l := hid :: slot_hids (st_slots s) ++ go_hids (st_go s))); [|constructor; assumption].
        symmetry. exact (Permutation_app_tail _ P).
      + intros x Hne. now apply nth_error_snoc_neq.
      + intros x Hne. rewrite Hin. tauto.
      + tauto.
      + apply Hin. now left.
      + apply new_handler_inv.
    - split; [cbn; rewrite app_length; cbn; lia|split; [|split]]; cbn [with_slots_hs st_slots st_hs].
      + intros x hx Hx. exists hx. split; [exact (nth_error_app_old _ _ _ _ Hx)|apply evolves_refl].
      + intros ? ? ? ? [= <- <- <- <-]. exists i. exact Hnew.
      + intros x Hx. apply Hin in Hx as [->|Hx]; [right; unfold hid; lia|now left]. }
  destruct (first_free (st_slots s)) as [i|] eqn:Eff; apply Hgen.
  - apply slot_hids_set_some. now apply first_free_spec.
  - rewrite slot_hids_app. cbn. rewrite <- Permutation_cons_append. reflexivity.
Qed.

Lemma slot_at_spec s id hid : slot_at s id = Some hid -> nth_error (st_slots s) (Z.to_nat id) = Some (Some hid).
Proof.
  unfold slot_at. destruct (Z.ltb id 0); [discriminate|].
  destruct (nth_error (st_slots s) (Z.to_nat id)) as [[x|]|]; intro H; inversion H; reflexivity.
Qed.

Lemma remove_live s id hid : Inv s -> slot_at s id = Some hid ->
  exists h, nth_error (st_slots s) (Z.to_nat id) = Some (Some hid) /\ nth_error (st_hs s) hid = Some h /\
    hres_to PDone h (h_closer h = Some true) (close_with true CNil h).
Proof.
  intros HI Es. apply slot_at_spec in Es.
  destruct (Inv_phase s hid PLive HI (in_slot_hids _ _ _ Es)) as (h & Hhid & Il).
  exists h. split; [exact Es|split; [exact Hhid|exact (close_with_spec CNil h Il)]].
Qed.

Lemma remove_spec s id : Inv s -> outcome_ok s (LRemove id) (do_remove s id).
Proof.
  intros HI. unfold do_remove. destruct (slot_at s id) as [hid|] eqn:Es.
  2:{ split; [exact HI|]. apply table_quiet; auto using evolves_same. }
  destruct (remove_live s id hid HI Es) as (h & Es' & Hhid & Hcw). rewrite Hhid.
  destruct Hcw as [h' Idone Ev|Hd]; [|exists hid, h; split; [exact Hhid|now right]].
  destruct (nth_error_split_set _ _ _ None Es') as (l1 & l2 & E1 & E2).
  split.
  - now apply (Inv_drop s _ l1 l2 hid h h' HI).
  - apply (table_set s _ _ hid h h'); auto. cbn [with_slots_hs st_slots].
    intro x. rewrite E2, E1, !slot_hids_app. cbn [slot_hids]. rewrite !in_app_iff. cbn [In]. tauto.
Qed.

Lemma closeall_spec s e b : Inv s -> outcome_ok s (LCloseAll e b) (do_closeall s e b).
Proof.
  intros [Hnd Hb Hh]. unfold do_closeall. destruct (b && negb (st_proc s)); [exact I|].
  set (A := slot_hids (st_slots s)) in *. set (G := go_hids (st_go s)) in *.
  assert (EG : go_hids (st_go s ++ map (fun hid => (hid, e, false)) A) = G ++ A).
  { rewrite go_hids_app. f_equal. unfold go_hids. rewrite map_map. cbn. apply map_id. }
  split; [split|apply table_quiet; [exact I|reflexivity|apply evolves_same|]]; cbn [st_slots st_go st_hs]; rewrite ?slot_hids_all_none, ?EG.
  - cbn. apply (Permutation_NoDup (l := A ++ G)); [apply Permutation_app_comm|assumption].
  - cbn. intros x Hx. apply Hb. rewrite in_app_iff in Hx |- *. tauto.
  - (* every registered handler waits for its goroutine; nobody else moves *)
    intros x hx ph Hx Hph. destruct ph; cbn [phase_rel st_slots st_go] in Hph.
    + rewrite slot_hids_all_none in Hph. destruct Hph.
    + apply in_app_or in Hph as [Hp|Hp]; [exact (Hh x hx (PPend0 e0) Hx Hp)|].
      apply in_map_iff in Hp as (y & [= -> _] & Hy). exact (Hh x hx PLive Hx Hy).
    + apply in_app_or in Hph as [Hp|Hp]; [exact (Hh x hx (PPend1 e0) Hx Hp)|].
      apply in_map_iff in Hp as (y & [=] & _).
    + destruct Hph as [_ H2]. rewrite EG in H2. apply (Hh x hx PDone Hx). split; intro Hy; apply H2, in_or_app; auto.
  - intros x [].
Qed.

Lemma gocloser_spec s hid : Inv s -> outcome_ok s (LGoCloser hid) (do_gocloser s hid).
Proof.
  intros HI. unfold do_gocloser.
  destruct (find_go hid false (st_go s)) as [[[e pre] post]|] eqn:Ef; [|exact I].
  apply find_go_spec in Ef. assert (Hgo : In (hid, e, false) (st_go s)) by (rewrite Ef; apply in_elt).
  destruct (Inv_phase s hid (PPend0 e) HI Hgo) as (h & Hhid & I0). rewrite Hhid.
  destruct (call_closer_spec false e h I0) as [h' I1 Ev|[[=] _]].
  assert (EG : go_hids (pre ++ (hid, e, true) :: post) = go_hids (st_go s)) by (rewrite Ef, !go_hids_app; reflexivity).
  split.
  - apply (Inv_set s _ hid h h' (PPend1 e) HI Hhid); cbn [with_go_hs st_slots st_go st_hs]; rewrite ?EG; auto.
    + exact (inv_nodup s HI).
    + tauto.
    + intros x e' b' Hne. rewrite Ef, !in_elt_iff by congruence. tauto.
    + apply in_elt.
  - apply (table_set s _ _ hid h h'); auto.
Qed.

Lemma goclose_spec s hid : Inv s -> outcome_ok s (LGoClose hid) (do_goclose s hid).
Proof.
  intros HI. unfold do_goclose.
  destruct (find_go hid true (st_go s)) as [[[e pre] post]|] eqn:Ef; [|exact I].
  apply find_go_spec in Ef. assert (Hgo : In (hid, e, true) (st_go s)) by (rewrite Ef; apply in_elt).
  destruct (Inv_phase s hid (PPend1 e) HI Hgo) as (h & Hhid & I1). rewrite Hhid.
  destruct (close_queue_spec e h I1) as [h' Idone Ev|[]].
  split.
  - apply (Inv_leave s _ hid h h' HI Hhid); cbn [with_go_hs st_slots st_go st_hs]; auto.
    + rewrite Ef, !go_hids_app, !app_assoc. symmetry. apply Permutation_middle.
    + tauto.
    + intros x e' b' Hne. rewrite Ef, in_elt_iff by congruence. tauto.
  - apply (table_set s _ _ hid h h'); auto.
Qed.

Lemma recv_spec s hid : Inv s -> outcome_ok s (LRecv hid) (do_recv s hid).
Proof.
  intros HI. unfold do_recv. destruct (nth_error (st_hs s) hid) as [h|] eqn:Hhid; [|exact I].
  destruct (h_buf h) as [|m rest] eqn:Hbuf; [exact I|].
  destruct (phase_exists s hid) as (ph & Hph).
  destruct (take_one_spec ph h m rest (inv_h s HI hid h ph Hhid Hph) Hbuf) as [I1 Ev].
  split.
  - apply (Inv_set s _ hid h (take_one h m rest) ph HI Hhid); cbn [with_hs st_slots st_go st_hs]; auto; try tauto. exact (inv_nodup s HI).
  - apply (table_set s _ _ hid h (take_one h m rest)); auto.
Qed.

(* relation between the table before and after an operation that only clears slots *)
Definition slot_le (a b : option nat) : Prop := b = a \/ b = None.

Lemma slot_le_in todo sl : Forall2 slot_le todo sl -> forall x, In x (slot_hids sl) -> In x (slot_hids todo).
Proof.
  induction 1 as [|a b todo sl [E|E] _ IH]; intros x Hx; [assumption| |]; subst.
  - destruct a; cbn in *; [destruct Hx; auto|auto].
  - cbn in Hx. destruct a; cbn; auto.
Qed.

Lemma slot_le_length todo sl : Forall2 slot_le todo sl -> List.length sl = List.length todo.
Proof. induction 1; cbn; auto. Qed.

(* the loop of dispatch is a sequence of steps on one handler each; [done] is the part of the table already visited *)
Lemma disp_loop_spec m s : forall todo done hs sent ret,
  Inv (with_slots_hs s (done ++ todo) hs) ->
  match disp_loop m todo hs sent ret with
  | DLPanic _ => False
  | DLDeadlock => exists hid h, nth_error hs hid = Some h /\ bad h
  | DL sl hs' se re =>
      Inv (with_slots_hs s (done ++ sl) hs') /\ Forall2 slot_le todo sl /\ List.length hs' = List.length hs /\
      forall x hx, nth_error hs x = Some hx ->
        exists hx', nth_error hs' x = Some hx' /\ evolves (if existsb (Nat.eqb x) (slot_hids todo) then [m] else []) hx hx'
  end.
Proof.
  induction todo as [|[hid|] todo IH]; intros done hs sent ret HI; cbn [disp_loop].
  - split; [exact HI|split; [constructor|split; [reflexivity|exact (evolves_same hs)]]].
  - assert (Hin : In hid (slot_hids (done ++ Some hid :: todo))) by (rewrite slot_hids_app; apply in_elt).
    destruct (Inv_phase _ hid PLive HI Hin) as (h & Hhid & Hlive). cbn [with_slots_hs st_hs] in Hhid. rewrite Hhid.
    pose proof (disp_one_spec m h ret Hlive) as H1.
    destruct (disp_one m h ret) as [h' keepslot reply ret1| |]; [|contradiction|exists hid, h; auto].
    destruct H1 as (I1 & E1).
    assert (HI1 : Inv (with_slots_hs s ((done ++ [if keepslot then Some hid else None]) ++ todo) (set_nth hid h' hs))).
    { rewrite <- app_assoc. cbn [app]. destruct keepslot.
      - apply (Inv_set _ _ hid h h' PLive HI Hhid); cbn [with_slots_hs st_slots st_go st_hs]; auto; try tauto; exact (inv_nodup _ HI).
      - now apply (Inv_drop _ _ done todo hid h h' HI). }
    specialize (IH _ _ (sent ++ reply) ret1 HI1).
    destruct (disp_loop m todo (set_nth hid h' hs) (sent ++ reply) ret1) as [sl hs' se re| |]; [|contradiction|].
    + destruct IH as (I' & Hle & Hlen & Hev). rewrite <- app_assoc in I'. rewrite lset_length in Hlen.
      split; [exact I'|]. split; [constructor; [destruct keepslot; [now left|now right]|exact Hle]|]. split; [exact Hlen|].
      intros x hx Hx. cbn [slot_hids existsb]. destruct (Nat.eqb_spec x hid) as [->|Hne]; cbn [orb].
      * (* hid is visited now, and not again *)
        assert (hx = h) by congruence. subst hx.
        destruct (Hev hid h') as (hx' & Hn' & Ex); [exact (nth_error_lset_eq _ _ _ _ Hhid)|].
        replace (existsb (Nat.eqb hid) (slot_hids todo)) with false in Ex.
        -- exists hx'. split; [exact Hn'|exact (evolves_trans [m] [] _ _ _ E1 Ex)].
        -- symmetry. apply not_true_is_false. intro Hx'. apply (existsb_eqb_In Nat.eqb Nat.eqb_eq) in Hx'.
           pose proof (inv_nodup _ HI) as Hnd. cbn [with_slots_hs st_slots] in Hnd. rewrite slot_hids_app, <- app_assoc in Hnd.
           apply (NoDup_remove_2 _ _ _ Hnd). rewrite !in_app_iff. tauto.
      * apply Hev. rewrite nth_error_lset_neq by congruence. exact Hx.
    + destruct IH as (x & hx & Hn & Hbad). destruct (Nat.eq_dec hid x) as [<-|Hne].
      * rewrite (nth_error_lset_eq _ _ _ _ Hhid) in Hn. injection Hn as <-.
        exists hid, h. split; [exact Hhid|]. destruct E1 as (Hfre & Hcl & _). unfold bad. now rewrite <- Hfre, <- Hcl.
      * rewrite nth_error_lset_neq in Hn by assumption. eauto.
  - specialize (IH (done ++ [None]) hs sent ret). rewrite <- app_assoc in IH. specialize (IH HI).
    destruct (disp_loop m todo hs sent ret) as [sl hs' se re| |]; [|contradiction|exact IH].
    destruct IH as (I' & Hle & Hlen & Hev). rewrite <- app_assoc in I'.
    split; [exact I'|split; [constructor; [now left|exact Hle]|split; [exact Hlen|exact Hev]]].
Qed.

Lemma dispatch_spec s m : Inv s -> outcome_ok s (LDispatch m) (do_dispatch s m).
Proof.
  intros HI. unfold do_dispatch. destruct (negb (st_proc s)); [exact I|].
  destruct (st_slots s) as [|s0 sl0] eqn:Esl.
  { split; [exact HI|]. split; [cbn; lia|split; [|split; [discriminate|auto]]].
    intros hid h Hhid. unfold contrib, registered. rewrite Esl. now apply evolves_same. }
  rewrite <- Esl. clear Esl s0 sl0.
  assert (HI0 : Inv (with_slots_hs s ([] ++ st_slots s) (st_hs s))) by (destruct HI; now split).
  pose proof (disp_loop_spec m s (st_slots s) [] (st_hs s) (st_sent s) DNoMatch HI0) as Hloop.
  destruct (disp_loop m (st_slots s) (st_hs s) (st_sent s) DNoMatch) as [sl hs' se re| |]; [|contradiction|exact Hloop].
  destruct Hloop as (I' & Hle & Hlen & Hev). split; [destruct I'; now split|].
  split; [cbn; lia|split; [exact Hev|split; [discriminate|]]]. intros x Hx. left. eapply slot_le_in; eauto.
Qed.

Theorem step_inv s l : Inv s -> outcome_ok s l (step s l).
Proof.
  intro HI. destruct l; cbn [step];
    [apply make_spec|apply remove_spec|apply dispatch_spec|apply closeall_spec|apply gocloser_spec|apply goclose_spec|apply recv_spec];
    exact HI.
Qed.

(* run_from hands out its accumulator reversed: the second half starts from [rev rs1] *)
Lemma run_from_app a : forall s b rs i, run_from s (a ++ b) rs i =
  match run_from s a rs i with RRun s1 rs1 => run_from s1 b (rev rs1) (i + List.length a) | x => x end.
Proof.
  induction a as [|l a IH]; intros s b rs i; cbn.
  - now rewrite rev_involutive, Nat.add_0_r.
  - destruct (step s l); auto. now rewrite IH, Nat.add_succ_r.
Qed.

(* the messages the filter of handler hid has been consulted for, [] if there is no such handler yet *)
Definition seen_by (s : state) (hid : nat) : list msg :=
  match nth_error (st_hs s) hid with Some h => consulted h | None => [] end.

Lemma step_seen_by s l s' hid : Inv s -> table_step s l s' -> seen_by s' hid = seen_by s hid ++ contrib s l hid.
Proof.
  intros HI (Hlen & Hold & Hnew & _). unfold seen_by. destruct (nth_error (st_hs s) hid) as [h|] eqn:Hh.
  - destruct (Hold hid h Hh) as (h' & -> & _ & _ & C). exact C.
  - (* not made yet: not in the table; if l makes it, nothing has been shown to it *)
    apply nth_error_None in Hh.
    assert (Hc : contrib s l hid = []).
    { unfold contrib. destruct l; try reflexivity. destruct (registered s hid) eqn:Hr; [|reflexivity].
      apply registered_iff in Hr. assert (hid < List.length (st_hs s)) by (apply (inv_bound s HI), in_or_app; now left). lia. }
    rewrite Hc. destruct (nth_error (st_hs s') hid) as [h'|] eqn:Hh'; [|reflexivity].
    apply nth_error_Some_lt in Hh' as Hlt. destruct l; cbn in Hlen; try lia.
    destruct (Hnew f fre cl cap eq_refl) as (i & Hn). assert (hid = List.length (st_hs s)) by lia. subst hid.
    rewrite Hn in Hh'. now injection Hh' as <-.
Qed.

Lemma run_from_spec ls : forall s rs i s' rs', Inv s -> run_from s ls rs i = RRun s' rs' ->
  Inv s' /\ List.length (st_hs s') = List.length (st_hs s) + made_count ls /\
  (forall hid, hid < List.length (st_hs s) -> registered s hid = false -> registered s' hid = false) /\
  (forall hid, seen_by s' hid = seen_by s hid ++ window_from s ls hid).
Proof.
  induction ls as [|l ls IH]; intros s rs i s' rs' HI H; cbn [run_from window_from] in *.
  - injection H as <- _. split; [exact HI|split; [cbn; lia|split; [auto|intro hid; now rewrite app_nil_r]]].
  - pose proof (step_inv s l HI) as Hs. destruct (step s l) as [s1 r| | |]; try discriminate. destruct Hs as [I1 T].
    destruct (IH s1 _ _ s' rs' I1 H) as (I' & L' & U' & W'). pose proof T as (Hlen & _ & _ & Hsl).
    split; [exact I'|split; [|split]].
    + rewrite L', Hlen. destruct l; cbn; lia.
    + intros hid Hlt Hr. apply U'; [lia|]. apply registered_false_iff. apply registered_false_iff in Hr.
      intro Hx. destruct (Hsl hid Hx); [contradiction|lia].
    + intro hid. rewrite W', (step_seen_by s l s1 hid HI T), <- app_assoc. reflexivity.
Qed.

Theorem run_inv ls s rs : run ls = RRun s rs -> Inv s.
Proof. exact (fun H => proj1 (run_from_spec ls init [] 0 s rs init_inv H)). Qed.

Lemma run_extend ls s rs ext s' : run ls = RRun s rs -> (forall rs i, exists rs', run_from s ext rs i = RRun s' rs') ->
  exists rs', run (ls ++ ext) = RRun s' rs'.
Proof. intros H He. unfold run in *. rewrite run_from_app, H. apply He. Qed.

Lemma run_from_no_panic ls : forall s rs i, Inv s -> match run_from s ls rs i with RPanic _ _ => False | _ => True end.
Proof.
  induction ls as [|l ls IH]; intros s rs i HI; cbn; [exact I|].
  pose proof (step_inv s l HI) as Hs. destruct (step s l); auto. apply IH, Hs.
Qed.

Lemma step_good s l s' : ~ breach s -> contract_label l -> table_step s l s' -> ~ breach s'.
Proof.
  intros Hg Hc (Hlen & Hold & Hnew & _) (hid & h' & Hh' & Hbad). destruct (nth_error (st_hs s) hid) as [h|] eqn:Hh.
  - destruct (Hold hid h Hh) as (h2 & Hh2 & Hfr & Hcl & _). assert (h2 = h') by congruence. subst h2.
    apply Hg. exists hid, h. unfold bad in *. now rewrite <- Hfr, <- Hcl.
  - apply nth_error_None in Hh. apply nth_error_Some_lt in Hh' as Hlt. destruct l; cbn in Hlen; try lia.
    destruct (Hnew f fre cl cap eq_refl) as (i & Hn). assert (hid = List.length (st_hs s)) by lia. subst hid.
    rewrite Hn in Hh'. injection Hh' as <-. cbn in Hc. unfold bad in Hbad. cbn in Hbad. intuition congruence.
Qed.

Lemma run_from_no_deadlock ls : forall s rs i, Inv s -> ~ breach s -> Forall contract_label ls ->
  match run_from s ls rs i with RDeadlock _ => False | _ => True end.
Proof.
  induction ls as [|l ls IH]; intros s rs i HI Hg Hc; cbn; [exact I|]. inversion Hc as [|x y Hc1 Hc2]; subst.
  pose proof (step_inv s l HI) as Hs. destruct (step s l) as [s' r| | |]; [|exact I|exact (Hg Hs)|exact I].
  destruct Hs as [I1 T]. apply IH; auto. eapply step_good; eauto.
Qed.

Lemma init_good : ~ breach init.
Proof. intros (hid & h & H & _). destruct hid; discriminate. Qed.

(* the contract is needed: a closer that calls back into the endpoint deadlocks RemoveHandler *)
Definition never : filter := fun _ _ => (false, true).
Lemma reentrant_closer_deadlocks : run [LMake never false (Some true) 1; LRemove 0%Z] = RDeadlock 1.
Proof. vm_compute. reflexivity. Qed.

(* open_log, half_log, done_log again, read oldest first *)
Definition open_shape (h : handler) : Prop :=
  exists slot evs, forallb is_msg evs = true /\ rev (h_log h) = HMade slot :: evs.
Definition half_shape (h : handler) : Prop :=
  exists slot evs e, forallb is_msg evs = true /\ rev (h_log h) = HMade slot :: evs ++ closer_part (h_closer h) e.
Definition done_shape (h : handler) : Prop :=
  exists slot evs e, forallb is_msg evs = true /\ rev (h_log h) = HMade slot :: evs ++ closer_part (h_closer h) e ++ [HQClose].
Definition lifecycle (h : handler) : Prop := open_shape h \/ half_shape h \/ done_shape h.

Lemma rev_closer_part cl e : rev (closer_part cl e) = closer_part cl e.
Proof. destruct cl; reflexivity. Qed.

Lemma open_log_shape l : open_log l -> exists slot evs, forallb is_msg evs = true /\ rev l = HMade slot :: evs.
Proof.
  intros (evs & i & -> & F). exists i, (rev evs). rewrite rev_app_distr. split; [|reflexivity].
  rewrite forallb_forall in *. intros x Hx. apply F, in_rev, Hx.
Qed.

Lemma hinv_shapes ph h : hinv ph h ->
  match ph with PLive | PPend0 _ => open_shape h | PPend1 _ => half_shape h | PDone => done_shape h end.
Proof.
  intros (H & _). destruct ph.
  1, 2: apply open_log_shape, H.
  - destruct H as (_ & l0 & E & Ho). destruct (open_log_shape _ Ho) as (slot & evs & F & R).
    exists slot, evs, e. split; [exact F|]. rewrite E, rev_app_distr, R, rev_closer_part. reflexivity.
  - destruct H as (_ & e & l0 & E & Ho). destruct (open_log_shape _ Ho) as (slot & evs & F & R).
    exists slot, evs, e. split; [exact F|]. rewrite E. cbn [rev]. rewrite rev_app_distr, R, rev_closer_part.
    cbn. now rewrite <- app_assoc.
Qed.

Lemma closer_calls_app a b : closer_calls (a ++ b) = closer_calls a + closer_calls b.
Proof. induction a as [|x a IH]; cbn; [reflexivity|]. destruct x; cbn; lia. Qed.
Lemma queue_closes_app a b : queue_closes (a ++ b) = queue_closes a + queue_closes b.
Proof. induction a as [|x a IH]; cbn; [reflexivity|]. destruct x; cbn; lia. Qed.

Lemma open_log_counts l : open_log l -> closer_calls l = 0 /\ queue_closes l = 0.
Proof.
  intros (evs & i & -> & F). rewrite closer_calls_app, queue_closes_app. cbn. rewrite !Nat.add_0_r.
  induction evs as [|x evs IH]; cbn in *; [auto|]. apply andb_true_iff in F as [F1 F2]. destruct x; try discriminate. auto.
Qed.

Definition closer_count (h : handler) : nat := match h_closer h with None => 0 | Some _ => 1 end.

Lemma hinv_counts ph h : hinv ph h ->
  closer_calls (h_log h) = match ph with PLive | PPend0 _ => 0 | _ => closer_count h end /\
  queue_closes (h_log h) = match ph with PDone => 1 | _ => 0 end.
Proof.
  intros (H & _). unfold closer_count. destruct ph.
  1, 2: destruct H as (_ & Ho); exact (open_log_counts _ Ho).
  - destruct H as (_ & l0 & -> & Ho). destruct (open_log_counts _ Ho) as [C Q].
    rewrite closer_calls_app, queue_closes_app, C, Q. now destruct (h_closer h).
  - destruct H as (_ & e & l0 & -> & Ho). destruct (open_log_counts _ Ho) as [C Q]. cbn [closer_calls queue_closes].
    rewrite closer_calls_app, queue_closes_app, C, Q. now destruct (h_closer h).
Qed.

Definition closed_once (h : handler) : Prop :=
  done_shape h /\ h_closed h = true /\ closer_calls (h_log h) = closer_count h /\ queue_closes (h_log h) = 1.

Lemma done_closed_once h : hinv PDone h -> closed_once h.
Proof.
  intro H. split; [exact (hinv_shapes PDone h H)|]. split; [apply H|exact (hinv_counts PDone h H)].
Qed.

Lemma inv_lifecycle s hid h : Inv s -> nth_error (st_hs s) hid = Some h ->
  lifecycle h /\ closer_calls (h_log h) <= closer_count h /\ queue_closes (h_log h) <= 1.
Proof.
  intros HI Hh. destruct (phase_exists s hid) as (ph & Hph). pose proof (inv_h s HI hid h ph Hh Hph) as Hi.
  split; [pose proof (hinv_shapes ph h Hi); unfold lifecycle; destruct ph; tauto|].
  destruct (hinv_counts ph h Hi) as [-> ->]. unfold closer_count. destruct ph, (h_closer h); split; auto.
Qed.

Lemma inv_registered_open s hid h : Inv s -> nth_error (st_hs s) hid = Some h ->
  registered s hid = true -> open_shape h /\ h_closed h = false.
Proof.
  intros HI Hh Hr%registered_iff. pose proof (inv_h s HI hid h PLive Hh Hr) as Hi.
  split; [exact (hinv_shapes PLive h Hi)|apply Hi].
Qed.

Theorem shutdown_closes_once l1 e b l2 s rs hid h :
  run (l1 ++ LCloseAll e b :: l2) = RRun s rs ->
  hid < made_count l1 ->                          (* made before the shutdown *)
  ~ In hid (go_hids (st_go s)) ->                 (* its closeWith goroutine is not pending any more *)
  nth_error (st_hs s) hid = Some h ->
  closed_once h.
Proof.
  intros Hrun Hmade Hgo Hh. unfold run in Hrun. rewrite run_from_app in Hrun.
  destruct (run_from init l1 [] 0) as [s1 rs1| | |] eqn:E1; try discriminate.
  destruct (run_from_spec l1 init _ _ s1 rs1 init_inv E1) as (I1 & Hlen1 & _).
  cbn [run_from step] in Hrun. pose proof (closeall_spec s1 e b I1) as H2. unfold do_closeall in *.
  destruct (b && negb (st_proc s1)); [discriminate|]. destruct H2 as [I2 _].
  (* the shutdown empties the table, and no handler that exists comes back into it *)
  destruct (run_from_spec l2 _ _ _ s rs I2 Hrun) as (HI & _ & U & _).
  apply done_closed_once, (inv_h s HI hid h PDone Hh). split; [|exact Hgo].
  apply registered_false_iff, U; [cbn in *; lia|]. unfold registered. cbn. now rewrite slot_hids_all_none.
Qed.

Definition is_go_label (l : label) : Prop := match l with LGoCloser _ | LGoClose _ => True | _ => False end.
Fixpoint go_weight (g : list (nat * cerr * bool)) : nat :=
  match g with [] => 0 | (_, _, b) :: r => (if b then 1 else 2) + go_weight r end.

Lemma find_go_head hid e b r : find_go hid b ((hid, e, b) :: r) = Some (e, [], r).
Proof. cbn. now rewrite Nat.eqb_refl, Bool.eqb_reflx. Qed.

Lemma go_head_runs s hid e b r : Inv s -> st_go s = (hid, e, b) :: r ->
  exists s' x, step s (if b then LGoClose hid else LGoCloser hid) = Run s' x /\ Inv s' /\
               st_go s' = if b then r else (hid, e, true) :: r.
Proof.
  (* Hs is outcome_ok of the step the goal asks for. Unfolding and rewriting in both at once computes the step in both;
     where it would panic (no such handler, queue closed already) Hs has become False. *)
  intros HI Eg. destruct b; cbn [step].
  - pose proof (goclose_spec s hid HI) as Hs. unfold do_goclose in *. rewrite Eg, find_go_head in *.
    destruct (nth_error (st_hs s) hid) as [h|]; [|contradiction]. unfold close_queue in *. destruct (h_closed h); [contradiction|].
    eexists; eexists. split; [reflexivity|]. split; [apply Hs|reflexivity].
  - pose proof (gocloser_spec s hid HI) as Hs. unfold do_gocloser in *. rewrite Eg, find_go_head in *.
    destruct (nth_error (st_hs s) hid) as [h|]; [|contradiction]. unfold call_closer in *.
    destruct (h_closer h); rewrite ?andb_false_r in *; (eexists; eexists; split; [reflexivity|]; split; [apply Hs|reflexivity]).
Qed.

Lemma drain_goroutines n : forall s, Inv s -> go_weight (st_go s) <= n ->
  exists ls s', Forall is_go_label ls /\ (forall rs i, exists rs', run_from s ls rs i = RRun s' rs') /\ st_go s' = [].
Proof.
  induction n as [|n IH]; intros s HI Hw; (destruct (st_go s) as [|[[hid e] b] r] eqn:Eg; [exists [], s; cbn; eauto|]).
  - cbn in Hw. destruct b; lia.
  - destruct (go_head_runs s hid e b r HI Eg) as (s1 & x & Es & I1 & Eg1).
    destruct (IH s1 I1) as (ls & s' & F & Ex & Eg'); [rewrite Eg1; destruct b; cbn in *; lia|].
    exists ((if b then LGoClose hid else LGoCloser hid) :: ls), s'. split; [constructor; [now destruct b|exact F]|].
    split; [intros rs i; cbn [run_from]; rewrite Es; apply Ex|exact Eg'].
Qed.

(* the goroutines can always run to completion: nothing they need is ever withheld *)
Theorem goroutines_finish ls s rs : run ls = RRun s rs ->
  exists ls' s' rs', Forall is_go_label ls' /\ run (ls ++ ls') = RRun s' rs' /\ st_go s' = [].
Proof.
  intro Hrun. destruct (drain_goroutines _ s (run_inv ls s rs Hrun) (le_n _)) as (ls' & s' & F & Ex & Eg).
  destruct (run_extend ls s rs ls' s' Hrun Ex) as (rs' & Hr). exists ls', s', rs'. auto.
Qed.

Lemma slot_at_set_none s sl id : st_slots s = set_nth (Z.to_nat id) None sl -> slot_at s id = None.
Proof.
  intro E. unfold slot_at. rewrite E. destruct (Z.ltb id 0); [reflexivity|].
  destruct (nth_error sl (Z.to_nat id)) as [x|] eqn:E1.
  - now rewrite (nth_error_lset_eq _ _ _ _ E1).
  - assert (Hn : nth_error (set_nth (Z.to_nat id) None sl) (Z.to_nat id) = None).
    { apply nth_error_None. rewrite lset_length. now apply nth_error_None. }
    now rewrite Hn.
Qed.

Theorem remove_registered s id hid : Inv s -> slot_at s id = Some hid ->
  (forall h, nth_error (st_hs s) hid = Some h -> h_closer h <> Some true) ->
  exists s' h', step s (LRemove id) = Run s' ROk /\ slot_at s' id = None /\
                nth_error (st_hs s') hid = Some h' /\ closed_once h'.
Proof.
  intros HI Es Hc. cbn [step]. unfold do_remove. rewrite Es.
  destruct (remove_live s id hid HI Es) as (h & _ & Hhid & Hcw). rewrite Hhid.
  destruct Hcw as [h' Idone _|Hd]; [|exfalso; eapply Hc; eauto].
  eexists; exists h'. split; [reflexivity|]. split; [now apply (slot_at_set_none _ (st_slots s))|].
  split; [exact (nth_error_lset_eq _ _ _ _ Hhid)|apply done_closed_once, Idone].
Qed.

Lemma slot_at_nat (s : state) i : slot_at s (Z.of_nat i) = match nth_error (st_slots s) i with Some (Some hid) => Some hid | _ => None end.
Proof. unfold slot_at. destruct (Z.ltb (Z.of_nat i) 0) eqn:E; [apply Z.ltb_lt in E; lia|]. now rewrite Nat2Z.id. Qed.

Theorem make_fresh_id s f fre cl cap :
  exists s' i, step s (LMake f fre cl cap) = Run s' (RId i) /\
    slot_at s (Z.of_nat i) = None /\ slot_at s' (Z.of_nat i) = Some (List.length (st_hs s)) /\
    (forall j, j <> i -> slot_at s' (Z.of_nat j) = slot_at s (Z.of_nat j)).
Proof.
  cbn [step]. unfold do_make. destruct (first_free (st_slots s)) as [i|] eqn:Ef.
  - apply first_free_spec in Ef. eexists; exists i. split; [reflexivity|]. rewrite !slot_at_nat. cbn [with_slots_hs st_slots].
    rewrite Ef. split; [reflexivity|]. split.
    + now rewrite (nth_error_lset_eq _ _ _ _ Ef).
    + intros j Hj. rewrite !slot_at_nat. cbn [with_slots_hs st_slots]. now rewrite nth_error_lset_neq by congruence.
  - eexists; exists (List.length (st_slots s)). split; [reflexivity|]. rewrite !slot_at_nat. cbn [with_slots_hs st_slots].
    assert (Hn : nth_error (st_slots s) (List.length (st_slots s)) = None) by (apply nth_error_None; lia).
    rewrite Hn. split; [reflexivity|]. split.
    + now rewrite nth_error_app_last.
    + intros j Hj. rewrite !slot_at_nat. cbn [with_slots_hs st_slots]. now rewrite nth_error_snoc_neq.
Qed.

Lemma consulted_events h : consulted h = map fst (events h).
Proof.
  unfold consulted, events. rewrite map_rev. f_equal.
  induction (h_log h) as [|x l IH]; cbn; [reflexivity|]. destruct x; cbn; congruence.
Qed.

Lemma seen_of_events l : seen_of l = map (fun p => m_header (fst p)) (events_rev l).
Proof. induction l as [|x l IH]; cbn; [reflexivity|]. destruct x; cbn; congruence. Qed.

Lemma expect_app f a : forall seen b,
  expect f seen (a ++ b) = expect f seen a ++ expect f (rev (map (fun p => m_header (fst p)) a) ++ seen) b.
Proof.
  induction a as [|[m room] a IH]; intros seen b; cbn [app expect map rev fst]; [reflexivity|].
  rewrite IH, <- !app_assoc. reflexivity.
Qed.

Lemma enqueued_expect f l : filter_ok f l -> rev (enqueued_rev l) = expect f [] (rev (events_rev l)).
Proof.
  induction l as [|x l IH]; intro Hf; [reflexivity|].
  apply filter_ok_cons in Hf as [Ha Hf'].
  destruct x as [slot|m a k room|e|]; cbn [enqueued_rev events_rev]; try (apply IH; exact Hf').
  cbn [rev]. rewrite expect_app, app_nil_r, <- map_rev, rev_involutive, <- seen_of_events, <- (IH Hf').
  cbn [expect]. rewrite <- Ha. cbn [fst]. rewrite app_nil_r.
  destruct a, room; cbn [andb rev app]; try reflexivity; now rewrite app_nil_r.
Qed.

Theorem queue_is_selected_subsequence ls s rs hid h :
  run ls = RRun s rs -> nth_error (st_hs s) hid = Some h ->
  map fst (events h) = window ls hid /\
  h_recvd h ++ h_buf h = expect (h_filter h) [] (events h).
Proof.
  intros Hrun Hh. destruct (run_from_spec ls init [] 0 s rs init_inv Hrun) as (HI & _ & _ & W). split.
  - specialize (W hid). unfold seen_by in W. rewrite Hh, consulted_events in W. rewrite W. now destruct hid.
  - destruct (phase_exists s hid) as (ph & Hph). destruct (inv_h s HI hid h ph Hh Hph) as (_ & Hq & Hf).
    rewrite Hq. now apply enqueued_expect.
Qed.

Fixpoint selected (f : filter) (seen : list header) (ms : list msg) : list msg :=
  match ms with
  | [] => []
  | m :: r => (if fst (f seen (m_header m)) then [m] else []) ++ selected f (m_header m :: seen) r
  end.

Lemma expect_all_room f : forall evs seen, forallb snd evs = true -> expect f seen evs = selected f seen (map fst evs).
Proof.
  induction evs as [|[m room] evs IH]; intros seen H; cbn in *; [reflexivity|].
  apply andb_true_iff in H as [H1 H2]. subst room. rewrite andb_true_r, IH by assumption. reflexivity.
Qed.

(* with room every time the filter was consulted, what the consumer has taken and what waits in the queue are together
   exactly the messages the filter matched *)
Corollary queue_with_room ls s rs hid h :
  run ls = RRun s rs -> nth_error (st_hs s) hid = Some h -> forallb snd (events h) = true ->
  h_recvd h ++ h_buf h = selected (h_filter h) [] (window ls hid).
Proof.
  intros Hrun Hh Hroom. destruct (queue_is_selected_subsequence ls s rs hid h Hrun Hh) as [Hw Hq].
  rewrite Hq, expect_all_room by assumption. now rewrite Hw.
Qed.

Lemma drain_queue n : forall s hid h, nth_error (st_hs s) hid = Some h -> List.length (h_buf h) = n ->
  exists s' h', (forall rs i, exists rs', run_from s (repeat (LRecv hid) n) rs i = RRun s' rs') /\ nth_error (st_hs s') hid = Some h' /\
    h_buf h' = [] /\ h_recvd h' = h_recvd h ++ h_buf h /\ h_closed h' = h_closed h.
Proof.
  induction n as [|n IH]; intros s hid h Hh Hlen.
  - destruct (h_buf h) eqn:Hb; [|discriminate]. exists s, h. cbn. rewrite app_nil_r. repeat split; eauto.
  - destruct (h_buf h) as [|m rest] eqn:Hb; [discriminate|]. cbn [repeat run_from step]. unfold do_recv. rewrite Hh, Hb.
    destruct (IH (with_hs s (set_nth hid (take_one h m rest) (st_hs s))) hid (take_one h m rest)) as (s' & h' & He & Hn & Hbuf & Hr & Hc).
    + exact (nth_error_lset_eq _ _ _ _ Hh).
    + cbn. cbn in Hlen. lia.
    + exists s', h'. repeat split; auto. rewrite Hr. cbn. now rewrite <- app_assoc.
Qed.

Inductive Interleaving {A} : list (list A) -> list A -> Prop :=
| IL_done : forall ls, Forall (fun l => l = []) ls -> Interleaving ls []
| IL_step : forall ls i x ls' l, pop_nth i ls = Some (x, ls') -> Interleaving ls' l -> Interleaving ls (x :: l).

(* Both the sender system (send_run) and the relation Interleaving take messages off the senders' lists
   with pop_nth; what follows about order, validity and multiplicity is a fact about one pop. *)
Lemma pop_nth_spec {A} (P : A -> Prop) i : forall (ls ls' : list (list A)) x, pop_nth i ls = Some (x, ls') ->
  (forall j, nth j ls [] = (if Nat.eqb i j then [x] else []) ++ nth j ls' []) /\
  (Forall (Forall P) ls -> P x /\ Forall (Forall P) ls') /\
  Permutation (List.concat ls) (x :: List.concat ls').
Proof.
  induction i as [|i IH]; intros ls ls' x H.
  - destruct ls as [|[|y q] r]; cbn in H; try discriminate. injection H as <- <-. split; [|split].
    + intros [|j]; reflexivity.
    + intro F. inversion F as [|a b Fa Fb]; subst. inversion Fa; subst. split; [assumption|]. constructor; assumption.
    + reflexivity.
  - destruct ls as [|q r]; [discriminate|].
    assert (H' : match pop_nth i r with Some (x, r') => Some (x, q :: r') | None => None end = Some (x, ls'))
      by (destruct q; exact H).
    clear H. destruct (pop_nth i r) as [[y r']|] eqn:E; [|discriminate].
    injection H' as <- <-. destruct (IH r r' y E) as (H1 & H2 & H3). split; [|split].
    + intros [|j]; [reflexivity|apply H1].
    + intro F. inversion F as [|a b Fa Fb]; subst. destruct (H2 Fb). split; [assumption|]. constructor; assumption.
    + cbn. rewrite H3. symmetry. apply Permutation_middle.
Qed.

Lemma interleaving_spec {A} (P : A -> Prop) (ls : list (list A)) l : Interleaving ls l ->
  (Forall (Forall P) ls -> Forall P l) /\ Permutation l (List.concat ls) /\
  exists tags, List.length tags = List.length l /\
    forall i, map snd (List.filter (fun p => Nat.eqb (fst p) i) (combine tags l)) = nth i ls [].
Proof.
  induction 1 as [ls F|ls i0 x ls' l Hp _ (IHf & IHp & tags & Hlen & Hproj)].
  - split; [constructor|split; [now rewrite (proj2 (concat_nil_Forall ls) F)|]]. exists []. split; [reflexivity|].
    intro i. symmetry. now apply all_nil_nth.
  - destruct (pop_nth_spec P i0 ls ls' x Hp) as (Hn & Hv & Hperm). split; [|split].
    + intro F. destruct (Hv F). constructor; auto.
    + rewrite Hperm. now constructor.
    + exists (i0 :: tags). split; [cbn; now rewrite Hlen|]. intro i. cbn [combine]. now rewrite proj_cons, Hproj, Hn.
Qed.

(* if the byte stream is the concatenation of whole frames of l, and l is an interleaving of the senders'
   lists, then for every fragmentation the reader returns l: every message intact, exactly once
   (l is a permutation of all the lists together), each sender's messages in that sender's order *)
Theorem interleave_decodes ls l sched :
  Forall (Forall valid_msg) ls -> Interleaving ls l -> pos_sched sched ->
  (exists sched', read_all (S (List.length l)) {| s_data := List.concat (map enc_msg l); s_sched := sched |} =
                    Some (l, EEOF, {| s_data := []; s_sched := sched' |})) /\
  Permutation l (List.concat ls) /\
  (exists tags, List.length tags = List.length l /\
     forall i, map snd (List.filter (fun p => Nat.eqb (fst p) i) (combine tags l)) = nth i ls []).
Proof.
  intros Hv Hi Hpos. destruct (interleaving_spec valid_msg ls l Hi) as (Hf & Hp & Ht).
  split; [apply read_all_sequence; auto|auto].
Qed.

Definition from_sender (i : nat) (p : nat * msg) : bool := Nat.eqb (fst p) i.

Lemma send_run_spec sched : forall pending calls sent,
  Forall (Forall valid_msg) pending ->
  exists w' rest more,
    send_run sched pending {| w_calls := calls; w_sched := [] |} sent = Some (Ok (w', rest, rev sent ++ more)) /\
    w_calls w' = calls ++ map enc_msg (map snd more) /\
    Forall valid_msg (map snd more) /\
    (forall i, map snd (List.filter (from_sender i) more) ++ nth i rest [] = nth i pending []) /\
    (Forall (fun l => l = []) rest -> Interleaving pending (map snd more)).
Proof.
  induction sched as [|i sched IH]; intros pending calls sent Hv; cbn [send_run].
  - exists {| w_calls := calls; w_sched := [] |}, pending, []. cbn. rewrite !app_nil_r. repeat split; auto. now constructor.
  - destruct (pop_nth i pending) as [[m pending']|] eqn:Ep; [|apply IH; exact Hv].
    destruct (pop_nth_spec valid_msg i pending pending' m Ep) as (Hn & Hval & _). destruct (Hval Hv) as [Hm Hv'].
    rewrite (write_msg_once m calls Hm).
    destruct (IH pending' (calls ++ [enc_msg m]) ((i, m) :: sent) Hv') as (w' & rest & more & Hrun & Hcalls & Hvm & Hper & Hil).
    exists w', rest, ((i, m) :: more). split; [|split; [|split; [|split]]].
    + rewrite Hrun. cbn [rev]. now rewrite <- app_assoc.
    + rewrite Hcalls. cbn [map snd]. now rewrite <- app_assoc.
    + cbn [map snd]. constructor; assumption.
    + unfold from_sender in *. intro j. now rewrite proj_cons, <- app_assoc, Hper, Hn.
    + intro F. cbn [map snd]. econstructor; eauto.
Qed.

Theorem concurrent_send_decodes sched ls :
  Forall (Forall valid_msg) ls ->
  exists w' rest tagged,
    send_run sched ls {| w_calls := []; w_sched := [] |} [] = Some (Ok (w', rest, tagged)) /\
    (* one Write call per message, carrying the whole frame *)
    w_calls w' = map enc_msg (map snd tagged) /\
    (* each sender's messages appear once, in the order it sent them *)
    (forall i, map snd (List.filter (from_sender i) tagged) ++ nth i rest [] = nth i ls []) /\
    (* the peer reads back exactly that sequence, whatever the fragmentation *)
    (forall rsched, pos_sched rsched -> exists rsched',
        read_all (S (List.length tagged)) {| s_data := List.concat (w_calls w'); s_sched := rsched |} =
          Some (map snd tagged, EEOF, {| s_data := []; s_sched := rsched' |})).
Proof.
  intro Hv. destruct (send_run_spec sched ls [] [] Hv) as (w' & rest & more & Hrun & Hcalls & Hvm & Hper & _).
  cbn in Hrun, Hcalls. exists w', rest, more. repeat split; auto.
  intros rsched Hpos. rewrite Hcalls. destruct (read_all_sequence (map snd more) rsched Hvm Hpos) as (rsched' & Hr).
  rewrite map_length in Hr. eauto.
Qed.

(* when every sender got to send everything, the received sequence projected on sender i is its list *)
Corollary concurrent_send_complete sched ls w' rest tagged :
  Forall (Forall valid_msg) ls ->
  send_run sched ls {| w_calls := []; w_sched := [] |} [] = Some (Ok (w', rest, tagged)) ->
  Forall (fun l => l = []) rest ->
  forall i, map snd (List.filter (from_sender i) tagged) = nth i ls [].
Proof.
  intros Hv Hrun Hrest i. destruct (concurrent_send_decodes sched ls Hv) as (w2 & rest2 & tagged2 & Hrun2 & _ & Hper & _).
  rewrite Hrun in Hrun2. inversion Hrun2; subst. now rewrite <- (Hper i), all_nil_nth, app_nil_r.
Qed.

Lemma send_run_interleaving sched : forall pending calls sent w' rest out,
  Forall (Forall valid_msg) pending ->
  send_run sched pending {| w_calls := calls; w_sched := [] |} sent = Some (Ok (w', rest, out)) ->
  Forall (fun l => l = []) rest ->
  exists more, out = rev sent ++ more /\ Interleaving pending (map snd more).
Proof.
  intros pending calls sent w' rest out Hv Hrun Hrest.
  destruct (send_run_spec sched pending calls sent Hv) as (w2 & rest2 & more & Hrun2 & _ & _ & _ & Hil).
  rewrite Hrun in Hrun2. inversion Hrun2; subst. eauto.
Qed.

(* three handlers: traffic that fills the queue of the first, the second removes itself; Close, the goroutine of the
   first; a RemoveHandler that names nobody any more, and the third takes the freed id *)
Definition all_ : filter := fun _ _ => (true, true).
Definition once_ : filter := fun _ _ => (true, false).
Definition ex_call (id : N) : msg :=
  {| m_header := {| h_magic := Magic; h_id := id; h_size := 0; h_version := Version; h_type := T_Call; h_flags := 0;
                    h_service := 1; h_object := 1; h_action := 0 |}; m_payload := [] |}.
Definition ex_labels : list label :=
  [LMake all_ false (Some false) 1; LMake once_ false None 1; LDispatch (ex_call 1); LDispatch (ex_call 2);
   LCloseAll CNil false; LGoCloser 0; LRecv 0; LGoClose 0; LRemove 0%Z; LMake all_ false None 0].
Definition hsummary (h : handler) := (closer_calls (h_log h), queue_closes (h_log h), h_closed h,
                                      map (fun m => h_id (m_header m)) (h_recvd h ++ h_buf h)).
Lemma ex_run : exists s rs, run ex_labels = RRun s rs /\
  map hsummary (st_hs s) = [(1, 1, true, [1%N]); (0, 1, true, [1%N]); (0, 0, false, [])] /\
  rs = [RId 0; RId 1; RDisp DNil; RDisp DBlocked; RNone; RNone; RNone; RNone; RInvalid; RId 0] /\
  List.length (st_sent s) = 1.
Proof. eexists; eexists. split; [vm_compute; reflexivity|]. vm_compute. auto. Qed.

(* two senders, their Write calls interleaved 0,1,1,0 *)
Definition ex_senders : list (list msg) := [[ex_call 10; ex_call 11]; [ex_call 20; ex_call 21]].
Lemma ex_call_valid id : (id < 2 ^ 32)%N -> valid_msg (ex_call id).
Proof. intro H. repeat split; try exact H; try reflexivity; discriminate. Qed.
Lemma ex_senders_valid : Forall (Forall valid_msg) ex_senders.
Proof. repeat (apply Forall_cons || apply Forall_nil); apply ex_call_valid; reflexivity. Qed.
Lemma ex_send : exists w' tagged,
  send_run [0; 1; 1; 0] ex_senders {| w_calls := []; w_sched := [] |} [] = Some (Ok (w', [[]; []], tagged)) /\
  map (fun p => (fst p, h_id (m_header (snd p)))) tagged = [(0, 10%N); (1, 20%N); (1, 21%N); (0, 11%N)] /\
  List.length (w_calls w') = 4.
Proof.
  unfold ex_senders. eexists; eexists.
  do 4 (cbn [send_run pop_nth]; rewrite write_msg_once by (apply ex_call_valid; reflexivity)).
  cbn [send_run rev app]. split; [reflexivity|split; reflexivity].
Qed.
