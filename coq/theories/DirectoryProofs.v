(* DirectoryProofs.v — invariants of the abstract registry, the property clauses of C15 over
   every operation sequence, refinement of the abstract spec by the transliterated
   implementation, and linearizability of the synchronised directory.
   A step is taken apart once (astep_cases: four successes, every other step quiet); what it leaves
   is asked by lookup under an identifier: a_find through a_del and an appended entry for the registry,
   mget through mset and mdel for the Go maps. life_ok (one identifier: its signals, its entry, its
   life) and Rel (each Go map is the registry at one status) are stated by lookup; life_ok is kept by
   rewriting, Rel because a step changes the registry and each Go map under one key (upd, Rel_upd).
   At the end the two witnesses against the pinned code (unsync_witness, the counter wrap over cycle) and
   the identifiers of a linearizable history (lin_ids_increasing, lin_ids_distinct).
   Here astep is Directory.astep, the registry's step function: it shadows Lin.astep, the step relation
   of the atomic object that arun runs. *)
From Coq Require Import List NArith Bool String Permutation Lia Sorting.Sorted.
From QV Require Import Lin LinProofs Directory.
Import ListNotations.
Local Open Scope N_scope.

Lemma list_eqb_spec : forall A (f : A -> A -> bool), (forall a b, f a b = true <-> a = b) ->
  forall l1 l2, list_eqb f l1 l2 = true <-> l1 = l2.
Proof.
  intros A f Hf l1; induction l1 as [|x l1 IH]; intros [|y l2]; simpl; try (split; congruence).
  rewrite andb_true_iff, Hf, IH. split; [intros [-> ->]; reflexivity | intros [= -> ->]; auto].
Qed.

Lemma info_eqb_spec : forall a b, info_eqb a b = true <-> a = b.
Proof.
  intros a b. split.
  - destruct a, b. unfold info_eqb. cbn. intros H.
    apply andb_prop in H as [H Hu]; apply andb_prop in H as [H Hs]; apply andb_prop in H as [H He];
      apply andb_prop in H as [H Hp]; apply andb_prop in H as [H Hm]; apply andb_prop in H as [H Hi].
    apply String.eqb_eq in H, Hm, Hs, Hu. apply N.eqb_eq in Hi, Hp. apply (list_eqb_spec _ _ String.eqb_eq) in He.
    congruence.
  - intros <-. unfold info_eqb. rewrite !String.eqb_refl, !N.eqb_refl, (proj2 (list_eqb_spec _ _ String.eqb_eq _ _) eq_refl).
    reflexivity.
Qed.

Lemma dres_eqb_spec : forall a b, dres_eqb a b = true <-> a = b.
Proof.
  intros [x| | |x|x| ] [y| | |y|y| ]; simpl; try (split; congruence).
  - rewrite N.eqb_eq. split; congruence.
  - rewrite info_eqb_spec. split; congruence.
  - rewrite (list_eqb_spec _ _ info_eqb_spec). split; congruence.
Qed.

Lemma nodupb_spec : forall l, nodupb l = true <-> NoDup l.
Proof. exact (nodupb_iff N.eqb _ N.eqb_eq eq_refl (fun _ _ => eq_refl)). Qed.

Lemma NoDup_map_snoc : forall A B (f : A -> B) l x,
  NoDup (map f l) -> (forall y, In y l -> f y <> f x) -> NoDup (map f (l ++ [x])).
Proof.
  intros A B f l x Hnd Hx. rewrite map_app. apply NoDup_snoc; [exact Hnd|].
  intros Hin. apply in_map_iff in Hin. destruct Hin as [y [Hy Hin]]. exact (Hx y Hin Hy).
Qed.

Lemma sorted_lt_nodup : forall l, StronglySorted N.lt l -> NoDup l.
Proof.
  induction 1 as [|x l _ IH Hx]; constructor; [|exact IH].
  intros Hin. rewrite Forall_forall in Hx. specialize (Hx _ Hin). lia.
Qed.

Definition id_le (x y : info) : Prop := i_id x <= i_id y.

Lemma insert_perm : forall x l, Permutation (insert_info x l) (x :: l).
Proof.
  intros x l; induction l as [|y l IH]; simpl; [apply Permutation_refl|].
  destruct (i_id x <=? i_id y); [apply Permutation_refl|].
  eapply perm_trans; [apply perm_skip; exact IH | apply perm_swap].
Qed.

Lemma isort_perm : forall l, Permutation (isort l) l.
Proof.
  induction l as [|x l IH]; simpl; [constructor|].
  eapply perm_trans; [apply insert_perm | apply perm_skip; exact IH].
Qed.

Lemma insert_sorted : forall x l, StronglySorted id_le l -> StronglySorted id_le (insert_info x l).
Proof.
  intros x l; induction l as [|y l IH]; simpl; intros Hs.
  - constructor; constructor.
  - inversion Hs as [|? ? Hs' Hy]; subst.
    destruct (i_id x <=? i_id y) eqn:E.
    + apply N.leb_le in E. constructor; [exact Hs|]. constructor; [exact E|].
      eapply Forall_impl; [|exact Hy]. unfold id_le; intros a Ha; lia.
    + apply N.leb_gt in E. constructor; [apply IH; exact Hs'|].
      eapply Permutation_Forall; [apply Permutation_sym; apply insert_perm|].
      constructor; [unfold id_le; lia | exact Hy].
Qed.

Lemma isort_sorted : forall l, StronglySorted id_le (isort l).
Proof. induction l as [|x l IH]; simpl; [constructor | apply insert_sorted; exact IH]. Qed.

Lemma sorted_perm_eq : forall l1 l2, NoDup (map i_id l1) ->
  StronglySorted id_le l1 -> StronglySorted id_le l2 -> Permutation l1 l2 -> l1 = l2.
Proof.
  induction l1 as [|a l1 IH]; intros l2 Hnd H1 H2 HP.
  - apply Permutation_nil in HP; subst; reflexivity.
  - destruct l2 as [|b l2]; [apply Permutation_sym in HP; apply Permutation_nil in HP; discriminate|].
    inversion H1 as [|? ? H1' Ha]; subst. inversion H2 as [|? ? H2' Hb]; subst.
    assert (Hab : a = b).
    { assert (Hina : In a (b :: l2)) by (eapply Permutation_in; [exact HP | left; reflexivity]).
      assert (Hinb : In b (a :: l1)) by (eapply Permutation_in; [apply Permutation_sym; exact HP | left; reflexivity]).
      destruct Hina as [Hina|Hina]; [congruence|]. destruct Hinb as [Hinb|Hinb]; [congruence|].
      rewrite Forall_forall in Ha, Hb. specialize (Ha _ Hinb). specialize (Hb _ Hina). unfold id_le in *.
      eapply (NoDup_map_inj i_id (a :: l1)); [exact Hnd | left; reflexivity | right; exact Hinb | lia]. }
    subst b. f_equal. apply IH; auto.
    + inversion Hnd; auto.
    + eapply Permutation_cons_inv; exact HP.
Qed.

Lemma isort_unique : forall l l', NoDup (map i_id l) -> Permutation l l' -> isort l = isort l'.
Proof.
  intros l l' Hnd HP. apply sorted_perm_eq.
  - eapply Permutation_NoDup; [|exact Hnd]. apply Permutation_map. apply Permutation_sym. apply isort_perm.
  - apply isort_sorted.
  - apply isort_sorted.
  - eapply perm_trans; [apply isort_perm|]. eapply perm_trans; [exact HP|]. apply Permutation_sym. apply isort_perm.
Qed.

(* Every statement below about a step asks what a lookup by identifier gives afterwards.
   astep builds its new entry lists from a_del and from appending one entry; a_find_del,
   a_find_snoc and a_find_put say what a_find sees of each (the first and the last without
   hypotheses on the list). *)
Lemma a_find_some : forall id es e, a_find id es = Some e -> In e es /\ a_id e = id.
Proof.
  intros id es e H. apply find_some in H. destruct H as [H1 H2]. apply N.eqb_eq in H2. auto.
Qed.

Lemma a_find_in : forall id es e, NoDup (map a_id es) -> In e es -> a_id e = id -> a_find id es = Some e.
Proof.
  intros id es e Hnd He Hid. destruct (a_find id es) as [e'|] eqn:F.
  - apply a_find_some in F. destruct F as [F1 F2]. f_equal.
    eapply NoDup_map_inj; eauto. congruence.
  - eapply find_none in F; [|exact He]. apply N.eqb_neq in F. contradiction.
Qed.

Lemma a_del_in : forall id es e, In e (a_del id es) <-> In e es /\ a_id e <> id.
Proof. intros id es e. unfold a_del. rewrite filter_In, negb_true_iff, N.eqb_neq. tauto. Qed.

Lemma a_find_del : forall id k es, a_find id (a_del k es) = if k =? id then None else a_find id es.
Proof.
  intros id k es. unfold a_find, a_del. induction es as [|e es IH]; simpl.
  - destruct (k =? id); reflexivity.
  - destruct (N.eqb_spec (a_id e) k) as [Hk|Hk]; simpl.
    + rewrite IH, Hk. destruct (k =? id); reflexivity.
    + destruct (N.eqb_spec (a_id e) id) as [Hi|Hi]; [|exact IH].
      destruct (N.eqb_spec k id); [congruence | reflexivity].
Qed.

Lemma a_find_snoc : forall id k es e, a_id e = k -> a_find k es = None ->
  a_find id (es ++ [e]) = if k =? id then Some e else a_find id es.
Proof.
  intros id k es e <-. unfold a_find. induction es as [|x es IH]; simpl; intros Hk.
  - reflexivity.
  - destruct (N.eqb_spec (a_id x) (a_id e)) as [|Hx]; [discriminate|].
    destruct (N.eqb_spec (a_id x) id) as [Hi|Hi]; [|exact (IH Hk)].
    destruct (N.eqb_spec (a_id e) id); [congruence | reflexivity].
Qed.

Lemma a_find_put : forall id k es e, a_id e = k ->
  a_find id (a_del k es ++ [e]) = if k =? id then Some e else a_find id es.
Proof.
  intros id k es e Hk. rewrite (a_find_snoc id k), a_find_del; [|exact Hk|].
  - destruct (k =? id); reflexivity.
  - rewrite a_find_del, N.eqb_refl. reflexivity.
Qed.

Lemma a_has_name_spec : forall n es, a_has_name n es = true <-> exists e, In e es /\ a_name e = n.
Proof.
  intros n es. unfold a_has_name. rewrite existsb_exists.
  split; intros [e [H1 H2]]; exists e; split; auto; apply String.eqb_eq; auto.
Qed.

Record AInv (a : astate) : Prop := {
  ai_ids : NoDup (map a_id (a_entries a));
  ai_names : NoDup (map a_name (a_entries a));
  ai_bound : forall e, In e (a_entries a) -> a_id e <= a_next a }.

Lemma AInv_init : AInv ainit.
Proof. constructor; simpl; try constructor; tauto. Qed.

Lemma a_find_fresh : forall a k, AInv a -> a_next a < k -> a_find k (a_entries a) = None.
Proof.
  intros a k Ha Hk. destruct (a_find k (a_entries a)) as [e|] eqn:F; [|reflexivity].
  apply a_find_some in F. destruct F as [He <-]. apply (ai_bound _ Ha) in He. lia.
Qed.

Lemma AInv_new : forall a i, AInv a -> a_has_name (i_name i) (a_entries a) = false ->
  AInv {| a_entries := a_entries a ++ [{| a_info := with_id i (a_next a + 1); a_ready := false |}];
          a_next := a_next a + 1 |}.
Proof.
  intros a i [Hi Hn Hb] Hnm. constructor; cbn [a_entries a_next].
  - apply NoDup_map_snoc; [exact Hi|]. intros y Hy. apply Hb in Hy. cbn. lia.
  - apply NoDup_map_snoc; [exact Hn|]. intros y Hy Hyn.
    rewrite <- not_true_iff_false, a_has_name_spec in Hnm. apply Hnm. exists y. auto.
  - intros x Hx. apply in_app_iff in Hx. destruct Hx as [Hx|[<-|[]]]; [apply Hb in Hx|cbn]; lia.
Qed.

Lemma AInv_del : forall a k, AInv a -> AInv {| a_entries := a_del k (a_entries a); a_next := a_next a |}.
Proof.
  intros a k [Hi Hn Hb]. constructor; cbn [a_entries a_next].
  - apply NoDup_map_filter, Hi.
  - apply NoDup_map_filter, Hn.
  - intros e He. apply a_del_in in He. apply Hb, He.
Qed.

Lemma AInv_put : forall a k e0 e, AInv a -> a_find k (a_entries a) = Some e0 ->
  a_id e = k -> a_name e = a_name e0 ->
  AInv {| a_entries := a_del k (a_entries a) ++ [e]; a_next := a_next a |}.
Proof.
  intros a k e0 e Ha F Hid Hnm. apply a_find_some in F. destruct F as [He0 Hk].
  destruct (AInv_del a k Ha) as [Hi Hn Hb]. cbn [a_entries a_next] in *. constructor; cbn [a_entries a_next].
  - apply NoDup_map_snoc; [exact Hi|]. intros y Hy. apply a_del_in in Hy. rewrite Hid. apply Hy.
  - apply NoDup_map_snoc; [exact Hn|]. intros y Hy Hyn. apply a_del_in in Hy. destruct Hy as [Hy Hne].
    apply Hne. rewrite (NoDup_map_inj a_name _ y e0 (ai_names _ Ha) Hy He0); congruence.
  - intros x Hx. apply in_app_iff in Hx. destruct Hx as [Hx|[<-|[]]]; [apply Hb, Hx|].
    rewrite Hid, <- Hk. apply (ai_bound _ Ha), He0.
Qed.

Definition reg_id (o : dop) (r : dres) : list N :=
  match o, r with ORegister _, RId id => [id] | _, _ => [] end.

(* The cases of a step. [quiet o r]: operation and result neither begin, publish nor end a life;
   every step that is not one of the four successes below is quiet, leaves the state alone
   and emits nothing. *)
Definition quiet (o : dop) (r : dres) : Prop :=
  match o, r with ORegister _, RId _ | OUnregister _, ROk | OReady _, ROk => False | _, _ => True end.

Inductive astep_spec (a : astate) : dop -> out astate -> Prop :=
| S_same : forall o r, quiet o r -> astep_spec a o (a, r, [])
| S_register : forall i, a_has_name (i_name i) (a_entries a) = false ->
    astep_spec a (ORegister i)
      ({| a_entries := a_entries a ++ [{| a_info := with_id i (a_next a + 1); a_ready := false |}];
          a_next := a_next a + 1 |}, RId (a_next a + 1), [])
| S_unregister : forall k e, a_find k (a_entries a) = Some e ->
    astep_spec a (OUnregister k)
      ({| a_entries := a_del k (a_entries a); a_next := a_next a |}, ROk,
       if a_ready e then [EvRemoved k (a_name e)] else [])
| S_ready : forall k e, a_find k (a_entries a) = Some e -> a_ready e = false ->
    astep_spec a (OReady k)
      ({| a_entries := a_del k (a_entries a) ++ [{| a_info := a_info e; a_ready := true |}];
          a_next := a_next a |}, ROk, [EvAdded k (a_name e)])
| S_update : forall i e, a_find (i_id i) (a_entries a) = Some e -> a_ready e = true -> a_name e = i_name i ->
    astep_spec a (OUpdate i)
      ({| a_entries := a_del (i_id i) (a_entries a) ++ [{| a_info := i; a_ready := true |}];
          a_next := a_next a |}, ROk, []).

(* the branch of astep at hand leaves the state alone, emits nothing and is quiet *)
Ltac quiet_branch := apply S_same; exact I.

Lemma astep_cases : forall a o, astep_spec a o (astep a o).
Proof.
  intros a o. destruct o; cbn [astep]; try quiet_branch.
  - destruct (valid_info i), (a_has_name (i_name i) (a_entries a)) eqn:Hn, (a_next a + 1 <? W32);
      try quiet_branch. apply S_register, Hn.
  - destruct (a_find id (a_entries a)) as [e|] eqn:F; [exact (S_unregister a id e F) | quiet_branch].
  - destruct (a_find id (a_entries a)) as [e|] eqn:F; [destruct (a_ready e) eqn:Rd|]; try quiet_branch.
    apply S_ready; assumption.
  - destruct (valid_info i), (a_find (i_id i) (a_entries a)) as [e|] eqn:F; try quiet_branch.
    destruct (a_ready e) eqn:Rd, (String.eqb_spec (a_name e) (i_name i)); try quiet_branch.
    apply (S_update a i e); assumption.
  - destruct (find _ (a_entries a)); quiet_branch.
  - destruct (find _ (a_entries a)); quiet_branch.
Qed.

Lemma quiet_reg_id : forall o r, quiet o r -> reg_id o r = [].
Proof. intros o r Q. destruct o; try reflexivity. destruct r; try reflexivity. contradiction. Qed.

Lemma quiet_life : forall id l o r ev, quiet o r -> life_step id l (o, r, ev) = l.
Proof. intros id l o r ev Q. destruct o; try reflexivity; destruct r; try reflexivity; contradiction. Qed.

Lemma astep_inv : forall a o, AInv a -> AInv (fst (fst (astep a o))).
Proof.
  intros a o Ha. destruct (astep_cases a o) as [o r _|i Hn|k e F|k e F Rd|i e F Rd Nm]; cbn [fst].
  - exact Ha.
  - apply AInv_new; assumption.
  - apply AInv_del, Ha.
  - apply (AInv_put a k e); auto. apply (a_find_some _ _ _ F).
  - apply (AInv_put a _ e); auto.
Qed.

Lemma run_cons : forall S (step : S -> dop -> out S) s o r,
  run step s (o :: r) =
  (fst (run step (fst (fst (step s o))) r),
   (o, snd (fst (step s o)), snd (step s o)) :: snd (run step (fst (fst (step s o))) r)).
Proof.
  intros S step s o r. simpl. destruct (step s o) as [[s' res] ev]. simpl.
  destruct (run step s' r) as [s'' tr]. reflexivity.
Qed.

Lemma run_app : forall S (step : S -> dop -> out S) l1 l2 s,
  run step s (l1 ++ l2) =
  (fst (run step (fst (run step s l1)) l2), snd (run step s l1) ++ snd (run step (fst (run step s l1)) l2)).
Proof.
  intros S step l1; induction l1 as [|o l1 IH]; intros l2 s.
  - simpl. destruct (run step s l2); reflexivity.
  - rewrite <- app_comm_cons. rewrite !run_cons. rewrite IH. reflexivity.
Qed.

(* The counter never decreases, and a registration that succeeds returns the counter's new
   value; so a list of returned identifiers with the counter put in front is increasing.
   No invariant is needed. *)
Lemma astep_ids : forall a o l,
  StronglySorted N.lt (a_next (fst (fst (astep a o))) :: l) ->
  StronglySorted N.lt (a_next a :: l) /\
  StronglySorted N.lt (a_next a :: reg_id o (snd (fst (astep a o))) ++ l).
Proof.
  intros a o l. destruct (astep_cases a o) as [o r Q|i _|k e _|k e _ _|i e _ _ _]; cbn [fst snd a_next reg_id app]; intros H;
    try (split; exact H).
  - rewrite (quiet_reg_id _ _ Q). split; exact H.
  - pose proof (StronglySorted_inv H) as [H1 H2].
    assert (H3 : Forall (N.lt (a_next a)) l) by (eapply Forall_impl; [|exact H2]; intros; lia).
    split; constructor; auto. constructor; [lia | exact H3].
Qed.

Lemma tr_ids_cons : forall o r ev T, tr_ids ((o, r, ev) :: T) = reg_id o r ++ tr_ids T.
Proof. reflexivity. Qed.

Lemma tr_ids_app : forall t1 t2, tr_ids (t1 ++ t2) = tr_ids t1 ++ tr_ids t2.
Proof. intros. unfold tr_ids. apply flat_map_app. Qed.

Lemma ids_increasing_gen : forall ops a, StronglySorted N.lt (a_next a :: tr_ids (snd (run astep a ops))).
Proof.
  induction ops as [|o r IH]; intros a.
  - repeat constructor.
  - rewrite run_cons. cbn [snd]. rewrite tr_ids_cons. apply astep_ids, IH.
Qed.

Definition entry_with (a : astate) (id : N) (n : string) (rd : bool) : Prop :=
  exists e, In e (a_entries a) /\ a_id e = id /\ a_name e = n /\ a_ready e = rd.

Definition status (a : astate) (id : N) : option (string * bool) :=
  option_map (fun e => (a_name e, a_ready e)) (a_find id (a_entries a)).
Definition life_status (l : lifecycle) : option (string * bool) :=
  match l with LStaged n => Some (n, false) | LReady n => Some (n, true) | _ => None end.

Lemma entry_with_status : forall a id n rd, AInv a -> entry_with a id n rd <-> status a id = Some (n, rd).
Proof.
  intros a id n rd Ha. unfold status. split.
  - intros [e [He [Hid [<- <-]]]]. rewrite (a_find_in _ _ _ (ai_ids _ Ha) He Hid). reflexivity.
  - destruct (a_find id (a_entries a)) as [e|] eqn:F; [|discriminate]. intros E. inversion E; subst.
    apply a_find_some in F. exists e. tauto.
Qed.

Lemma life_status_inv : forall l n rd, life_status l = Some (n, rd) -> l = if rd then LReady n else LStaged n.
Proof. intros l n rd H. destruct l; inversion H; reflexivity. Qed.

Lemma life_of_entry : forall a id l e, status a id = life_status l -> a_find id (a_entries a) = Some e ->
  l = if a_ready e then LReady (a_name e) else LStaged (a_name e).
Proof. unfold status. intros a id l e H F. rewrite F in H. symmetry in H. exact (life_status_inv _ _ _ H). Qed.

(* One identifier, with the signals it has received so far and its life so far: the signals
   are those the life calls for, the registry holds what the life says, and only identifiers
   up to the counter have begun a life. *)
Definition life_ok (a : astate) (id : N) (evs : list devent) (l : lifecycle) : Prop :=
  evs = life_events id l /\ status a id = life_status l /\ (l = LNone \/ id <= a_next a).

Lemma status_put : forall a k e' id, a_id e' = k ->
  status {| a_entries := a_del k (a_entries a) ++ [e']; a_next := a_next a |} id =
  if k =? id then Some (a_name e', a_ready e') else status a id.
Proof.
  intros a k e' id Hk. unfold status. cbn [a_entries]. rewrite a_find_put by exact Hk.
  destruct (k =? id); reflexivity.
Qed.

Lemma life_ok_step : forall a o id evs l, AInv a -> life_ok a id evs l ->
  let '(a', r, ev) := astep a o in life_ok a' id (evs ++ events_for id ev) (life_step id l (o, r, ev)).
Proof.
  intros a o id evs l Ha (Hev & Hst & Hrg). unfold life_ok.
  destruct (astep_cases a o) as [o r Q|i Hn|k e F|k e F Rd|i e F Rd Nm].
  2-5: cbn [life_step events_for filter a_next].
  - rewrite (quiet_life _ _ _ _ _ Q). cbn. rewrite app_nil_r. auto.
  - rewrite app_nil_r. unfold status. cbn [a_entries].
    rewrite (a_find_snoc id (a_next a + 1)) by (reflexivity || (apply a_find_fresh; [exact Ha | lia])).
    destruct (N.eqb_spec (a_next a + 1) id) as [<-|Hne].
    + destruct Hrg as [->|]; [|lia]. split; [exact Hev|]. split; [reflexivity | right; lia].
    + repeat split; auto. destruct Hrg; [left; assumption | right; lia].
  - unfold status at 1. cbn [a_entries]. rewrite a_find_del.
    destruct (N.eqb_spec k id) as [->|Hne].
    + rewrite (life_of_entry _ _ _ _ Hst F) in *. subst evs.
      destruct (a_ready e), Hrg; try discriminate; cbn; rewrite ?N.eqb_refl; auto.
    + destruct (a_ready e); cbn; rewrite ?(proj2 (N.eqb_neq _ _) Hne), app_nil_r; auto.
  - rewrite (status_put a k) by apply (a_find_some _ _ _ F). cbn [ev_id a_name a_ready a_info].
    destruct (N.eqb_spec k id) as [->|Hne]; [|rewrite app_nil_r; auto].
    rewrite (life_of_entry _ _ _ _ Hst F), Rd in *. subst evs.
    repeat split; auto. right. destruct Hrg; [discriminate | assumption].
  - rewrite status_put, app_nil_r by auto. cbn [a_name a_ready a_info].
    destruct (N.eqb_spec (i_id i) id) as [<-|]; [|auto].
    rewrite (life_of_entry _ _ _ _ Hst F), Rd, Nm in *. auto.
Qed.

(* lifecycle_of folds from the left, so the induction over a run lets the start vary: the registry,
   the signals and the life so far. *)
Lemma run_life : forall ops a, AInv a ->
  let '(a', tr) := run astep a ops in
  AInv a' /\ forall id evs l, life_ok a id evs l ->
             life_ok a' id (evs ++ events_for id (tr_events tr)) (fold_left (life_step id) tr l).
Proof.
  induction ops as [|o r IH]; intros a Ha; simpl.
  - split; [exact Ha|]. intros id evs l H. rewrite app_nil_r. exact H.
  - pose proof (astep_inv a o Ha) as Ha1. pose proof (life_ok_step a o) as Hs.
    destruct (astep a o) as [[a1 res] ev]. specialize (IH a1 Ha1).
    destruct (run astep a1 r) as [a2 tr]. destruct IH as [Ha2 HL]. split; [exact Ha2|].
    intros id evs l H. apply (Hs id _ _ Ha), HL in H.
    cbn [tr_events flat_map snd]. unfold events_for. rewrite filter_app, app_assoc. exact H.
Qed.

Lemma reach : forall ops, AInv (fst (run astep ainit ops)) /\
  forall id, life_ok (fst (run astep ainit ops)) id (events_for id (tr_events (snd (run astep ainit ops))))
               (lifecycle_of id (snd (run astep ainit ops))).
Proof.
  intros ops. pose proof (run_life ops ainit AInv_init) as H. destruct (run astep ainit ops) as [a tr].
  destruct H as [Ha HL]. split; [exact Ha|]. intros id. apply (HL id [] LNone). unfold life_ok. auto.
Qed.

(* signals: for every identifier exactly the signals its life calls for, in that order *)
Theorem events_exact : forall ops id,
  events_for id (tr_events (snd (run astep ainit ops))) =
  life_events id (lifecycle_of id (snd (run astep ainit ops))).
Proof. intros ops id. apply (proj2 (reach ops) id). Qed.

Lemma a_service_spec : forall a n,
  match snd (fst (astep a (OService n))) with
  | RInfo i => In {| a_info := i; a_ready := true |} (a_entries a) /\ i_name i = n
  | RErr => forall e, In e (a_entries a) -> a_ready e = true -> a_name e <> n
  | _ => False
  end.
Proof.
  intros a n. simpl. destruct (find _ (a_entries a)) as [e|] eqn:F; simpl.
  - apply find_some in F. destruct F as [He Hb]. apply andb_true_iff in Hb. destruct Hb as [Hr Hn].
    apply String.eqb_eq in Hn. destruct e as [i rd]; simpl in *. subst rd. auto.
  - intros e He Hr Hn. eapply find_none in F; [|exact He]. simpl in F.
    rewrite Hr in F. simpl in F. apply String.eqb_neq in F. auto.
Qed.

Lemma a_resolve_service : forall a n,
  snd (fst (astep a (OResolve n))) =
  match snd (fst (astep a (OService n))) with RInfo i => RId (i_id i) | _ => RErr end.
Proof. intros a n. simpl. destruct (find _ (a_entries a)); reflexivity. Qed.

(* visible to lookup and list exactly from serviceReady until unregisterService *)
Theorem visibility : forall ops,
  let a := fst (run astep ainit ops) in
  let tr := snd (run astep ainit ops) in
  (forall id, (exists n, lifecycle_of id tr = LReady n) <->
              (exists e, In e (a_entries a) /\ a_id e = id /\ a_ready e = true)) /\
  (forall n, match snd (fst (astep a (OService n))) with
             | RInfo i => lifecycle_of (i_id i) tr = LReady n /\ i_name i = n
             | RErr => forall id, lifecycle_of id tr <> LReady n
             | _ => False
             end) /\
  (exists l, snd (fst (astep a OServices)) = RList l /\ StronglySorted id_le l /\
             forall id, In id (map i_id l) <-> exists n, lifecycle_of id tr = LReady n).
Proof.
  intros ops a tr. destruct (reach ops) as [Ha HL]. fold a tr in Ha, HL.
  assert (Hrd : forall id n, lifecycle_of id tr = LReady n <-> entry_with a id n true).
  { intros id n. rewrite (entry_with_status _ _ _ _ Ha), (proj1 (proj2 (HL id))). split.
    - intros ->. reflexivity.
    - intros H. exact (life_status_inv _ _ _ H). }
  assert (Hvis : forall id, (exists n, lifecycle_of id tr = LReady n) <->
              (exists e, In e (a_entries a) /\ a_id e = id /\ a_ready e = true)).
  { intros id. split.
    - intros [n Hn]. apply Hrd in Hn. destruct Hn as [e He]. exists e. tauto.
    - intros [e He]. exists (a_name e). apply Hrd. exists e. tauto. }
  split; [exact Hvis|]. split.
  - intros n. pose proof (a_service_spec a n) as Hs.
    destruct (snd (fst (astep a (OService n)))) as [ | | |i| | ]; auto.
    + intros id Hl. apply Hrd in Hl. destruct Hl as [e [H1 [H2 [H3 H4]]]]. exact (Hs e H1 H4 H3).
    + destruct Hs as [Hin Hn]. split; [|exact Hn]. apply Hrd. eexists. split; [exact Hin|]. auto.
  - exists (isort (map a_info (filter a_ready (a_entries a)))).
    split; [reflexivity|]. split; [apply isort_sorted|].
    pose proof (Permutation_map i_id (isort_perm (map a_info (filter a_ready (a_entries a))))) as HP.
    rewrite map_map in HP. intros id. rewrite Hvis. split.
    + intros Hin. apply (Permutation_in _ HP), in_map_iff in Hin. destruct Hin as [e [He Hin]].
      apply filter_In in Hin. exists e. tauto.
    + intros [e [He [Hid Hr]]]. apply (Permutation_in _ (Permutation_sym HP)), in_map_iff.
      exists e. rewrite filter_In. tauto.
Qed.

(* updateServiceInfo cannot change a service's name or identity (nor its status) *)
Theorem update_keeps_identity : forall a i, AInv a ->
  forall id n rd, entry_with (fst (fst (astep a (OUpdate i)))) id n rd <-> entry_with a id n rd.
Proof.
  intros a i Ha id n rd. pose proof (astep_inv a (OUpdate i) Ha) as Ha'. rewrite !entry_with_status by assumption.
  remember (OUpdate i) as o eqn:E. clear Ha'.
  destruct (astep_cases a o) as [o r _|? ?|? ? ?|? ? ? ?|i' e F Rd Nm]; try discriminate; [reflexivity|].
  cbn [fst]. rewrite status_put by auto. cbn [a_name a_ready a_info].
  destruct (N.eqb_spec (i_id i') id) as [<-|]; [|reflexivity]. unfold status. rewrite F. cbn. rewrite Rd, Nm. reflexivity.
Qed.

Lemma in_mget : forall k v (m : cmap), NoDup (map fst m) -> In (k, v) m -> mget k m = Some v.
Proof. exact (in_aget N.eqb_spec). Qed.

Lemma mget_mdel : forall id k (m : cmap), mget id (mdel k m) = if k =? id then None else mget id m.
Proof. intros id k m. exact (aget_adel N.eqb_spec k id m). Qed.

Lemma mget_mset : forall id k v (m : cmap), mget id (mset k v m) = if k =? id then Some v else mget id m.
Proof.
  intros id k v m. induction m as [|[k' v'] m IH]; simpl.
  - reflexivity.
  - destruct (N.eqb_spec k' k) as [Hk|Hk]; simpl.
    + rewrite Hk. destruct (k =? id); reflexivity.
    + rewrite IH. destruct (N.eqb_spec k' id) as [Hi|Hi]; [|reflexivity].
      destruct (N.eqb_spec k id); [congruence | reflexivity].
Qed.

Lemma mset_nodup : forall k v (m : cmap), NoDup (map fst m) -> NoDup (map fst (mset k v m)).
Proof.
  intros k v m; induction m as [|[k' v'] m IH]; simpl; intros H.
  - repeat constructor. intros [].
  - inversion H as [|? ? Hn Hd]; subst. destruct (N.eqb_spec k' k) as [->|Hk]; [exact H|].
    simpl. constructor; [|exact (IH Hd)].
    intros Hin. apply Hn. clear - Hin Hk. induction m as [|[k'' v''] m IH]; simpl in *.
    + destruct Hin as [|[]]; congruence.
    + destruct (k'' =? k); simpl in *; intuition congruence.
Qed.

Lemma has_name_spec : forall n (m : cmap), has_name n m = true <-> exists p, In p m /\ i_name (snd p) = n.
Proof.
  intros n m. unfold has_name. rewrite existsb_exists.
  split; intros [p [H1 H2]]; exists p; split; auto; apply String.eqb_eq; auto.
Qed.

(* what the Go map for entries of status rd holds under a key, given the registry's entry for it *)
Definition side (rd : bool) (x : option aentry) : option info :=
  match x with Some e => if Bool.eqb (a_ready e) rd then Some (a_info e) else None | None => None end.

(* the Go map that keeps the entries of status rd *)
Definition gomap (c : cstate) (rd : bool) : cmap := if rd then services c else staging c.

(* Each Go map is the registry restricted to one status, read as a finite map from
   identifier to info; no key twice. *)
Record Rel (c : cstate) (a : astate) : Prop := {
  r_nodup : forall rd, NoDup (map fst (gomap c rd));
  r_get : forall rd k, mget k (gomap c rd) = side rd (a_find k (a_entries a));
  r_next : a_next a = lastID c }.

Lemma Rel_init : Rel cinit ainit.
Proof. constructor; [intros [|]; constructor | intros [|] k; reflexivity | reflexivity]. Qed.

Section Refine.
  Variables (c : cstate) (a : astate).
  Hypothesis HR : Rel c a.
  Hypothesis HA : AInv a.

  Lemma rel_map : forall rd k i, In (k, i) (gomap c rd) ->
    a_find k (a_entries a) = Some {| a_info := i; a_ready := rd |}.
  Proof.
    intros rd k i H. apply in_mget in H; [|apply (r_nodup _ _ HR)]. rewrite (r_get _ _ HR) in H.
    destruct (a_find k (a_entries a)) as [[j rd']|]; [|discriminate]. destruct rd', rd; inversion H; reflexivity.
  Qed.

  Lemma rel_entry : forall e, In e (a_entries a) -> In (a_id e, a_info e) (gomap c (a_ready e)).
  Proof.
    intros e He. apply (aget_in N.eqb_spec). change (aget N.eqb (a_id e)) with (mget (a_id e)).
    rewrite (r_get _ _ HR), (a_find_in _ _ _ (ai_ids _ HA) He eq_refl). unfold side. rewrite Bool.eqb_reflx. reflexivity.
  Qed.

  Lemma rel_has_name : forall n,
    has_name n (staging c) || has_name n (services c) = a_has_name n (a_entries a).
  Proof.
    intros n. apply eq_true_iff_eq. rewrite orb_true_iff, !has_name_spec, a_has_name_spec. split.
    - intros [[[k i] [H1 H2]]|[[k i] [H1 H2]]]; [apply (rel_map false) in H1 | apply (rel_map true) in H1];
        apply a_find_some in H1; eexists; (split; [apply H1 | exact H2]).
    - intros [e [H1 H2]]. apply rel_entry in H1. destruct (a_ready e); [right|left]; eexists; eauto.
  Qed.

  Lemma rel_find_name : forall n,
    match find_name n (services c), find (fun e => a_ready e && String.eqb (a_name e) n) (a_entries a) with
    | Some (_, i), Some e => a_info e = i
    | None, None => True
    | _, _ => False
    end.
  Proof.
    intros n. unfold find_name.
    destruct (find _ (a_entries a)) as [e|] eqn:F2.
    - (* the ready entry named n is in services, and no other entry there has that name *)
      apply find_some in F2. destruct F2 as [He Hb]. apply andb_true_iff in Hb. destruct Hb as [Hr Hn].
      apply String.eqb_eq in Hn. pose proof (rel_entry e He) as Hp. rewrite Hr in Hp.
      destruct (find _ (services c)) as [[k i]|] eqn:F1.
      + apply find_some in F1. destruct F1 as [H1 H2]. apply String.eqb_eq in H2.
        apply (rel_map true), a_find_some, proj1 in H1.
        rewrite (NoDup_map_inj a_name _ _ _ (ai_names _ HA) He H1); [reflexivity | rewrite Hn; symmetry; exact H2].
      + apply (find_none _ _ F1) in Hp. apply String.eqb_neq in Hp. exact (Hp Hn).
    - destruct (find _ (services c)) as [[k i]|] eqn:F1; [|exact I].
      apply find_some in F1. destruct F1 as [H1 H2]. apply (rel_map true), a_find_some, proj1 in H1.
      apply (find_none _ _ F2) in H1. unfold a_name in H1. cbn in H1, H2. congruence.
  Qed.

  Lemma rel_keys : forall rd, map i_id (map snd (gomap c rd)) = map fst (gomap c rd).
  Proof.
    intros rd. rewrite map_map. apply map_ext_in. intros [k i] Hp. apply rel_map, a_find_some in Hp. apply Hp.
  Qed.

  Lemma rel_keys_nodup : NoDup (map fst (gomap c false ++ gomap c true)).
  Proof.
    rewrite map_app. apply NoDup_app_iff. split; [apply (r_nodup _ _ HR false) | split; [apply (r_nodup _ _ HR true) |]].
    intros k Hk. apply in_map_iff in Hk. destruct Hk as [[k' i] [<- Hp]]. apply (aget_none N.eqb_spec).
    apply (rel_map false) in Hp. change (mget k' (gomap c true) = None). rewrite (r_get _ _ HR), Hp. reflexivity.
  Qed.

  Lemma rel_abs : Permutation (a_entries a) (abs_entries c).
  Proof.
    apply NoDup_Permutation; [eapply NoDup_map_inv, (ai_ids _ HA) | |].
    - apply NoDup_map_inv with (f := a_id). unfold abs_entries. rewrite map_app, !map_map.
      pose proof rel_keys_nodup as Hk. rewrite map_app, <- !rel_keys, !map_map in Hk. exact Hk.
    - intros e. unfold abs_entries. rewrite in_app_iff, !in_map_iff. split.
      + intros He. apply rel_entry in He. destruct e as [i [|]]; [right|left]; eexists (_, i); eauto.
      + intros [[[k i] [<- Hp]]|[[k i] [<- Hp]]]; [apply (rel_map false) in Hp | apply (rel_map true) in Hp];
          apply a_find_some in Hp; apply Hp.
  Qed.

  Lemma rel_services_list :
    isort (map snd (services c)) = isort (map a_info (filter a_ready (a_entries a))).
  Proof.
    pose proof (r_nodup _ _ HR true) as Hnd. rewrite <- rel_keys in Hnd.
    apply isort_unique; [exact Hnd|].
    apply NoDup_Permutation.
    - eapply NoDup_map_inv, Hnd.
    - eapply NoDup_map_inv with (f := i_id). rewrite map_map. apply (NoDup_map_filter a_id), (ai_ids _ HA).
    - intros i. rewrite !in_map_iff. split.
      + intros [[k j] [<- Hp]]. apply (rel_map true), a_find_some in Hp.
        eexists. split; [|apply filter_In; split; [apply Hp|]]; reflexivity.
      + intros [e [<- He]]. apply filter_In in He. destruct He as [He Hr].
        apply rel_entry in He. rewrite Hr in He. eexists. split; [|exact He]. reflexivity.
  Qed.
End Refine.

(* [upd k o m m']: the Go map m' is m with o under key k (None: no entry), every other key as it was.
   An assignment, a delete and leaving alone a map that already has o there are the three ways. *)
Definition upd (k : N) (o : option info) (m m' : cmap) : Prop :=
  (NoDup (map fst m) -> NoDup (map fst m')) /\ forall id, mget id m' = if k =? id then o else mget id m.

Lemma upd_set : forall k v m, upd k (Some v) m (mset k v m).
Proof. split; [apply mset_nodup | intros id; apply mget_mset]. Qed.

Lemma upd_del : forall k m, upd k None m (mdel k m).
Proof. split; [apply adel_nodup | intros id; apply mget_mdel]. Qed.

Lemma upd_same : forall k o m, mget k m = o -> upd k o m m.
Proof. intros k o m <-. split; [auto|]. intros id. destruct (N.eqb_spec k id) as [<-|]; reflexivity. Qed.

(* Rel is kept when the registry gets x under k and each Go map gets the side of x that is its own. *)
Lemma Rel_upd : forall c a, Rel c a -> forall k x c' a',
  (forall id, a_find id (a_entries a') = if k =? id then x else a_find id (a_entries a)) ->
  (forall rd, upd k (side rd x) (gomap c rd) (gomap c' rd)) -> a_next a' = lastID c' -> Rel c' a'.
Proof.
  intros c a [Hnd Hget _] k x c' a' Ha U Hn. constructor; [intros rd; apply (U rd), Hnd | | exact Hn].
  intros rd id. rewrite (proj2 (U rd)), Ha. destruct (k =? id); [reflexivity | apply Hget].
Qed.

(* The transliterated implementation refines the abstract registry: step by step, same
   result and same signals, related states. *)
Definition agree (x : out cstate) (y : out astate) : Prop :=
  Rel (fst (fst x)) (fst (fst y)) /\ snd (fst x) = snd (fst y) /\ snd x = snd y.

Theorem refine_step : forall g c a o, cfg_wrap g = false -> Rel c a -> AInv a ->
  agree (cstep g c o) (astep a o).
Proof.
  intros g c a o Hw HR HA. pose proof HR as [_ Hget Hnx].
  assert (Same : forall r, agree (c, r, []) (a, r, [])) by (split; auto).
  assert (Step : forall c' a' r ev, Rel c' a' -> agree (c', r, ev) (a', r, ev)) by (split; auto).
  destruct o; cbn [cstep astep]; try exact (Same _).
  5, 7: (* service, Resolve: the same search by name on both sides *)
    unfold c_service, c_resolve; pose proof (rel_find_name c a HR HA n) as Hf;
    destruct (find_name n (services c)) as [[k i]|]; destruct (find _ (a_entries a)) as [e|]; try contradiction;
    [subst i|]; exact (Same _).
  - unfold c_register, reg_check, reg_commit.
    rewrite <- (rel_has_name c a HR HA), Hnx, Hw, N.ltb_antisym.
    destruct (valid_info i); [|exact (Same _)].
    destruct (has_name (i_name i) (staging c)); [exact (Same _)|].
    destruct (has_name (i_name i) (services c)); [exact (Same _)|]. cbn [negb andb orb].
    destruct (N.leb_spec W32 (lastID c + 1)) as [|L]; [exact (Same _)|]. cbn [negb]. rewrite (N.mod_small _ _ L).
    set (id := lastID c + 1).
    assert (F : a_find id (a_entries a) = None) by (apply a_find_fresh; [exact HA | lia]).
    eapply Step, (Rel_upd c a HR id); [intros k; apply a_find_snoc; auto | intros [|] | reflexivity].
    + apply upd_same. rewrite (Hget true), F. reflexivity.
    + apply upd_set.
  - unfold c_unregister. rewrite (Hget true), (Hget false).
    destruct (a_find id (a_entries a)) as [[i [|]]|] eqn:F; cbn [side a_ready a_info Bool.eqb]; [| |exact (Same _)];
      (apply Step, (Rel_upd c a HR id None); [intros k; apply a_find_del | intros [|] | exact Hnx]).
    + apply upd_del.
    + apply upd_same. rewrite (Hget false), F. reflexivity.
    + apply upd_same. rewrite (Hget true), F. reflexivity.
    + apply upd_del.
  - unfold c_ready. rewrite (Hget false).
    destruct (a_find id (a_entries a)) as [[i [|]]|] eqn:F; cbn [side a_ready a_info Bool.eqb]; try exact (Same _).
    eapply Step, (Rel_upd c a HR id); [intros k; apply a_find_put, (a_find_some _ _ _ F) | intros [|]; [apply upd_set | apply upd_del] | exact Hnx].
  - unfold c_update. rewrite (Hget true).
    destruct (valid_info i); [|exact (Same _)].
    destruct (a_find (i_id i) (a_entries a)) as [[old [|]]|] eqn:F; cbn [side a_ready a_info Bool.eqb andb]; try exact (Same _).
    unfold a_name. cbn [a_info]. destruct (String.eqb (i_name old) (i_name i)); [|exact (Same _)].
    eapply Step, (Rel_upd c a HR (i_id i)); [intros k; apply a_find_put; reflexivity | intros [|] | exact Hnx].
    + apply upd_set.
    + apply upd_same. rewrite (Hget false), F. reflexivity.
  - unfold c_services. rewrite (rel_services_list _ _ HR HA). exact (Same _).
Qed.

Lemma refinement_gen : forall g ops c a, cfg_wrap g = false -> Rel c a -> AInv a ->
  snd (run (cstep g) c ops) = snd (run astep a ops) /\
  Rel (fst (run (cstep g) c ops)) (fst (run astep a ops)).
Proof.
  intros g ops; induction ops as [|o r IH]; intros c a Hw HR HA.
  - simpl. auto.
  - rewrite !run_cons. cbn [fst snd].
    destruct (refine_step g c a o Hw HR HA) as [HR' [Hr He]].
    destruct (IH _ _ Hw HR' (astep_inv a o HA)) as [IH1 IH2].
    split; [|exact IH2]. rewrite Hr, He, IH1. reflexivity.
Qed.

Theorem refinement : forall g ops, cfg_wrap g = false ->
  snd (run (cstep g) cinit ops) = snd (run astep ainit ops).
Proof. intros g ops Hw. apply (refinement_gen g ops cinit ainit Hw Rel_init AInv_init). Qed.

(* a name is held by at most one entry of staging ∪ services, an id by at most one *)
Theorem concrete_unique : forall g ops, cfg_wrap g = false ->
  let c := fst (run (cstep g) cinit ops) in
  NoDup (map (fun p => i_name (snd p)) (staging c ++ services c)) /\
  NoDup (map fst (staging c ++ services c)).
Proof.
  intros g ops Hw c.
  destruct (refinement_gen g ops cinit ainit Hw Rel_init AInv_init) as [_ HR]. fold c in HR.
  destruct (reach ops) as [HA _]. split; [|exact (rel_keys_nodup _ _ HR)].
  pose proof (rel_abs _ _ HR HA) as HP.
  apply (Permutation_map a_name), Permutation_NoDup in HP; [|apply (ai_names _ HA)].
  unfold abs_entries in HP. rewrite map_app, !map_map in HP. rewrite map_app. exact HP.
Qed.

Theorem dir_linearizable : forall g, clean g ->
  forall h, dir_history g h -> linearizable astep_r ainit h.
Proof.
  intros g [Hu Hw] h [tr [Hst [-> Hrun]]]. rewrite Hu in Hrun. destruct Hrun as [st' Hrun].
  apply (lin_refine _ _ _ _ (cstep_r g) astep_r (fun c a => Rel c a /\ AInv a) cinit ainit).
  - split; [apply Rel_init | apply AInv_init].
  - intros c a o [HR HA]. unfold cstep_r, astep_r.
    destruct (refine_step g c a o Hw HR HA) as [HR' [Hr _]].
    split; [split; [exact HR' | apply astep_inv, HA] | exact Hr].
  - eapply atomic_lin; eauto.
Qed.

Definition ex_info (n : string) : info :=
  {| i_name := n; i_id := 0; i_machine := "m"%string; i_pid := 1; i_endpoints := ["e"%string]; i_session := ""%string; i_uid := ""%string |}.

(* unsynchronised: two overlapping registrations of one name both pass the name check
   before either inserts *)
Definition unsync_witness : list (N * alabel dop dres) :=
  [(1, LInv 1 (ORegister (ex_info "a"%string))); (2, LInv 2 (ORegister (ex_info "a"%string)));
   (3, LLin 1); (4, LLin 2); (5, LLin 1); (6, LLin 2);
   (7, LRet 1 (RId 1)); (8, LRet 2 (RId 2))].

(* urun does not look at cfg_unsync: the switch only decides, in dir_history, which system runs *)
Lemma unsync_witness_runs : forall g, exists st', urun g (cinit, []) unsync_witness = Some st'.
Proof. intros [u [|]]; vm_compute; eexists; reflexivity. Qed.

Lemma unsync_witness_not_lin : lin_check astep_r dres_eqb ainit (ops_of (erase unsync_witness)) = false.
Proof. vm_compute. reflexivity. Qed.

Theorem unsync_refuted : forall g, cfg_unsync g = true ->
  exists h, dir_history g h /\ ~ linearizable astep_r ainit h.
Proof.
  intros g Hu. exists (ops_of (erase unsync_witness)). split.
  - exists unsync_witness. split; [|split; [reflexivity|]].
    + simpl. repeat split; reflexivity.
    + rewrite Hu. apply unsync_witness_runs.
  - intros HL. apply (lin_check_complete _ _ _ astep_r dres_eqb) in HL.
    + rewrite unsync_witness_not_lin in HL. discriminate.
    + intros r. apply dres_eqb_spec. reflexivity.
Qed.

Definition empty_at (k : N) : cstate := {| staging := []; services := []; lastID := k |}.
Definition reg_a : dop := ORegister (ex_info "a"%string).

Lemma cycle_step : forall g k, k + 1 < W32 ->
  run (cstep g) (empty_at k) [reg_a; OUnregister (k + 1)] =
  (empty_at (k + 1), [(reg_a, RId (k + 1), []); (OUnregister (k + 1), ROk, [])]).
Proof.
  intros g k Hk. cbn. unfold c_register, reg_check, reg_commit. cbn.
  rewrite (proj2 (N.leb_gt _ _) Hk), andb_false_r, (N.mod_small _ _ Hk). cbn.
  unfold c_unregister. cbn. rewrite N.eqb_refl. reflexivity.
Qed.

Fixpoint cycle (n : nat) (k : N) : list dop :=
  match n with
  | O => []
  | S n' => [reg_a; OUnregister (k + 1)] ++ cycle n' (k + 1)
  end.

Lemma cycle_run : forall g n k, k + N.of_nat n < W32 ->
  fst (run (cstep g) (empty_at k) (cycle n k)) = empty_at (k + N.of_nat n).
Proof.
  intros g n; induction n as [|n IH]; intros k Hk.
  - simpl. rewrite N.add_0_r. reflexivity.
  - cbn [cycle]. rewrite run_app, cycle_step by lia. cbn [fst]. rewrite IH by lia. f_equal. lia.
Qed.

(* the first identifier is 1, the one after 2^32-1 is 0 *)
Lemma wrap_run : forall g n, cfg_wrap g = true -> 1 + N.of_nat n = W32 - 1 ->
  ~ StronglySorted N.lt (tr_ids (snd (run (cstep g) (empty_at 0) (cycle (S n) 0 ++ [reg_a])))).
Proof.
  intros g n Hw Hn. cbn [cycle]. rewrite <- app_assoc, !run_app, (cycle_step g 0) by reflexivity.
  cbn [fst snd]. change (0 + 1) with 1. rewrite (cycle_run g n 1), Hn by (rewrite Hn; reflexivity).
  replace (snd (run (cstep g) (empty_at (W32 - 1)) [reg_a])) with [(reg_a, RId 0, @nil devent)]
    by (cbn [run cstep reg_a]; unfold c_register, reg_commit; rewrite Hw; reflexivity).
  rewrite !tr_ids_app. cbn [tr_ids flat_map fst snd app]. intros Hs.
  apply StronglySorted_inv, proj2, Forall_app, proj2 in Hs. inversion Hs; lia.
Qed.

Lemma hist_ids_cons : forall (x : orec dop dres) l,
  hist_ids (x :: l) = match o_ret x with Some (_, r) => reg_id (o_op x) r | None => [] end ++ hist_ids l.
Proof. intros [t o i [[u r]|]] l; destruct o; reflexivity. Qed.

Lemma hist_ids_app : forall a b : list (orec dop dres), hist_ids (a ++ b) = hist_ids a ++ hist_ids b.
Proof. intros. unfold hist_ids. apply flat_map_app. Qed.

Lemma hist_ids_pending : forall rest : list (orec dop dres),
  Forall (fun x => o_ret x = None) rest -> hist_ids rest = [].
Proof.
  induction 1 as [|x l Hx _ IH]; [reflexivity|]. rewrite hist_ids_cons, Hx, IH. reflexivity.
Qed.

(* Along a legal sequential order of the calls (pending ones included, whatever they would
   return) the ids of the completed registrations increase strictly; hence the ids of a
   linearizable history are pairwise distinct: no identifier is handed to two callers. *)
Lemma legal_ids_increasing : forall lin a, legal astep_r a lin ->
  StronglySorted N.lt (a_next a :: hist_ids lin).
Proof.
  induction lin as [|x l IH]; intros a Hl.
  - repeat constructor.
  - destruct Hl as [Hres Hl]. apply IH, (astep_ids a (o_op x)) in Hl. rewrite hist_ids_cons.
    destruct (o_ret x) as [[u r]|]; [rewrite <- Hres|]; apply Hl.
Qed.

Theorem lin_ids_increasing : forall h, linearizable astep_r ainit h ->
  exists lin rest, Permutation h (lin ++ rest) /\ Forall (fun x => o_ret x = None) rest /\ rt_ok lin /\
    StronglySorted N.lt (hist_ids lin) /\ Permutation (hist_ids h) (hist_ids lin).
Proof.
  intros h [lin [rest [HP [Hpend [Hleg Hrt]]]]]. exists lin, rest.
  repeat split; try assumption.
  - apply (StronglySorted_inv (legal_ids_increasing lin ainit Hleg)).
  - unfold hist_ids at 1. rewrite (Permutation_flat_map _ HP). fold (hist_ids (lin ++ rest)).
    rewrite hist_ids_app, (hist_ids_pending rest Hpend), app_nil_r. reflexivity.
Qed.

Theorem lin_ids_distinct : forall h, linearizable astep_r ainit h -> NoDup (hist_ids h).
Proof.
  intros h Hl. destruct (lin_ids_increasing h Hl) as [lin [rest [_ [_ [_ [Hs HP]]]]]].
  eapply Permutation_NoDup; [symmetry; exact HP | apply sorted_lt_nodup; exact Hs].
Qed.
