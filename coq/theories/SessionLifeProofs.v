(* SessionLifeProofs.v — the theorems of SessionProofs.v carried over to the lives of
   SessionLife.v: requests arrive in bursts, pooled connections are lost in between.

   The invariant Inv of SessionProofs.v says of a request that has returned client c that c is
   pooled — which stops being true, on purpose, when the connection of c is lost.  The proofs
   therefore run on a RETIRED copy of the state: the requests that returned a client whose
   connection has since been lost (the set D, a proof device: it is not part of the machine) are
   shown to Inv as failed.  Steps of the machine never look at a request that has returned, so the
   machine steps in the same way on both copies (step_retire); a loss adds the lost connection to
   D (lose_safe; inv_lose is Inv for the copy with one more connection retired); new requests are
   added to both (retire_spawn, with inv_new_threads of SessionProofs.v). *)
From Coq Require Import List Arith Bool.
From QV Require Import ListFacts Session SessionProofs SessionLife.
Import ListNotations.

Definition set_res (t : thread) (r : tresult) : thread :=
  {| t_eps := t_eps t; t_k := t_k t; t_sel := t_sel t; t_c := t_c t; t_res := r |}.

Definition retire_t (D : list nat) (t : thread) : thread :=
  match t_res t with
  | Returned c => if mem c D then set_res t Failed else t
  | _ => t
  end.

Definition retire (D : list nat) (s : st) : st :=
  {| st_sh := st_sh s; st_thr := map (retire_t D) (st_thr s) |}.

Definition dead_ok (D : list nat) (s : st) : Prop :=
  forall x, In x D -> ~ In x (s_open (st_sh s)) /\ exists t, nth_error (st_thr s) x = Some t /\ t_res t <> Running.

Definition LInv (s : st) : Prop := exists D, Inv (retire D s) /\ dead_ok D s.

Lemma retire_t_sel D t : t_sel (retire_t D t) = t_sel t.
Proof. unfold retire_t. destruct (t_res t); try reflexivity. destruct (mem c D); reflexivity. Qed.
Lemma retire_t_eps D t : t_eps (retire_t D t) = t_eps t.
Proof. unfold retire_t. destruct (t_res t); try reflexivity. destruct (mem c D); reflexivity. Qed.

Lemma retire_t_done D t : t_res t <> Running -> t_res (retire_t D t) <> Running.
Proof. unfold retire_t. destruct (t_res t) eqn:E; try congruence. destruct (mem c D); cbn; congruence. Qed.

Lemma tstep_retire D sh i t ch : tstep sh i (retire_t D t) ch = tstep sh i t ch.
Proof.
  unfold retire_t. destruct (t_res t) as [| |c|] eqn:Er; try reflexivity. destruct (mem c D); [|reflexivity].
  unfold tstep. cbn [set_res t_res]. now rewrite Er.
Qed.

Lemma nth_error_retire D s i :
  nth_error (st_thr (retire D s)) i = option_map (retire_t D) (nth_error (st_thr s) i).
Proof. apply nth_error_map. Qed.

Lemma all_done_retire D s : all_done (retire D s) = all_done s.
Proof.
  unfold all_done, retire. cbn [st_thr]. induction (st_thr s) as [|t l IH]; [reflexivity|].
  cbn [map forallb]. rewrite IH. f_equal. unfold retire_t.
  destruct (t_res t) eqn:E; try (rewrite E; reflexivity). destruct (mem c D); cbn; [reflexivity | now rewrite E].
Qed.

Lemma upd_map {A} (f : A -> A) i x l : f x = x -> upd i x (map f l) = map f (upd i x l).
Proof. intro H. revert i. induction l as [|y l IH]; intros [|i]; cbn; try reflexivity; [now rewrite H | now rewrite IH]. Qed.

Lemma retire_cons x D t : retire_t (x :: D) t = retire_t [x] (retire_t D t).
Proof.
  unfold retire_t. destruct (t_res t) eqn:E; try (rewrite E; reflexivity).
  rewrite mem_cons. destruct (mem c D) eqn:Ed.
  - rewrite orb_true_r. reflexivity.
  - rewrite orb_false_r, E. cbn [mem existsb]. now rewrite orb_false_r.
Qed.

(* a step of the machine, seen on the retired copy: the copy takes the same step (the machine never looks at a
   request that has returned), so its invariant is kept; and the request that stepped is not one of the retired
   ones, since a client it returns is open *)
Lemma step_retire D s l :
  Inv (retire D s) -> dead_ok D s ->
  match step s l with
  | Run s' => Inv (retire D s') /\ dead_ok D s' /\
              forall t', nth_error (st_thr s') (fst l) = Some t' -> retire_t D t' = t'
  | Fatal => False
  | Stuck => step (retire D s) l = Stuck
  end.
Proof.
  intros I Hd. destruct l as [i ch]. unfold step. rewrite nth_error_retire.
  destruct (nth_error (st_thr s) i) as [t|] eqn:Ht; [|reflexivity]. cbn [option_map retire st_sh]. rewrite tstep_retire.
  assert (HtR : nth_error (st_thr (retire D s)) i = Some (retire_t D t)) by now rewrite nth_error_retire, Ht.
  pose proof (tstep_safe (retire D s) i _ ch I HtR) as H. cbn [retire st_sh] in H. rewrite tstep_retire in H.
  destruct (tstep (st_sh s) i t ch) as [| |sh' t'] eqn:Et; [reflexivity | exact H |]. destruct H as (I' & _ & Fo & _).
  pose proof (tstep_running _ _ _ _ _ _ Et) as Er.
  (* a lost connection is not i's (the request that dialed it has returned) and stays closed: the step opens at most i *)
  assert (Hopen : forall x, In x D -> ~ In x (s_open sh') /\ x <> i).
  { intros x Hx. destruct (Hd x Hx) as (Hno & u & Hu & Hur).
    assert (Hxi : x <> i) by congruence. split; [|exact Hxi]. intro Ho. apply Hno, (Fo x); [congruence | exact Ho]. }
  assert (Hnot : retire_t D t' = t').
  { unfold retire_t. destruct (t_res t') as [| |c|] eqn:Er'; try reflexivity.
    destruct (mem c D) eqn:Ed; [exfalso|reflexivity]. apply mem_true_iff in Ed.
    destruct (inv_returned _ i t' c I' (nth_error_lset_eq _ _ _ _ HtR) Er') as (_ & _ & _ & Hm).
    apply mem_true_iff in Hm. exact (proj1 (Hopen c Ed) Hm). }
  split; [|split].
  - unfold retire. cbn [st_sh st_thr]. now rewrite <- upd_map.
  - intros x Hx. destruct (Hopen x Hx) as [Hno Hxi]. split; [exact Hno|]. destruct (Hd x Hx) as (_ & u & Hu & Hur).
    exists u. split; [|exact Hur]. cbn [st_thr]. now rewrite nth_error_lset_neq by congruence.
  - cbn [fst st_thr]. intros t0 H0. rewrite (nth_error_lset_eq _ _ _ _ Ht) in H0. now injection H0 as <-.
Qed.

Lemma retire_spawn D c epss s : retire D (spawn c epss s) = spawn c epss (retire D s).
Proof.
  unfold retire, spawn. cbn [st_sh st_thr]. f_equal. rewrite map_app. f_equal.
  rewrite map_map. apply map_ext. intro eps. reflexivity.
Qed.

Lemma dead_ok_spawn D c epss s : dead_ok D s -> dead_ok D (spawn c epss s).
Proof.
  intros Hd x Hx. destruct (Hd x Hx) as (Hno & t & Ht & Hr). split; [exact Hno|].
  exists t. split; [|exact Hr]. now apply nth_error_app_old.
Qed.

Lemma lookup_remove_key a b p : lookup b (remove_key a p) = if a =? b then None else lookup b p.
Proof. rewrite !lookup_aget. exact (aget_adel Nat.eqb_spec a b p). Qed.

Lemma In_remove_key a b x p : In (b, x) (remove_key a p) <-> In (b, x) p /\ b <> a.
Proof. exact (adel_in Nat.eqb_spec a p (b, x)). Qed.

Lemma NoDup_keys_remove_key a p : NoDup (map fst p) -> NoDup (map fst (remove_key a p)).
Proof. exact (adel_nodup a p). Qed.

Definition lost_sh (a x : nat) (sh : shared) : shared :=
  {| s_rh := []; s_wh := None; s_pool := remove_key a (s_pool sh); s_open := remove_one x (s_open sh) |}.

(* the closer waits for the lock (Stuck) or runs to its end: it releases the lock it took *)
Lemma lose_spec a s :
  safe (fun s' => all_done s = true /\ exists x, lookup a (s_pool (st_sh s)) = Some x /\
                                              s' = {| st_sh := lost_sh a x (st_sh s); st_thr := st_thr s |}) (lose a s).
Proof.
  unfold lose. destruct (all_done s); [|exact Logic.I]. destruct (lookup a (s_pool (st_sh s))) as [x|]; [|exact Logic.I].
  unfold closer_prog, crun, cstep. cbn [with_open s_wh s_rh].
  destruct (s_wh (st_sh s)); [exact Logic.I|]. destruct (s_rh (st_sh s)) eqn:Er; [|exact Logic.I].
  cbn [with_wh with_pool s_wh safe]. repeat split. exists x. split; [reflexivity|].
  unfold lost_sh, with_wh, with_pool, with_open. cbn. now rewrite Er.
Qed.

Lemma inv_lose a x s :
  Inv s -> all_done s = true ->
  lookup a (s_pool (st_sh s)) = Some x ->
  Inv {| st_sh := lost_sh a x (st_sh s); st_thr := map (retire_t [x]) (st_thr s) |}.
Proof.
  intros I Hdone Hl. pose proof (lookup_In _ _ _ Hl) as Hax.
  destruct (Inv_wf s I) as [_ _ Hk Hpool [Hnd Hopen]].
  (* x is pooled for a only *)
  assert (Hother : forall b, In (b, x) (s_pool (st_sh s)) -> b = a).
  { intros b Hin. destruct (Hpool b x Hin) as (t & Ht & Hs & _). destruct (Hpool a x Hax) as (t2 & Ht2 & Hs2 & _). congruence. }
  apply Inv_intro.
  - apply (wf_mono _ (st_thr s)).
    { intros j u Hj. exists (retire_t [x] u). split; [now apply map_nth_error | now rewrite retire_t_sel]. }
    constructor; cbn [lost_sh s_wh s_rh s_pool s_open];
      [discriminate | split; [constructor | intros r []] | now apply NoDup_keys_remove_key | | split; [now apply NoDup_remove_one|]].
    + intros b y Hin. apply In_remove_key in Hin as [Hin Hb]. destruct (Hpool b y Hin) as (t & Ht & Hs & Hm).
      exists t. split; [exact Ht|]. split; [exact Hs|].
      apply mem_true_iff, In_remove_one_iff; [exact Hnd|]. split; [now apply mem_true_iff|]. intros ->. now apply Hb, Hother.
    + intros y Hy. apply In_remove_one_iff in Hy as [Hy _]; [now apply Hopen | exact Hnd].
  - cbn [st_sh st_thr]. intros i t' Ht'. rewrite nth_error_map in Ht'. destruct (nth_error (st_thr s) i) as [t|] eqn:Ht; [|discriminate Ht'].
    injection Ht' as <-. pose proof (all_done_nth s i t Hdone Ht) as Hnr.
    destruct (done_thread s i t I Ht Hnr) as (_ & Hown & Hp & Hnil).
    split; [rewrite retire_t_sel, retire_t_eps; exact (proj1 (inv_thr s I i t Ht))|].
    (* a connection that stays open is pooled for another address than a *)
    assert (Hown' : owns_of (lost_sh a x (st_sh s)) i = false).
    { unfold owns_of. cbn [lost_sh s_open s_pool]. destruct (mem i (remove_one x (s_open (st_sh s)))) eqn:Em; [|reflexivity].
      apply mem_true_iff, In_remove_one_iff in Em as [Hi Hix]; [|exact Hnd].
      pose proof (inv_open_pooled s i I Hdone Hi) as Hpi. apply pooled_true_iff in Hpi as [b Hb].
      replace (pooled i (remove_key a (s_pool (st_sh s)))) with true; [reflexivity|]. symmetry. apply pooled_true_iff.
      exists b. apply In_remove_key. split; [exact Hb|]. intros ->. apply Hix. pose proof (In_lookup _ _ _ Hk Hb). congruence. }
    unfold retire_t. destruct (t_res t) as [| |c|] eqn:Er; [now destruct Hnr | rewrite Er | | now destruct Hnil].
    + repeat split; auto; discriminate.
    + destruct (mem c [x]) eqn:Ecx; cbn [set_res t_res]; [repeat split; auto; discriminate | rewrite Er].
      repeat split; auto. intros c0 [= <-]. specialize (Hp c eq_refl).
      apply pooled_in_true_iff in Hp as (b & Hb & Hlb). apply pooled_in_true_iff. exists b. split; [exact Hb|].
      cbn [lost_sh s_pool]. rewrite lookup_remove_key. destruct (Nat.eqb_spec a b) as [<-|]; [|exact Hlb].
      rewrite Hl in Hlb. injection Hlb as <-. cbn in Ecx. now rewrite Nat.eqb_refl in Ecx.
Qed.

Lemma linv_init : LInv linit.
Proof.
  exists []. split.
  - (* init c [] is linit for every c (no thread, so no program); init_inv wants a clean c, any one does *)
    exact (init_inv cfg_clean [] eq_refl).
  - intros x [].
Qed.

Lemma lose_safe a s : LInv s -> safe LInv (lose a s).
Proof.
  intros (D & I & Hd). pose proof (lose_spec a s) as H. destruct (lose a s) as [s'| |]; [|exact H|exact Logic.I].
  destruct H as (Hdone & x & Hl & ->). exists (x :: D). split.
  - assert (Hr : retire (x :: D) {| st_sh := lost_sh a x (st_sh s); st_thr := st_thr s |} =
                 {| st_sh := lost_sh a x (st_sh (retire D s)); st_thr := map (retire_t [x]) (st_thr (retire D s)) |}).
    { unfold retire. cbn [st_sh st_thr]. f_equal. rewrite map_map. apply map_ext. intro t. apply retire_cons. }
    rewrite Hr. apply inv_lose; auto. now rewrite all_done_retire.
  - destruct (inv_open _ I) as [Hnd _]. cbn [retire st_sh] in Hnd.
    intros y [<-|Hy]; cbn [st_sh st_thr lost_sh s_open].
    + split; [apply mem_false_iff; now apply mem_remove_one_eq|].
      destruct (inv_pool _ I a x (lookup_In _ _ _ Hl)) as (t & Ht & _). rewrite nth_error_retire in Ht.
      destruct (nth_error (st_thr s) x) as [t0|] eqn:Ht0; [|discriminate Ht]. exists t0. split; [reflexivity|].
      exact (all_done_nth s x t0 Hdone Ht0).
    + destruct (Hd y Hy) as [Hno H]. split; [|exact H]. intro Hin. apply Hno. now apply In_remove_one_iff in Hin as [Hin _].
Qed.

Lemma lstep_safe c s e : clean c -> LInv s -> safe LInv (lstep c s e).
Proof.
  intros Hc L. destruct e as [epss|l|a]; cbn [lstep].
  - destruct L as (D & I & Hd). exists D. split; [rewrite retire_spawn; now apply inv_new_threads | now apply dead_ok_spawn].
  - destruct L as (D & I & Hd). pose proof (step_retire D s l I Hd) as H.
    destruct (step s l) as [s'| |]; [exists D; tauto | exact H | exact Logic.I].
  - now apply lose_safe.
Qed.

Theorem lexec_safe c es : clean c -> forall s, LInv s -> safe LInv (lexec c s es).
Proof.
  intro Hc. induction es as [|e es IH]; intros s L; cbn [lexec]; [exact L|].
  pose proof (lstep_safe c s e Hc L) as H. destruct (lstep c s e); [now apply IH | exact H | exact H].
Qed.

Lemma linv_no_deadlock s : LInv s -> all_done s = false -> exists l s', step s l = Run s'.
Proof.
  intros (D & I & Hd') Hd. rewrite <- (all_done_retire D) in Hd.
  destruct (no_deadlock _ I Hd) as (l & r & E). exists l. pose proof (step_retire D s l I Hd') as K.
  destruct (step s l); [eauto | contradiction | congruence].
Qed.

Section Life.
  Variable c : cfg.
  Hypothesis Hclean : clean c.
  Variable es : list lev.

  Theorem life_no_fatal : lexec c linit es <> Fatal.
  Proof. intro E. pose proof (lexec_safe c es Hclean _ linv_init) as H. now rewrite E in H. Qed.

  Variable s : st.
  Hypothesis Hrun : lexec c linit es = Run s.

  Lemma life_linv : LInv s.
  Proof. pose proof (lexec_safe c es Hclean _ linv_init) as H. now rewrite Hrun in H. Qed.

  Theorem life_one_client_per_address : NoDup (map fst (s_pool (st_sh s))).
  Proof. destruct life_linv as [D [I _]]. exact (inv_keys _ I). Qed.

  (* a client whose connection is still open is the pooled client of one of the addresses of the
     service it was requested for: everybody who asks after a loss shares the new connection,
     and nobody is handed the client of the lost one (next theorem) *)
  Theorem life_live_client_is_pooled i t cl :
    nth_error (st_thr s) i = Some t -> t_res t = Returned cl -> mem cl (s_open (st_sh s)) = true ->
    exists a, In a (t_eps t) /\ lookup a (s_pool (st_sh s)) = Some cl.
  Proof.
    intros Ht Er Hm. destruct life_linv as (D & I & Hd).
    assert (Hnd : mem cl D = false).
    { apply mem_false_iff. intro E. now apply (Hd cl E), mem_true_iff. }
    assert (HtR : nth_error (st_thr (retire D s)) i = Some t).
    { rewrite nth_error_retire, Ht. cbn. unfold retire_t. now rewrite Er, Hnd. }
    destruct (inv_returned _ i t cl I HtR Er) as (a & Hin & Hl & _). eauto.
  Qed.

  (* the moment a request returns, the client it returns is a pooled one and its connection is open *)
  Theorem life_request_returns_live_client i ch s' t' cl :
    step s (i, ch) = Run s' -> nth_error (st_thr s') i = Some t' -> t_res t' = Returned cl ->
    mem cl (s_open (st_sh s')) = true /\ exists a, In a (t_eps t') /\ lookup a (s_pool (st_sh s')) = Some cl.
  Proof.
    intros Es Ht' Er. destruct life_linv as (D & I & Hd).
    pose proof (step_retire D s (i, ch) I Hd) as H. rewrite Es in H. destruct H as (I' & _ & Hsame). specialize (Hsame t' Ht').
    assert (HtR : nth_error (st_thr (retire D s')) i = Some t') by (rewrite nth_error_retire, Ht'; cbn; now rewrite Hsame).
    destruct (inv_returned _ i t' cl I' HtR Er) as (a & Hin & Hl & Hm). eauto.
  Qed.

  (* between the bursts every open connection is a pooled one, hence one per address *)
  Theorem life_open_are_pooled x : all_done s = true -> In x (s_open (st_sh s)) -> pooled x (s_pool (st_sh s)) = true.
  Proof.
    intros Hdone Hx. destruct life_linv as (D & I & _). rewrite <- (all_done_retire D) in Hdone.
    exact (inv_open_pooled _ x I Hdone Hx).
  Qed.

  Theorem life_one_connection_per_address x y t u a :
    all_done s = true -> In x (s_open (st_sh s)) -> In y (s_open (st_sh s)) ->
    nth_error (st_thr s) x = Some t -> nth_error (st_thr s) y = Some u ->
    t_sel t = Some a -> t_sel u = Some a -> x = y.
  Proof.
    intros Hdone Hx Hy Ht Hu St Su. destruct life_linv as (D & I & _).
    apply (inv_pooled_inj _ x y (retire_t D t) (retire_t D u) a I); try (now apply life_open_are_pooled);
      try (now rewrite retire_t_sel); now apply map_nth_error.
  Qed.
End Life.

(* a request alone runs its 12 instructions (the dial answers at address a) *)
Definition solo (i a : nat) : list lev := repeat (LStep (i, Some a)) 12.

(* a request for a service behind endpoint 0; the connection is lost; another request for it:
   the second request dials again and gets the new client 1, the pool holds it and only its
   connection is open *)
Definition wit_life : list lev := [LSpawn [[0]]] ++ solo 0 0 ++ [LLose 0; LSpawn [[0]]] ++ solo 1 0.
