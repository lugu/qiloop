(* AuthStateless.v — C12 for service 0 itself (model: Auth.v, shared with C06).  A fresh client is served only if it
   can first authenticate.  In the model of bus/authenticate.go the mailbox goroutine of service 0 keeps NO state
   between two mails: a mail leaves behind only the authentication flag of ITS OWN connection and the shorter
   mailbox, so the answer to a request never depends on what any client sent before.  Said for EVERY state of the
   model (reachable or not), every authenticator, every connection filter and every service table. *)
From QV Require Import Auth AuthProofs.
Local Open Scope N_scope.

Section Stateless.
Variable skip_other : bytes -> bytes -> option bytes.
Variable filter_pass : N -> bool.
Variable auth : bytes -> bytes -> bool.
Variable exists_obj : N -> N -> option bool.

Notation step := (Auth.step skip_other filter_pass auth exists_obj).
Notation exec := (Auth.exec skip_other filter_pass auth exists_obj).

Lemma mbox_answer_stateless : forall st st' c f q q',
  s_mbox st = (c, f) :: q -> s_mbox st' = (c, f) :: q' ->
  c_closed (get st c) = c_closed (get st' c) ->
  snd (step st LMbox) = snd (step st' LMbox).
Proof.
  intros st st' c f q q' H H' Hc. cbn [Auth.step]. rewrite H, H'.
  unfold send_err, send_reply, send. rewrite <- Hc.
  destruct (negb (f_act f =? AuthenticateActionID)); [reflexivity|].
  destruct (dec_capmap skip_other (f_payload f)) as [m r| |]; try reflexivity.
  destruct (creds m) as [[u t]|]; [|reflexivity].
  destruct (auth u t); reflexivity.
Qed.

Lemma mbox_accepts : forall st c f q m r u t,
  s_mbox st = (c, f) :: q -> f_act f = AuthenticateActionID ->
  dec_capmap skip_other (f_payload f) = DOk m r -> creds m = Some (u, t) -> auth u t = true ->
  c_closed (get st c) = false ->
  snd (step st LMbox) = [OAuthCall u t true; OFrame c T_Reply (f_svc f) (f_obj f) (f_act f) (f_id f) BAuthDone] /\
  c_authed (get (fst (step st LMbox)) c) = true.
Proof.
  intros st c f q m r u t H Ha D C A Hc. cbn [Auth.step]. rewrite H, Ha, D, C, A.
  cbn [negb N.eqb AuthenticateActionID Pos.eqb fst snd].
  unfold send_reply, send. rewrite Hc. cbn [fst snd].
  rewrite get_setc_same, Ha. cbn [c_authed]. auto.
Qed.

Lemma mbox_other_conn : forall st c c' f q,
  s_mbox st = (c', f) :: q -> c' <> c ->
  get (fst (step st LMbox)) c = get st c /\ s_mbox (fst (step st LMbox)) = q.
Proof.
  intros st c c' f q H N. cbn [Auth.step]. rewrite H.
  destruct (negb _); [auto|]. destruct (dec_capmap skip_other (f_payload f)) as [m r| |]; auto.
  destruct (creds m) as [[u t]|]; auto. destruct (auth u t); auto.
  cbn [fst]. rewrite get_setc_other by auto. auto.
Qed.

Fixpoint mboxes (n : nat) : list label := match n with O => [] | S k => LMbox :: mboxes k end.

Lemma drain_others : forall q st c tl,
  s_mbox st = q ++ tl -> (forall e, In e q -> fst e <> c) ->
  get (exec st (mboxes (List.length q))) c = get st c /\ s_mbox (exec st (mboxes (List.length q))) = tl.
Proof.
  induction q as [|[c' f] q IH]; intros st c tl H N.
  - cbn. auto.
  - cbn [List.length mboxes Auth.exec].
    destruct (mbox_other_conn st c c' f (q ++ tl) H) as [G M].
    { apply (N (c', f)). left; reflexivity. }
    destruct (IH (fst (step st LMbox)) c tl M) as [G' M'].
    { intros e I. apply N. right; exact I. }
    rewrite G' , G. auto.
Qed.

(* the bounded schedule of a fresh client: whatever the mailbox of service 0 holds (at most its
   capacity, all of it from OTHER connections), a connection that is open and has nothing queued
   and sends an authenticate request with accepted credentials is answered "done" after
     LArrive; LConn; one LMbox per mail that was already there; LMbox
   — steps of its own two goroutines and of service 0's goroutine only *)
Theorem fresh_client_authenticates : forall st c f m r u t,
  c_closed (get st c) = false -> c_dead (get st c) = false -> c_inq (get st c) = [] ->
  (List.length (s_mbox st) <= queue_cap)%nat -> (forall e, In e (s_mbox st) -> fst e <> c) ->
  type_ok (f_type f) = true -> filter_pass (f_type f) = true ->
  f_svc f = 0 -> f_obj f = 0 -> f_act f = AuthenticateActionID ->
  dec_capmap skip_other (f_payload f) = DOk m r -> creds m = Some (u, t) -> auth u t = true ->
  let st' := exec st (LArrive c f :: LConn c :: mboxes (List.length (s_mbox st))) in
  snd (step st' LMbox) = [OAuthCall u t true; OFrame c T_Reply 0 0 AuthenticateActionID (f_id f) BAuthDone] /\
  c_authed (get (fst (step st' LMbox)) c) = true.
Proof.
  intros st c f m r u t Hc Hd Hq Hl Hn Ht Hf Hs Ho Ha D C A st'.
  subst st'. cbn [Auth.exec].
  set (st1 := fst (step st (LArrive c f))).
  assert (E1 : st1 = setc st c {| c_authed := c_authed (get st c); c_closed := false; c_dead := c_dead (get st c); c_inq := [f] |}).
  { subst st1. cbn [Auth.step]. rewrite Hc, Ht, Hf, Hq. cbn [negb List.length Nat.leb app fst]. reflexivity. }
  set (st2 := fst (step st1 (LConn c))).
  assert (E2 : s_mbox st2 = s_mbox st ++ [(c, f)] /\ c_closed (get st2 c) = false).
  { subst st2. cbn [Auth.step]. rewrite E1, get_setc_same. cbn [c_dead c_inq c_authed]. rewrite Hd.
    rewrite Hs, Ho. cbn [N.eqb negb andb]. rewrite andb_false_r. rewrite mbox_setc.
    apply Nat.leb_le in Hl. rewrite Hl. cbn [fst].
    rewrite mbox_set_mbox, get_set_mbox, get_setc_same. cbn [c_closed]. auto. }
  destruct E2 as [M2 C2].
  destruct (drain_others (s_mbox st) st2 c [(c, f)] M2 Hn) as [G3 M3].
  set (st3 := exec st2 (mboxes (List.length (s_mbox st)))) in *.
  assert (C3 : c_closed (get st3 c) = false) by (rewrite G3; exact C2).
  destruct (mbox_accepts st3 c f [] m r u t M3 Ha D C A C3) as [O Au].
  rewrite O, Au, Hs, Ho, Ha. auto.
Qed.

End Stateless.
