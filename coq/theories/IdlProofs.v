(* IdlProofs.v — the IDL round trip by layers.
   Layer 1: type expressions.  The IDL name of a type (Type.SignatureIDL, SigParse.idl_name) is
   read back by the type parser as ity_of t, and the references resolve through a scope that
   declares the structs to the signature of t — under the hypothesis idl_safe, with fuel above
   the depth of t.
   Layer 2: action lines.  Then: the parser is total. *)
From QV Require Import SigFacts PegProofs SigParseProofs Idl.
Import ListNotations.
Local Open Scope string_scope.

(* the spaces of fmt.Sscanf, the new line and '/' are single characters: a class that rejects them holds none of them *)
Lemma class_plain (p : ascii -> bool) c :
  forallb (fun k => negb (p k)) [" "; "009"; "013"; "011"; "012"; "010"; "/"]%char = true -> p c = true ->
  is_scan_space c = false /\ not_nl c = true /\ Ascii.eqb "/" c = false.
Proof.
  intros H Hc. rewrite forallb_forall in H.
  assert (Hn : forall k, In k [" "; "009"; "013"; "011"; "012"; "010"; "/"]%char -> Ascii.eqb c k = false).
  { intros k Hk. apply (class_neq p); [now apply negb_true_iff, H|assumption]. }
  unfold is_scan_space, not_nl. rewrite (Ascii.eqb_sym "/"), !Hn by (cbn; auto 10). easy.
Qed.
Lemma alpha__alnum c : is_alpha_ c = true -> is_alnum_ c = true.
Proof.
  unfold is_alpha_. destruct (is_alpha c) eqn:E; [intros _; now apply alpha_alnum|].
  intro H. apply Ascii.eqb_eq in H. now subst c.
Qed.

Lemma join_cons2 sep x y r : join sep (x :: y :: r) = x ++ sep ++ join sep (y :: r).
Proof. reflexivity. Qed.

Lemma join_in_len sep x l : In x l -> String.length x <= String.length (join sep l).
Proof.
  induction l as [|y l IH]; [intros []|]. destruct l as [|z l].
  - intros [->|[]]. apply le_n.
  - rewrite join_cons2, !slen_app. intros [->|H]; [|specialize (IH H)]; lia.
Qed.

Lemma fold_max_le {A} (g : A -> nat) l b : (forall x, In x l -> g x <= b) -> fold_right (fun y a => Nat.max (g y) a) 0 l <= b.
Proof.
  induction l as [|x l IH]; intro H; cbn; [lia|].
  pose proof (H x (or_introl eq_refl)). specialize (IH (fun y Hy => H y (or_intror Hy))). lia.
Qed.

Definition is_name_char (c : ascii) : bool := is_alnum_ c || Ascii.eqb c "<".

Lemma follow_char a c r : is_name_char a = true -> follow_idl (String c r) = true -> Ascii.eqb a c = false.
Proof.
  unfold is_name_char, follow_idl. intros Ha Hc. destruct (Ascii.eqb a c) eqn:E; [|reflexivity].
  apply Ascii.eqb_eq in E. subst c. apply andb_prop in Hc as [H1 H2].
  apply orb_prop in Ha as [Ha|Ha]; [now rewrite Ha in H1|now rewrite Ha in H2].
Qed.

Lemma strip_prefix_app_none k : forall n rest, strip_prefix k n = None -> all_chars is_name_char k = true ->
  follow_idl rest = true -> strip_prefix k (n ++ rest) = None.
Proof.
  induction k as [|a k IH]; intros n rest H Hk Hf; [discriminate|].
  cbn in Hk. apply andb_prop in Hk as [Ha Hk]. destruct n as [|b n]; cbn in *.
  - destruct rest as [|c r]; [reflexivity|]. now rewrite (follow_char a c r Ha Hf).
  - destruct (Ascii.eqb a b); [|reflexivity]. now apply IH.
Qed.

Lemma follow_not_alnum rest : follow_idl rest = true ->
  match rest with EmptyString => True | String c _ => is_alnum_ c = false end.
Proof. destruct rest as [|c r]; [trivial|]. cbn. intro H. apply andb_prop in H as [H _]. now destruct (is_alnum_ c). Qed.

Lemma struct_name_head n : is_struct_name n = true -> exists c r, n = String c r /\ is_alpha c = true.
Proof.
  intro H. apply is_struct_name_shape in H as [H|(a & b & -> & H & _)];
    destruct (is_ident_inv _ H) as (c & r & -> & Hc & _); cbn; eauto.
Qed.

Lemma skip_ws_name n rest : is_struct_name n = true -> skip_ws (n ++ rest) = n ++ rest.
Proof. intro H. destruct (struct_name_head n H) as (c & r & -> & Hc). cbn [append]. now apply skip_ws_alpha. Qed.

Lemma atom_fail_name k n rest : is_struct_name n = true -> starts_with k n = false ->
  all_chars is_name_char k = true -> follow_idl rest = true -> fst (@atom ival k (n ++ rest)) = Fail.
Proof.
  intros Hn Hk Hc Hf. unfold atom. rewrite skip_ws_name by assumption.
  unfold starts_with in Hk. destruct (strip_prefix k n) eqn:E; [discriminate|].
  now rewrite (strip_prefix_app_none k n rest E Hc Hf).
Qed.

Lemma pand_atom_fail_name cb k ps n rest : is_struct_name n = true -> starts_with k n = false ->
  all_chars is_name_char k = true -> follow_idl rest = true -> fst (pand cb (@atom ival k :: ps) (n ++ rest)) = Fail.
Proof. intros. rewrite pand_fst, and_loop_cons_fail; [reflexivity|now apply atom_fail_name]. Qed.

Lemma por_atoms_fail cb ks n rest : is_struct_name n = true -> follow_idl rest = true ->
  existsb (fun k => starts_with k n) ks = false -> forallb (all_chars is_name_char) ks = true ->
  fst (por cb (map (@atom ival) ks) (n ++ rest)) = Fail.
Proof.
  intros Hn Hf. induction ks as [|k ks IH]; cbn [map existsb forallb]; intros He Hc; [reflexivity|].
  apply orb_false_elim in He as [Hk He]. apply andb_prop in Hc as [Hck Hc].
  rewrite por_cons_fail by (now apply atom_fail_name). now apply IH.
Qed.

Lemma type_ident_ok n rest : is_struct_name n = true -> follow_idl rest = true ->
  fst (type_ident (n ++ rest)) = Ok (NTerm n) rest.
Proof.
  intros Hn Hf. apply is_struct_name_shape in Hn as [Hn|(a & b & -> & Ha & Hb)].
  - destruct (is_ident_inv n Hn) as (c & r & -> & Hc & Hr). pose proof (follow_not_alnum rest Hf).
    cbn [append]. unfold type_ident, is_alpha_.
    rewrite skip_ws_alpha, Hc, span_app_follow by assumption. cbn [orb].
    destruct rest as [|x rest']; [reflexivity|].
    cbn in Hf. apply andb_prop in Hf as [_ Hlt]. apply negb_true_iff in Hlt. now rewrite match_lt, Hlt.
  - destruct (is_ident_inv a Ha) as (c & r & -> & Hc & Hr).
    destruct (is_ident_inv b Hb) as (c2 & r2 & -> & Hc2 & Hr2).
    rewrite !sapp_assoc. cbn [append]. unfold type_ident, is_alpha_.
    rewrite skip_ws_alpha, Hc, span_app by auto. cbn [orb span].
    rewrite (alpha_alnum c2 Hc2), span_app by auto. reflexivity.
Qed.

Definition inode_of (t : ty) : inode := NVal (VType (ity_of t)).

Lemma types_of_nodes_map ts : types_of_nodes (map inode_of ts) = Some (map ity_of ts).
Proof. induction ts as [|t ts IH]; cbn; [reflexivity|now rewrite IH]. Qed.

Lemma itype_S f : itype (S f) =
  por (Some nodify_first) [ibasic_type; imap_type (itype f); ituple_type (itype f); ivec_type (itype f); iref_type].
Proof. reflexivity. Qed.

Lemma pand_ext cb (p : iparser) ps s1 s2 : p s1 = p s2 -> pand cb (p :: ps) s1 = pand cb (p :: ps) s2.
Proof. intro H. unfold pand. cbn [and_loop]. now rewrite H. Qed.
Lemma por_ext cb (ps : list iparser) s1 s2 : Forall (fun p => p s1 = p s2) ps -> por cb ps s1 = por cb ps s2.
Proof. induction 1 as [|p ps Hp HF IH]; [reflexivity|]. cbn [por]. now rewrite Hp, IH. Qed.

Lemma itype_ws f s : itype f (String " " s) = itype f s.
Proof. destruct f as [|f]; [reflexivity|]. rewrite !itype_S. apply por_ext. repeat constructor. Qed.

(* the separator GenerateIDL writes: "," between named parameters and in Tuple<...>, ", " from ParamIDL *)
Definition is_sep (sep : string) : Prop := sep = "," \/ sep = ", ".

(* The elements are written by [txt], joined by the separator and closed by '>' or ')'.  After "," the
   blank of ", " is left in front of the next element, which skips it. *)
Lemma many_joined {A} cb (p : iparser) (txt : A -> string) (nd : A -> inode) sep x l c rest :
  is_sep sep -> (forall s, p (String " " s) = p s) ->
  Forall (fun y => forall r, follow_idl r = true -> fst (p (txt y ++ r)) = Ok (nd y) r) (x :: l) ->
  (c = ">" \/ c = ")")%char ->
  fst (many_sep cb p (atom ",") (join sep (map txt (x :: l)) ++ String c rest)) =
  Ok (docb cb (map nd (x :: l))) (String c rest).
Proof.
  intros Hsep Hws HF Hc.
  assert (Hpre : exists pre, (pre = "" \/ pre = " ") /\ sep = String "," pre)
    by (destruct Hsep as [-> | ->]; eauto).
  destruct Hpre as (pre & Hpre & ->).
  assert (Hp : forall y, In y (x :: l) -> forall pre0 r, pre0 = "" \/ pre0 = " " -> follow_idl r = true ->
                 fst (p (pre0 ++ txt y ++ r)) = Ok (nd y) r).
  { rewrite Forall_forall in HF. intros y Hy pre0 r [-> | ->] Hr; cbn [append]; rewrite ?Hws; now apply HF. }
  assert (Hfc : forall r, follow_idl (String c r) = true /\ fst (@atom ival "," (String c r)) = Fail)
    by (destruct Hc as [-> | ->]; split; reflexivity).
  enough (H : forall pre0, pre0 = "" \/ pre0 = " " ->
            sep_ok p (atom ",") (pre0 ++ join (String "," pre) (map txt (x :: l)) ++ String c rest) (map nd (x :: l)) (String c rest))
    by exact (many_sep_many cb p (atom ",") _ _ _ _ (H "" (or_introl eq_refl))).
  clear HF. revert x Hp. induction l as [|y l IH]; intros x Hp pre0 Hpre0.
  - cbn [map join]. apply sep_ok_last; [apply Hp; [now left|assumption|]|]; apply Hfc.
  - cbn [map]. rewrite join_cons2, !sapp_assoc. cbn [append].
    set (tl := join _ (txt y :: map txt l) ++ String c rest).
    apply (sep_ok_more p (atom ",") _ (nd x) (String "," (pre ++ tl)) (NTerm ",") (pre ++ tl)).
    + apply Hp; [now left|assumption|reflexivity].
    + reflexivity.
    + rewrite !slen_app. cbn [String.length]. rewrite slen_app. lia.
    + apply (IH y); [|assumption]. intros z Hz. apply Hp. now right.
Qed.

Lemma no_basic_prefix n : safe_name n = true ->
  is_struct_name n = true /\ existsb (fun k => starts_with k n) idl_basic_names = false /\
  starts_with "Map<" n = false /\ starts_with "Tuple<" n = false /\ starts_with "Vec<" n = false.
Proof.
  unfold safe_name. intro H. repeat (apply andb_prop in H as [H ?]).
  repeat match goal with H : negb _ = true |- _ => apply negb_true_iff in H end. auto.
Qed.

(* nesting of the type expression: a struct is a name, whatever its members *)
Fixpoint idl_depth (t : ty) : nat :=
  match t with
  | TS _ => 1
  | TList t => S (idl_depth t)
  | TMap k v => S (Nat.max (idl_depth k) (idl_depth v))
  | TTuple ts => S (fold_right (fun t a => Nat.max (idl_depth t) a) 0 ts)
  | TStruct _ _ => 1
  end.

Lemma itype_name t : idl_safe t = true -> forall f rest, idl_depth t < f -> follow_idl rest = true ->
  fst (itype f (idl_name t ++ rest)) = Ok (inode_of t) rest.
Proof.
  induction t as [s|t IHt|k v IHk IHv|ts IH|n fs IH] using ty_ind2; intros Hs f rest Hf Hfo;
    (destruct f as [|f]; [lia|]); rewrite itype_S; cbn [idl_safe idl_depth idl_name] in Hs, Hf |- *;
    rewrite ?sapp_assoc.
  - destruct s; try discriminate; reflexivity.
  - do 3 rewrite por_cons_fail by reflexivity.
    apply (por_cons_ok (Some nodify_first) _ _ _ (inode_of (TList t)) rest).
    unfold ivec_type. rewrite pand_fst.
    erewrite and_loop_cons_ok by reflexivity.
    erewrite and_loop_cons_ok by (apply IHt; [assumption|lia|reflexivity]).
    erewrite and_loop_cons_ok by reflexivity.
    reflexivity.
  - apply andb_prop in Hs as [Hk Hv].
    rewrite por_cons_fail by reflexivity.
    apply (por_cons_ok (Some nodify_first) _ _ _ (inode_of (TMap k v)) rest).
    unfold imap_type. rewrite pand_fst.
    erewrite and_loop_cons_ok by reflexivity.
    erewrite and_loop_cons_ok by (apply IHk; [assumption|lia|reflexivity]).
    erewrite and_loop_cons_ok by reflexivity.
    erewrite and_loop_cons_ok by (apply IHv; [assumption|lia|reflexivity]).
    erewrite and_loop_cons_ok by reflexivity.
    reflexivity.
  - destruct ts as [|t0 ts]; [discriminate|].
    do 2 rewrite por_cons_fail by reflexivity.
    apply (por_cons_ok (Some nodify_first) _ _ _ (inode_of (TTuple (t0 :: ts))) rest).
    unfold ituple_type. rewrite pand_fst.
    erewrite and_loop_cons_ok by reflexivity.
    assert (HF : Forall (fun t => forall r, follow_idl r = true -> fst (itype f (idl_name t ++ r)) = Ok (inode_of t) r) (t0 :: ts)).
    { rewrite Forall_forall in IH |- *. rewrite forallb_forall in Hs. intros t Hin r Hr.
      pose proof (fold_max_in idl_depth t _ Hin). apply IH; auto; lia. }
    erewrite and_loop_cons_ok by (apply (many_joined _ _ idl_name inode_of "," t0 ts ">" rest);
                   [now left|apply itype_ws|exact HF|now left]).
    erewrite and_loop_cons_ok by reflexivity.
    cbn [lift and_loop fst docb inodify_tuple]. unfold inodify_list. rewrite types_of_nodes_map.
    cbn [lift inodify_tuple docb]. rewrite tuple_fields_snd. reflexivity.
  - apply andb_prop in Hs as [Hn _].
    destruct (no_basic_prefix n Hn) as (Hsn & Hb & Hm & Ht & Hv).
    rewrite por_cons_fail by (unfold ibasic_type; apply por_atoms_fail; [assumption|assumption|assumption|vm_compute; reflexivity]).
    do 3 rewrite por_cons_fail by (apply pand_atom_fail_name; auto).
    apply (por_cons_ok (Some nodify_first) _ _ _ (inode_of (TStruct n fs)) rest).
    unfold iref_type. rewrite pand_fst.
    erewrite and_loop_cons_ok by now apply type_ident_ok.
    reflexivity.
Qed.

(* the two local loops of [isig] under names of their own *)
Definition sig_tuple (f : nat) (sc : scope) : list ity -> option string :=
  fix tuple (l : list ity) : option string :=
    match l with
    | [] => Some ""
    | m :: r => match isig f sc m, tuple r with Some a, Some b => Some (a ++ b) | _, _ => None end
    end.
Definition sig_members (f : nat) (sc : scope) : list (string * ity) -> option string :=
  fix members (l : list (string * ity)) : option string :=
    match l with
    | [] => Some ""
    | (_, m) :: r => match isig f sc m, members r with Some a, Some b => Some (a ++ b) | _, _ => None end
    end.

Lemma isig_S f sc t : isig (S f) sc t =
  match t with
  | IBasic s => Some (scalar_letter s)
  | IList e => match isig f sc e with Some a => Some ("[" ++ a ++ "]") | None => None end
  | IMap k v => match isig f sc k, isig f sc v with Some a, Some b => Some ("{" ++ a ++ b ++ "}") | _, _ => None end
  | ITuple ts => match sig_tuple f sc ts with Some a => Some ("(" ++ a ++ ")") | None => None end
  | IRef n =>
      match lookup n sc with
      | Some (ScStruct name ms) =>
          match ms with
          | [] => Some ("()<" ++ name ++ ">")
          | _ => match sig_members f sc ms with
                 | Some a => Some ("(" ++ a ++ ")<" ++ name ++ "," ++ join "," (map fst ms) ++ ">")
                 | None => None
                 end
          end
      | Some ScItf => Some "o"
      | None => Some ("()<not found in scope: " ++ n ++ ">")
      end
  end.
Proof. reflexivity. Qed.

Lemma sig_members_snd f sc l : sig_members f sc l = sig_tuple f sc (map snd l).
Proof. induction l as [|[a m] l IH]; cbn; [reflexivity|now rewrite IH]. Qed.

Lemma sig_tuple_of f sc ts : Forall (fun t => isig f sc (ity_of t) = Some (print t)) ts ->
  sig_tuple f sc (map ity_of ts) = Some (String.concat "" (map print ts)).
Proof. induction 1 as [|t ts Ht HF IH]; [reflexivity|]. cbn [map sig_tuple]. now rewrite Ht, IH, sconcat_cons. Qed.

Lemma scope_has_tuple sc ts : scope_has sc (TTuple ts) -> Forall (scope_has sc) ts.
Proof. induction ts as [|t ts IH]; cbn; [constructor|]. intros [H1 H2]. constructor; [assumption|now apply IH]. Qed.
Lemma scope_has_struct sc n fs : scope_has sc (TStruct n fs) ->
  lookup n sc = Some (ScStruct n (map (fun f => (fst f, ity_of (snd f))) fs)) /\ Forall (scope_has sc) (map snd fs).
Proof.
  cbn. intros [H1 H2]. split; [assumption|]. clear H1.
  induction fs as [|x fs IH]; [constructor|]. destruct H2 as [Hx H2]. constructor; [assumption|now apply IH].
Qed.

Lemma ity_of_tuple ts : idl_safe (TTuple ts) = true -> ity_of (TTuple ts) = ITuple (map ity_of ts) /\ forallb idl_safe ts = true.
Proof. destruct ts; [discriminate|]. now split. Qed.

Lemma isig_of sc t : idl_safe t = true -> scope_has sc t -> forall f, ty_depth t < f ->
  isig f sc (ity_of t) = Some (print t).
Proof.
  induction t as [s|t IHt|k v IHk IHv|ts IH|n fs IH] using ty_ind2; intros Hs Hsc f Hf;
    (destruct f as [|f]; [lia|]).
  - destruct s; try discriminate; reflexivity.
  - cbn [ity_of idl_safe ty_depth scope_has] in *. rewrite isig_S, IHt by (assumption || lia). reflexivity.
  - cbn [ity_of idl_safe ty_depth scope_has] in *.
    apply andb_prop in Hs as [Hk Hv]. destruct Hsc as [Hsk Hsv].
    rewrite isig_S, IHk, IHv by (assumption || lia). reflexivity.
  - destruct (ity_of_tuple ts Hs) as [-> Hs']. apply scope_has_tuple in Hsc. cbn [ty_depth] in Hf.
    rewrite isig_S, sig_tuple_of; [reflexivity|].
    rewrite Forall_forall in *. rewrite forallb_forall in Hs'. intros t Ht.
    pose proof (fold_max_in ty_depth t ts Ht). apply IH; auto; lia.
  - cbn [idl_safe ty_depth] in Hs, Hf. apply andb_prop in Hs as [Hn Hfs].
    apply scope_has_struct in Hsc as [Hl Hsc].
    cbn [ity_of]. rewrite isig_S, Hl, sig_members_snd, !map_map. cbn [fst snd].
    rewrite <- (map_map snd ity_of), sig_tuple_of.
    + destruct fs; [reflexivity|]. now rewrite !map_map.
    + rewrite Forall_forall in *. rewrite forallb_forall in Hfs. intros t Ht.
      apply in_map_iff in Ht as (p & <- & Hp). specialize (Hfs p Hp). apply andb_prop in Hfs as [_ Hfs].
      pose proof (fold_max_in (fun p => ty_depth (snd p)) p fs Hp). cbn beta in *.
      apply IH; [assumption|assumption|apply Hsc; now apply in_map|lia].
Qed.

Lemma idl_depth_le_len t : idl_safe t = true -> idl_depth t <= String.length (idl_name t).
Proof.
  induction t as [s|t IHt|k v IHk IHv|ts IH|n fs IH] using ty_ind2; intro Hs;
    cbn [idl_safe idl_depth idl_name] in *; cbn [append String.length]; rewrite ?slen_app.
  - destruct s; apply le_n_S, Nat.le_0_l.
  - specialize (IHt Hs). lia.
  - apply andb_prop in Hs as [Hk Hv]. specialize (IHk Hk). specialize (IHv Hv). cbn [append String.length]. rewrite slen_app. lia.
  - enough (fold_right (fun t a => Nat.max (idl_depth t) a) 0 ts <= String.length (join "," (map idl_name ts))) by lia.
    apply fold_max_le. intros t Ht. rewrite Forall_forall in IH.
    etransitivity; [apply IH; [assumption|]|apply join_in_len; now apply in_map].
    destruct ts; [discriminate|]. rewrite forallb_forall in Hs. now apply Hs.
  - apply andb_prop in Hs as [Hn _]. apply no_basic_prefix in Hn as (Hn & _).
    destruct (struct_name_head n Hn) as (c & r & -> & _). apply le_n_S, Nat.le_0_l.
Qed.

Theorem idl_type_roundtrip : forall t sc g, idl_safe t = true -> scope_has sc t -> ty_depth t < g ->
  exists i, fst (itype (S (String.length (idl_name t))) (idl_name t)) = Ok (NVal (VType i)) "" /\
            isig g sc i = Some (print t).
Proof.
  intros t sc g Hs Hsc Hg. exists (ity_of t). split; [|now apply isig_of].
  pose proof (itype_name t Hs (S (String.length (idl_name t))) "") as H. rewrite sapp_nil_r in H.
  apply H; [|reflexivity]. pose proof (idl_depth_le_len t Hs). lia.
Qed.

Local Open Scope N_scope.

Lemma N_digits_acc f : forall n acc, N_digits f n acc = (N_digits f n "" ++ acc)%string.
Proof.
  induction f as [|f IH]; intros n acc; [reflexivity|]. cbn [N_digits].
  destruct (n <? 10); [reflexivity|].
  rewrite (IH (n / 10) (String _ acc)), (IH (n / 10) (String _ "")). now rewrite sapp_assoc.
Qed.

Lemma dec_value_app a b acc : dec_value (a ++ b) acc = dec_value b (dec_value a acc).
Proof. revert acc; induction a as [|c a IH]; intro acc; cbn; [reflexivity|apply IH]. Qed.

Lemma all_chars_app p a b : all_chars p (a ++ b) = all_chars p a && all_chars p b.
Proof. induction a as [|c a IH]; cbn; [reflexivity|]. now rewrite IH, andb_assoc. Qed.

Lemma digit_char d : d < 10 -> N_of_ascii (ascii_of_N (48 + d)) = 48 + d /\ is_digit (ascii_of_N (48 + d)) = true.
Proof.
  intro H. assert (E : N_of_ascii (ascii_of_N (48 + d)) = 48 + d) by (apply N_ascii_embedding; lia).
  split; [exact E|]. unfold is_digit. rewrite E. apply andb_true_intro. split; apply N.leb_le; lia.
Qed.

Lemma N_digits_spec f : forall n, n < 2 ^ N.of_nat f -> (0 < f)%nat ->
  dec_value (N_digits f n "") 0 = n /\ all_chars is_digit (N_digits f n "") = true /\ N_digits f n "" <> ""%string.
Proof.
  induction f as [|f IH]; intros n Hn Hf; [lia|]. cbn [N_digits].
  assert (Hd : n mod 10 < 10) by (apply N.mod_lt; lia).
  destruct (digit_char (n mod 10) Hd) as [Hc1 Hc2].
  destruct (n <? 10) eqn:E.
  - apply N.ltb_lt in E.
    repeat split; [|cbn [all_chars]; now rewrite Hc2|discriminate].
    cbn [dec_value]. rewrite Hc1. rewrite N.mod_small by lia. lia.
  - apply N.ltb_ge in E. rewrite N_digits_acc.
    assert (Hq : n / 10 < 2 ^ N.of_nat f).
    { replace (N.of_nat (S f)) with (1 + N.of_nat f) in Hn by lia. rewrite N.pow_add_r in Hn. change (2 ^ 1) with 2 in Hn.
      apply N.div_lt_upper_bound; lia. }
    assert (Hf' : (0 < f)%nat).
    { destruct f; [|lia]. cbn in Hq. assert (n / 10 = 0) by lia. apply N.div_small_iff in H; lia. }
    destruct (IH (n / 10) Hq Hf') as (H1 & H2 & H3).
    repeat split.
    + rewrite dec_value_app, H1. cbn [dec_value]. rewrite Hc1. pose proof (N.div_mod n 10 ltac:(lia)) as Hdm.
      clear -Hdm. set (q := n / 10) in *. set (r := n mod 10) in *. clearbody q r. lia.
    + rewrite all_chars_app, H2. cbn [all_chars]. now rewrite Hc2.
    + destruct (N_digits f (n / 10) ""); discriminate.
Qed.

Lemma N_to_string_spec n :
  dec_value (N_to_string n) 0 = n /\ all_chars is_digit (N_to_string n) = true /\ N_to_string n <> ""%string.
Proof.
  unfold N_to_string. apply N_digits_spec; [|lia].
  pose proof (N.size_gt n) as H. eapply N.lt_le_trans; [exact H|].
  apply N.pow_le_mono_r; lia.
Qed.

Lemma all_chars_same : @all_chars_p = @all_chars.
Proof. reflexivity. Qed.

(* fmt.Sscanf(comment, "uid:%d") on what GenerateIDL writes *)
Lemma scan_uid_print n : n < 2 ^ 32 -> scan_uid ("uid:" ++ N_to_string n) = Some n.
Proof.
  intro Hn. destruct (N_to_string_spec n) as (Hv & Hd & Hne).
  unfold scan_uid. change (strip_prefix "uid:" ("uid:" ++ N_to_string n)) with (Some (N_to_string n)).
  destruct (N_to_string n) as [|c r] eqn:E; [congruence|].
  cbn in Hd. apply andb_prop in Hd as [Hc Hr].
  destruct (class_plain is_digit c eq_refl Hc) as (Hsp & _).
  cbn [span]. rewrite Hsp. cbn [span]. rewrite Hc, span_app_nil by (now rewrite all_chars_same).
  rewrite Hv. apply N.ltb_lt in Hn. now rewrite Hn.
Qed.

Local Open Scope nat_scope.
Local Open Scope string_scope.

Lemma iident_ok f rest : is_iident f = true ->
  match rest with EmptyString => True | String c _ => is_alnum_ c = false end ->
  fst (iident (f ++ rest)) = Ok (NTerm f) rest.
Proof.
  intros Hf Hr. destruct f as [|c r]; [discriminate|]. cbn in Hf. apply andb_prop in Hf as [Hc Ha].
  apply token1_ok; try assumption. now apply alnum_not_ws, alpha__alnum.
Qed.

Lemma iident_ws s : iident (String " " s) = iident s.
Proof. reflexivity. Qed.

Definition iparams (l : list (string * ty)) : list (string * ity) := map (fun p => (fst p, ity_of (snd p))) l.
Definition pnode (p : string * ty) : inode := NVal (VParam (fst p) (ity_of (snd p))).

Lemma params_of_nodes_map l : params_of_nodes (map pnode l) = Some (iparams l).
Proof. induction l as [|p l IH]; cbn; [reflexivity|now rewrite IH]. Qed.

Definition param_ok (f : nat) (p : string * ty) : Prop :=
  is_iident (fst p) = true /\ idl_safe (snd p) = true /\ idl_depth (snd p) < f.

Lemma iparameter_ok f p rest : param_ok f p -> follow_idl rest = true ->
  fst (iparameter (itype f) (param_str p ++ rest)) = Ok (pnode p) rest.
Proof.
  intros (Hn & Hs & Hd) Hfo. destruct p as [n t]. unfold param_str, iparameter. cbn [fst snd] in *.
  rewrite !sapp_assoc. cbn [append]. rewrite pand_fst.
  erewrite and_loop_cons_ok by now apply iident_ok.
  erewrite and_loop_cons_ok by reflexivity.
  erewrite and_loop_cons_ok by (rewrite itype_ws; apply itype_name; assumption).
  reflexivity.
Qed.

Lemma iparameter_ws f s : iparameter (itype f) (String " " s) = iparameter (itype f) s.
Proof. unfold iparameter. apply pand_ext. reflexivity. Qed.

Lemma iparameters_ok f sep l rest : is_sep sep -> Forall (param_ok f) l ->
  fst (iparameters (itype f) (join sep (map param_str l) ++ String ")" rest)) =
  Ok (NVal (VParams (iparams l))) (String ")" rest).
Proof.
  intros Hsep HF. unfold iparameters. rewrite pand_fst. destruct l as [|p l].
  - erewrite and_loop_cons_ok by (apply maybe_fail; reflexivity). reflexivity.
  - erewrite and_loop_cons_ok by (apply maybe_ok, (many_joined _ _ param_str pnode sep p l ")" rest Hsep (iparameter_ws f));
                   [eapply Forall_impl; [|exact HF]; intros q Hq r; now apply iparameter_ok|now right]).
    cbn [lift and_loop fst docb inodify_and_params]. unfold inodify_params. now rewrite params_of_nodes_map.
Qed.

Lemma digits_not_nl s : all_chars is_digit s = true -> all_chars not_nl s = true.
Proof.
  induction s as [|c s IH]; cbn; [reflexivity|]. intro H. apply andb_prop in H as [Hc Hs].
  destruct (class_plain is_digit c eq_refl Hc) as (_ & -> & _). now apply IH.
Qed.

Lemma rest_of_line_uid uid rest :
  fst (rest_of_line ("uid:" ++ N_to_string uid ++ nl ++ rest)) = Ok (NTerm ("uid:" ++ N_to_string uid)) (nl ++ rest).
Proof.
  destruct (N_to_string_spec uid) as (_ & Hd & _).
  unfold rest_of_line, nl. cbn [skip_ws append]. change (@is_ws "u") with false. cbn iota.
  change (String "u" (String "i" (String "d" (String ":" (N_to_string uid ++ String "010" rest)))))
    with (("uid:" ++ N_to_string uid) ++ String "010" rest).
  rewrite span_app; [reflexivity| |reflexivity].
  rewrite all_chars_same. cbn [append all_chars]. now rewrite (digits_not_nl _ Hd).
Qed.

Lemma icomments_uid uid rest : (uid < 2 ^ 32)%N ->
  fst (icomments (" //uid:" ++ N_to_string uid ++ nl ++ rest)) = Ok (NVal (VUid uid)) (nl ++ rest).
Proof.
  intro Hu. unfold icomments. rewrite pand_fst.
  erewrite and_loop_cons_ok by (apply maybe_ok; rewrite pand_fst;
                 rewrite (and_loop_cons_ok (atom "//") [rest_of_line] _ (NTerm "//") ("uid:" ++ N_to_string uid ++ nl ++ rest)) by reflexivity;
                 rewrite (and_loop_cons_ok rest_of_line [] _ _ _ (rest_of_line_uid uid rest)); reflexivity).
  cbn [lift and_loop fst docb inodify_comment_content]. now rewrite (scan_uid_print uid Hu).
Qed.

Lemma print_v rt : print rt = "v" -> rt = TS SVoid.
Proof.
  destruct rt as [s|t|k v|ts|n fs]; cbn; try discriminate.
  - destruct s; cbn; try discriminate. reflexivity.
  - destruct fs; discriminate.
Qed.

Definition ret_ity (rt : ty) : ity := if String.eqb (print rt) "v" then IBasic SVoid else ity_of rt.
Definition ret_ok (f : nat) (rt : ty) : Prop := rt = TS SVoid \/ (idl_safe rt = true /\ idl_depth rt < f).

Lemma ireturns_ok f rt tail : ret_ok f rt ->
  fst (ireturns (itype f) (" " ++ ret_str rt ++ "//" ++ tail)) = Ok (NVal (VType (ret_ity rt))) (" //" ++ tail).
Proof.
  intros Hr. unfold ireturns, ret_str, ret_ity. rewrite pand_fst.
  destruct (String.eqb (print rt) "v") eqn:E.
  - erewrite and_loop_cons_ok by (apply maybe_fail; reflexivity). reflexivity.
  - destruct Hr as [-> | [Hs Hd]]; [discriminate|].
    rewrite !sapp_assoc. cbn [append].
    erewrite and_loop_cons_ok by (apply maybe_ok; rewrite pand_fst;
                   rewrite (and_loop_cons_ok (atom "->") [itype f] _ (NTerm "->") (" " ++ idl_name rt ++ " //" ++ tail)) by reflexivity;
                   rewrite (and_loop_cons_ok (itype f) [] _ (inode_of rt) (" //" ++ tail))
                     by (cbn [append]; rewrite itype_ws; apply itype_name; [assumption|assumption|reflexivity]);
                   reflexivity).
    reflexivity.
Qed.

(* what the three have in common: the keyword, the name and the parameters in parentheses *)
Lemma action_line f cb kw name sep l (ps : list iparser) tail :
  (forall x, fst (@atom ival kw (tab ++ kw ++ x)) = Ok (NTerm kw) x) ->
  is_iident name = true -> is_sep sep -> Forall (param_ok f) l ->
  fst (pand cb (atom kw :: iident :: atom "(" :: iparameters (itype f) :: atom ")" :: ps)
            (tab ++ kw ++ " " ++ name ++ "(" ++ join sep (map param_str l) ++ ")" ++ tail)) =
  lift (fun ns => docb cb (NTerm kw :: NTerm name :: NTerm "(" :: NVal (VParams (iparams l)) :: NTerm ")" :: ns))
       (fst (and_loop ps tail)).
Proof.
  intros Hkw Hname Hsep Hl. rewrite pand_fst.
  erewrite and_loop_cons_ok by apply Hkw.
  erewrite and_loop_cons_ok by (cbn [append]; rewrite iident_ws; now apply iident_ok).
  erewrite and_loop_cons_ok by reflexivity.
  erewrite and_loop_cons_ok by now apply iparameters_ok.
  erewrite and_loop_cons_ok by reflexivity.
  now destruct (fst (and_loop ps tail)).
Qed.

Theorem method_line_parses : forall f name sep l rt uid rest,
  is_iident name = true -> (uid < 2 ^ 32)%N -> is_sep sep -> Forall (param_ok f) l -> ret_ok f rt ->
  fst (imethod (itype f) (method_line name (join sep (map param_str l)) (ret_str rt) uid ++ rest)) =
  Ok (NVal (VMethod name uid (ret_ity rt) (iparams l))) (nl ++ rest).
Proof.
  intros f name sep l rt uid rest Hname Hu Hsep Hl Hr.
  unfold method_line, imethod. rewrite !sapp_assoc.
  etransitivity;
    [apply (action_line f _ "fn" name sep l _ (" " ++ ret_str rt ++ "//uid:" ++ N_to_string uid ++ nl ++ rest)); auto; reflexivity|].
  erewrite and_loop_cons_ok by now apply (ireturns_ok f rt ("uid:" ++ N_to_string uid ++ nl ++ rest)).
  erewrite and_loop_cons_ok by now apply icomments_uid.
  reflexivity.
Qed.

Lemma sigprop_line_parses f cb kw name sep l uid rest :
  (forall x, fst (@atom ival kw (tab ++ kw ++ x)) = Ok (NTerm kw) x) ->
  is_iident name = true -> (uid < 2 ^ 32)%N -> is_sep sep -> Forall (param_ok f) l ->
  fst (pand cb [atom kw; iident; atom "("; iparameters (itype f); atom ")"; icomments]
            (sigprop_line kw name (join sep (map param_str l)) uid ++ rest)) =
  Ok (docb cb [NTerm kw; NTerm name; NTerm "("; NVal (VParams (iparams l)); NTerm ")"; NVal (VUid uid)]) (nl ++ rest).
Proof.
  intros Hkw Hname Hu Hsep Hl. unfold sigprop_line. rewrite !sapp_assoc.
  etransitivity; [apply (action_line f _ kw name sep l _ (" //uid:" ++ N_to_string uid ++ nl ++ rest)); assumption|].
  erewrite and_loop_cons_ok by now apply icomments_uid.
  reflexivity.
Qed.

Lemma nat_digits_alnum fuel : forall n acc, all_chars is_alnum_ acc = true -> all_chars is_alnum_ (nat_digits fuel n acc) = true.
Proof.
  induction fuel as [|fuel IH]; intros n acc Ha; [exact Ha|]. cbn [nat_digits].
  assert (Hd : is_alnum_ (ascii_of_nat (48 + n mod 10)) = true).
  { pose proof (Nat.mod_upper_bound n 10 ltac:(lia)) as Hm.
    remember (n mod 10) as d. clear Heqd.
    do 10 (destruct d as [|d]; [reflexivity|]). lia. }
  destruct (Nat.ltb n 10); [cbn [all_chars]; now rewrite Hd, Ha|]. apply IH. cbn [all_chars]. now rewrite Hd, Ha.
Qed.

Lemma tuple_field_names_ok {A} i (l : list A) : Forall (fun p => is_iident (fst p) = true) (tuple_fields i l).
Proof.
  revert i; induction l as [|x l IH]; intro i; cbn [tuple_fields]; constructor; [|apply IH].
  apply (nat_digits_alnum _ _ ""). reflexivity.
Qed.

Lemma tuple_sig_of sc g l : Forall (fun t => idl_safe t = true /\ scope_has sc t /\ ty_depth t < g) (map snd l) ->
  tuple_sig g sc (iparams l) = Some (print (TTuple (map snd l))).
Proof.
  intro HF. unfold tuple_sig, iparams. rewrite isig_S, !map_map. cbn [snd].
  rewrite <- (map_map snd ity_of), sig_tuple_of; [reflexivity|].
  eapply Forall_impl; [|exact HF]. intros t (Hs & Hsc & Hd). now apply isig_of.
Qed.

Lemma fields_param_ok f (l : list (string * ty)) : Forall (fun p => is_iident (fst p) = true) l ->
  Forall (fun t => idl_safe t = true /\ idl_depth t < f) (map snd l) -> Forall (param_ok f) l.
Proof.
  induction l as [|p l IH]; intros H1 H2; [constructor|].
  inversion H1; subst. inversion H2 as [|? ? [Ha Hb] H2']; subst.
  constructor; [repeat split; assumption|now apply IH].
Qed.

(* a method whose parameter names are not given (MetaMethod.Parameters nil): P0, P1, ... *)
Theorem method_roundtrip : forall m ts rt s sc f g rest,
  mm_params m = print (TTuple ts) -> mm_ret m = print rt -> mm_pnames m = None ->
  wf_ty (TTuple ts) = true -> wf_ty rt = true ->
  is_iident (mm_name m) = true -> (mm_uid m < 2 ^ 32)%N ->
  Forall (fun t => idl_safe t = true /\ idl_depth t < f /\ scope_has sc t /\ ty_depth t < g) ts ->
  (rt = TS SVoid \/ (idl_safe rt = true /\ idl_depth rt < f /\ scope_has sc rt /\ ty_depth rt < g)) -> 0 < g ->
  exists line s' ri pl,
    gen_method m s = Some (line, s') /\
    fst (imethod (itype f) (line ++ rest)) = Ok (NVal (VMethod (mm_name m) (mm_uid m) ri pl)) (nl ++ rest) /\
    isig g sc ri = Some (mm_ret m) /\ tuple_sig g sc pl = Some (mm_params m).
Proof.
  intros m ts rt s sc f g rest Hp Hr Hn Hwp Hwr Hname Hu Hts Hrt Hg.
  set (l := tuple_fields 0 ts). assert (El : map snd l = ts) by apply tuple_fields_snd.
  exists (method_line (mm_name m) (join ", " (map param_str l)) (ret_str rt) (mm_uid m)).
  destruct (register (TTuple ts) s) as [pt' s1] eqn:E1. destruct (register rt s1) as [rt' s2] eqn:E2.
  exists s2, (ret_ity rt), (iparams l). repeat split.
  - unfold gen_method. rewrite Hp, Hr, (parse_print _ Hwp), (parse_print _ Hwr), Hn, E1, E2. reflexivity.
  - apply method_line_parses; [assumption|assumption|now right| |].
    + apply fields_param_ok; [apply tuple_field_names_ok|]. rewrite El. eapply Forall_impl; [|exact Hts]. tauto.
    + destruct Hrt as [->|(Ha & Hb & _)]; [now left|right; now split].
  - unfold ret_ity. rewrite Hr. destruct (String.eqb_spec (print rt) "v") as [Ev|Ev].
    + rewrite Ev. destruct g; [lia|reflexivity].
    + destruct Hrt as [->|(Ha & _ & Hc & Hd)]; [now elim Ev|]. now apply isig_of.
  - rewrite Hp, <- El. apply tuple_sig_of. rewrite El. eapply Forall_impl; [|exact Hts]. tauto.
Qed.

Lemma span_len p s : String.length (snd (span p s)) <= String.length s.
Proof. destruct (span p s) as [a b] eqn:E. apply span_spec in E as (-> & _). rewrite slen_app. cbn. lia. Qed.

Lemma type_ident_goodS L : goodS type_ident L.
Proof.
  intros s _. unfold type_ident. pose proof (skip_ws_len s) as Hw.
  destruct (skip_ws s) as [|c r]; [exact I|]. destruct (is_alpha_ c); [|exact I].
  pose proof (span_len is_alnum_ r) as H1. destruct (span is_alnum_ r) as [a [|x b]]; [cbn in *; lia|].
  rewrite match_lt. destruct (Ascii.eqb x "<"); [|cbn in *; lia].
  pose proof (span_len is_alnum_ b) as H2. destruct (span is_alnum_ b) as [a2 [|y b3]]; [cbn in *; lia|].
  rewrite match_gt. destruct (Ascii.eqb y ">"); cbn in *; lia.
Qed.

Lemma int_tok_goodS L : goodS int_tok L.
Proof.
  intros s _. unfold int_tok. pose proof (skip_ws_len s) as Hw.
  assert (Hgen : forall pre r, String.length r <= String.length s ->
    match fst (let (a, b) := span is_digit r in
               match a with EmptyString => (@Fail inode, 1%N) | _ => (Ok (NTerm (pre ++ a)) b, 1%N) end) with
    | Ok _ r' => String.length r' < String.length s | Fail => True | _ => False end).
  { intros pre r Hr. pose proof (span_spec is_digit r) as E. destruct (span is_digit r) as [a b].
    destruct (E a b eq_refl) as (-> & _). destruct a; [exact I|]. cbn [fst]. rewrite slen_app in Hr. cbn in Hr. lia. }
  destruct (skip_ws s) as [|c r]; [apply (Hgen "" ""); cbn; lia|].
  pose proof (fun c' => Hgen "" (String c' r) Hw) as D. destruct c as [b0 b1 b2 b3 b4 b5 b6 b7].
  destruct b0; [|apply D]. destruct b1; [apply D|]. destruct b2; [|apply D]. destruct b3; [|apply D].
  destruct b4; [apply D|]. destruct b5; [|apply D]. destruct b6; [apply D|]. destruct b7; [apply D|].
  apply (Hgen "-" r). cbn in Hw. lia.
Qed.

Lemma rest_of_line_good L : good rest_of_line L.
Proof.
  intros s _. unfold rest_of_line. pose proof (skip_ws_len s) as Hw. pose proof (span_len not_nl (skip_ws s)) as H.
  destruct (span not_nl (skip_ws s)) as [a b]. cbn in *. lia.
Qed.

Lemma seq_goodS cb (p : iparser) ps L : goodS p L -> Forall (fun q => good q L) ps -> goodS (pand cb (p :: ps)) L.
Proof.
  intros Hp HF. apply pand_goodS; [exact Hp|]. intros L' HL'. eapply Forall_impl; [|exact HF].
  intros q Hq. eapply good_le; [exact Hq|lia].
Qed.

(* The grammar is built from these; each definition below is unfolded and taken apart by them. *)
Create HintDb idl_good.
#[local] Hint Resolve goodS_good pand_good seq_goodS por_goodS kleene_good maybe_good many_sep_good
  atom_goodS token1_goodS type_ident_goodS int_tok_goodS rest_of_line_good Forall_cons Forall_nil : idl_good.
#[local] Hint Extern 1 (_ <> _) => discriminate : idl_good.

Lemma itype_goodS f : forall L, L < f -> goodS (itype f) L.
Proof.
  induction f as [|f IH]; intros L HL; [lia|].
  rewrite itype_S.
  assert (Hd : forall L', L' < L -> goodS (itype f) L') by (intros; apply IH; lia).
  apply por_goodS. repeat constructor.
  - unfold ibasic_type. apply por_goodS. cbn [map idl_basic_names]. repeat constructor; auto with idl_good.
  - apply pand_goodS; auto 10 with idl_good.
  - apply pand_goodS; auto 10 with idl_good.
  - apply pand_goodS; auto 10 with idl_good.
  - unfold iref_type. auto with idl_good.
Qed.

Section Total.
Variable tp : iparser.
Variable L : nat.
Hypothesis Htp : goodS tp L.
#[local] Hint Resolve Htp : idl_good.

Lemma icomments_good : good icomments L.
Proof. unfold icomments. auto 10 with idl_good. Qed.
Lemma iparameters_good : good (iparameters tp) L.
Proof. unfold iparameters, iparameter, iident. auto 10 with idl_good. Qed.
Lemma ireturns_good : good (ireturns tp) L.
Proof. unfold ireturns. auto 10 with idl_good. Qed.
#[local] Hint Resolve icomments_good iparameters_good ireturns_good : idl_good.

Lemma iaction_goodS : goodS (iaction tp) L.
Proof. unfold iaction, imethod, isignal, iproperty, iident. auto 12 with idl_good. Qed.
#[local] Hint Resolve iaction_goodS : idl_good.

Lemma ideclaration_goodS : goodS (ideclaration tp) L.
Proof.
  unfold ideclaration, istructure, ienum, iinterface, imember, ienum_const, iident. auto 20 with idl_good.
Qed.

Lemma ipackage_good : good (ipackage tp) L.
Proof. pose proof ideclaration_goodS. unfold ipackage, ipackage_name, pkg_ident. auto 12 with idl_good. Qed.
End Total.

(* ParseIDL's parser never reaches the model's bounds: arbitrary text yields meta-objects, an
   error, or — only through a self-referential struct — the stack overflow *)
Theorem parse_idl_total : forall s, parse_idl s <> IFuel /\ parse_idl s <> IHang.
Proof.
  intro s. unfold parse_idl, parse_package.
  pose proof (ipackage_good (itype (S (String.length s))) (String.length s)
                (itype_goodS (S (String.length s)) (String.length s) (Nat.lt_succ_diag_r _)) s (le_n _)) as H.
  destruct (fst (ipackage (itype (S (String.length s))) s)) as [root rest| | |]; try tauto; try (split; discriminate).
  destruct (is_empty (skip_ws rest)); [|split; discriminate].
  destruct root as [|[]| | |]; try (split; discriminate).
  destruct (metas_of _ _); split; discriminate.
Qed.
