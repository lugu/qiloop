(* SignalsInv4.v — Proto (SignalsInv3.v) is preserved by every step of a [repaired] configuration:
   each step of the registration protocol moves the key it belongs to from one phase to the next
   and leaves every other key alone.  A subscriber's own step goes through [Proto_substep] (show
   [next_phase] for its key), the object's table operations read the key of the request off
   [phase_head], the remaining steps touch no key ([Proto_map]).  [Step_CStep]: from a state with
   UidInv, Conserve and Proto a repaired configuration takes only the branches of [CStep]. *)
From QV Require Import Signals SignalsLemmas SignalsStep SignalsInv1 SignalsInv3.
From Coq Require Import Permutation.
Local Open Scope N_scope.

Lemma perm_le1_eq {A} (l l' : list A) : (List.length l <= 1)%nat -> Permutation l l' -> l' = l.
Proof.
  destruct l as [|a [|b l]]; cbn; [intros _ P; now apply Permutation_nil|intros _ P; now apply Permutation_length_1_inv|lia].
Qed.

Lemma has_sub_same st st' c sig p : subs st' = subs st -> has_sub st c sig p -> has_sub st' c sig p.
Proof. unfold has_sub. now intros ->. Qed.

Lemma nP_app_installed k st st' c sig x : subs st' = subs st ++ [x] -> k (s_pc x) = false ->
  nP k st' c sig = nP k st c sig.
Proof. intros Es H. unfold nP. rewrite Es, cnt_app, cnt_cons, cnt_nil. unfold pcb at 2. rewrite H, andb_false_r. lia. Qed.


Section SubStep.
  Variable st st' : state.
  Variable s : nat.
  Variable x x' : sub.
  Hypothesis Hx : nth_error (subs st) s = Some x.
  Hypothesis Hc : s_conn x' = s_conn x.
  Hypothesis Hs : s_sig x' = s_sig x.
  Hypothesis Esubs : subs st' = set_nth (subs st) s x'.
  Hypothesis Etable : table st' = table st.
  Hypothesis Ecl : forall c sig, ~ (c = s_conn x /\ sig = s_sig x) ->
    c_count (cl st' c) sig = c_count (cl st c) sig /\ c_lock (cl st' c) sig = c_lock (cl st c) sig /\
    c_hid (cl st' c) sig = c_hid (cl st c) sig.

  Lemma substep_has_kept c sig p :
    (on_key c sig x = true -> s_pc x = p -> s_pc x' = p) -> has_sub st c sig p -> has_sub st' c sig p.
  Proof.
    intros H (y & Hy & Ky & Py). unfold has_sub. rewrite Esubs. destruct (In_nth_error _ _ Hy) as [j Hj].
    destruct (Nat.eq_dec j s) as [->|Ne].
    - rewrite Hx in Hj. injection Hj as <-. exists x'.
      repeat split; [eapply In_set_nth_self; exact Hx|now rewrite (on_key_same c sig x x' Hc Hs)|auto].
    - exists y. repeat split; auto. apply nth_error_In with j. now rewrite nth_error_set_nth_neq by congruence.
  Qed.
  Lemma substep_has_sub c sig p : s_pc x <> p -> has_sub st c sig p -> has_sub st' c sig p.
  Proof using Hx Esubs.
    intros Hp (y & Hy & Ky & Py). unfold has_sub. rewrite Esubs. destruct (In_nth_error _ _ Hy) as [j Hj].
    destruct (Nat.eq_dec j s) as [->|Ne].
    - rewrite Hx in Hj. injection Hj as <-. contradiction.
    - exists y. repeat split; auto. apply nth_error_In with j. now rewrite nth_error_set_nth_neq by congruence.
  Qed.
  Lemma substep_has_new : has_sub st' (s_conn x) (s_sig x) (s_pc x').
  Proof.
    exists x'. rewrite Esubs, <- Hc, <- Hs. repeat split; [eapply In_set_nth_self; exact Hx|apply on_key_refl].
  Qed.

  Lemma substep_frame c sig : on_key c sig x = false \/ s_pc x' = s_pc x ->
    c_count (cl st' c) sig = c_count (cl st c) sig /\ c_lock (cl st' c) sig = c_lock (cl st c) sig /\
      c_hid (cl st' c) sig = c_hid (cl st c) sig ->
    frames st' c sig = frames st c sig -> keyinv st c sig -> keyinv st' c sig.
  Proof.
    intros Hk F1 F2. assert (T : forall k, nP k st' c sig = nP k st c sig).
    { intro k. pose proof (nP_set k st st' s x x' c sig Hx Esubs Hc Hs) as E. destruct Hk as [Hk|Hk]; rewrite Hk in E; [cbn in E|]; lia. }
    apply keyinv_frame; [exact F1|now rewrite Etable|exact F2|apply T|apply T|].
    intro p. apply substep_has_kept. destruct Hk; congruence.
  Qed.
  Lemma substep_other c sig : on_key c sig x = false ->
    frames st' c sig = frames st c sig -> keyinv st c sig -> keyinv st' c sig.
  Proof.
    intro Hk. apply substep_frame; [now left|]. apply Ecl. intros [-> ->]. now rewrite on_key_refl in Hk.
  Qed.

  (* the phase the own key must be shown to be in after the step, over the old tallies *)
  Definition next_phase : Prop :=
    phase (s_sig x) (c_lock (cl st' (s_conn x)) (s_sig x)) (c_count (cl st' (s_conn x)) (s_sig x))
      (c_hid (cl st' (s_conn x)) (s_sig x)) (ents (table st) (s_conn x) (s_sig x)) (frames st' (s_conn x) (s_sig x))
      (nP crit st (s_conn x) (s_sig x) + Nat.b2n (crit (s_pc x')) - Nat.b2n (crit (s_pc x)))
      (nP isAck st (s_conn x) (s_sig x) + Nat.b2n (isAck (s_pc x')) - Nat.b2n (isAck (s_pc x)))
      (fun p => p = s_pc x' \/ (s_pc x <> p /\ has_sub st (s_conn x) (s_sig x) p)).
  Lemma substep_own : next_phase -> keyinv st' (s_conn x) (s_sig x).
  Proof.
    assert (T : forall k, nP k st' (s_conn x) (s_sig x) =
              (nP k st (s_conn x) (s_sig x) + Nat.b2n (k (s_pc x')) - Nat.b2n (k (s_pc x)))%nat).
    { intro k. pose proof (nP_set k st st' s x x' (s_conn x) (s_sig x) Hx Esubs Hc Hs) as E.
      rewrite on_key_refl in E. cbn [andb] in E. lia. }
    intro P. unfold keyinv. rewrite !T, Etable. eapply phase_mono; [|exact P].
    intros p [->|[Hn H]]; [apply substep_has_new|now apply substep_has_sub].
  Qed.
  (* One subscriber acts (it is replaced by x', at most its own key of Client.State and its own requests in
     flight change): Proto is kept if the step takes the subscriber's own key to its next phase. *)
  Lemma Proto_substep :
    Proto st -> pend st' = pend st -> (forall c f, In f (down st' c) -> In f (down st c)) ->
    (forall c sig, on_key c sig x = false -> frames st' c sig = frames st c sig) ->
    (keyinv st (s_conn x) (s_sig x) -> next_phase) ->
    Proto st'.
  Proof.
    intros [PK PP PD] Ep Ed Efr Hown. split.
    - intros c sig. destruct (on_key c sig x) eqn:Hkey; [apply key_true in Hkey as [<- <-]|].
      + apply substep_own, Hown, PK.
      + apply substep_other; [exact Hkey|now apply Efr|apply PK].
    - intros c f n E. rewrite Ep in E. eauto.
    - intros c f Hin. eapply PD, Ed, Hin.
  Qed.
End SubStep.

Lemma cl_fields_fupd (f : nat -> cstate) c0 sig0 k c sig :
  (forall sg, sg <> sig0 -> c_count k sg = c_count (f c0) sg /\ c_lock k sg = c_lock (f c0) sg /\ c_hid k sg = c_hid (f c0) sg) ->
  ~ (c = c0 /\ sig = sig0) ->
  c_count (fupd f c0 k c) sig = c_count (f c) sig /\ c_lock (fupd f c0 k c) sig = c_lock (f c) sig /\
  c_hid (fupd f c0 k c) sig = c_hid (f c) sig.
Proof.
  intros H Hn. apply fupd_cl_other. intros ->. apply H. intros ->. tauto.
Qed.

(* on a goal [next_phase]: computes the fields of Client.State at the acting subscriber's own key and
   its requests in flight after the step (Hp : s_pc x = the pc it leaves) *)
Ltac own_key st x Hp :=
  unfold next_phase; rewrite Hp; unfold frames; psimpl; rewrite ?fset_eq, ?filter_app;
  cbn [with_lock with_count c_count c_lock c_hid with_pc acked s_pc crit isAck Nat.b2n filter usig];
  rewrite ?nupd_eq, ?N.eqb_refl; fold (frames st (s_conn x) (s_sig x)).
(* the premise of Proto_substep that Client.State of every other key is untouched: the step writes
   [nupd]s at its own signal *)
Ltac other_cl x :=
  let Hn := fresh in intros ? ? Hn; psimpl; apply (cl_fields_fupd _ _ (s_sig x)); [|exact Hn];
  let Hsg := fresh in intros ? Hsg; cbn; now rewrite ?nupd_neq by exact Hsg.

Lemma serialised_enter g k sig : sub_unserialised g = false -> may_enter g k sig = true -> c_lock k sig = false.
Proof. unfold may_enter. intros -> H. cbn in H. now apply negb_true_iff in H. Qed.







Lemma frames_push_other st st' x f : up st' = fupd (up st) (s_conn x) (up st (s_conn x) ++ [f]) -> usig f = s_sig x ->
  forall c sig, on_key c sig x = false -> frames st' c sig = frames st c sig.
Proof.
  intros E Ef c sig Hk. unfold frames. rewrite E. unfold fupd.
  destruct (Nat.eqb c (s_conn x)) eqn:Ec; [apply Nat.eqb_eq in Ec; subst c|reflexivity].
  unfold on_key in Hk. rewrite Nat.eqb_refl in Hk. rewrite filter_app. cbn in *. now rewrite Ef, Hk, app_nil_r.
Qed.



Lemma frames_pop st st' c f rest c0 sig0 : up st c = f :: rest -> up st' = fupd (up st) c rest ->
  frames st c0 sig0 = (if Nat.eqb c c0 && (usig f =? sig0) then [f] else []) ++ frames st' c0 sig0.
Proof.
  intros Hu E. unfold frames. rewrite E, (Nat.eqb_sym c c0). unfold fupd.
  destruct (Nat.eqb c0 c) eqn:Ec; [apply Nat.eqb_eq in Ec; subst|reflexivity].
  rewrite Hu. cbn. now destruct (usig f =? sig0).
Qed.

Lemma ents_new c0 sig0 c m sig uid :
  ents [new_user c m sig uid] c0 sig0 = if Nat.eqb c c0 && (sig =? sig0) then [new_user c m sig uid] else [].
Proof. reflexivity. Qed.
Lemma frames_pop_other st st' c f rest c0 sig0 : up st c = f :: rest -> up st' = fupd (up st) c rest ->
  Nat.eqb c c0 && (usig f =? sig0) = false -> frames st' c0 sig0 = frames st c0 sig0.
Proof. intros Hu E Hn. now rewrite (frames_pop st st' c f rest c0 sig0 Hu E), Hn. Qed.


(* the entry that unregisterEvent finds is the one of the frame's key: handler ids are distinct per connection *)
Lemma unreg_finds_key_entry st c sig uid i e :
  UidInv st -> entry (ents (table st) c sig) uid -> nth_error (table st) i = Some e -> is_user c uid e = true ->
  ents (table st) c sig = [e].
Proof.
  intros HU (u0 & Hu0 & Hid) He Hi. rewrite Hu0. f_equal. symmetry.
  assert (Hin : In u0 (ents (table st) c sig)) by (rewrite Hu0; now left). apply filter_In in Hin as [Hin Hk].
  unfold is_user in Hi. apply andb_prop in Hi as [H1 H2]. apply N.eqb_eq in H1.
  pose proof (KInv_keys _ _ _ _ _ c HU) as Hn. apply NoDup_app_iff in Hn as [Hn _].
  apply (NoDup_map_inj u_uid (conn_ents (table st) c)); try assumption; [| |congruence].
  - apply filter_In. split; [eapply nth_error_In; exact He|exact H2].
  - apply filter_In. split; [exact Hin|]. destruct (key_true _ _ _ _ Hk) as [-> _]. apply Nat.eqb_refl.
Qed.


Lemma mbox_unreg_err_impossible st c m sig uid rest :
  Proto st -> up st c = UUnreg m sig uid :: rest -> find_idx (is_user c uid) (table st) = None -> False.
Proof.
  intros [PK _ _] Hu Hf. pose proof (PK c sig) as K.
  assert (EF : frames st c sig = UUnreg m sig uid :: filter (fun f => usig f =? sig) rest).
  { unfold frames. rewrite Hu. cbn. now rewrite N.eqb_refl. }
  destruct (phase_head _ _ _ _ _ _ _ _ _ _ _ K EF) as (_ & _ & _ & _ & _ & _ & _ & u0 & Hu0 & Hid).
  assert (Hin : In u0 (ents (table st) c sig)) by (rewrite Hu0; now left). apply filter_In in Hin as [Hin Hk].
  pose proof (find_idx_none _ _ Hf u0 Hin) as Hfalse.
  unfold is_user in Hfalse. destruct (key_true _ _ _ _ Hk) as [E1 _]. now rewrite Hid, E1, N.eqb_refl, Nat.eqb_refl in Hfalse.
Qed.

(* when the answer to a call is at the head of down c, the call's request is no longer in up c:
   a call has one representative in flight (Conserve) *)
Lemma answered_not_in_up st c f rest a m fr :
  Conserve st -> down st c = f :: rest -> dreply f = Some (a, m) -> In fr (up st c) -> umatch a m fr = true -> False.
Proof.
  intros HC Hd Hr Hin Hm. destruct (HC c a m) as (E & L & _). unfold n_up, n_down in E.
  pose proof (cnt_In _ _ _ Hin Hm). rewrite Hd, cnt_cons, (is_rep_of _ _ _ _ _ Hr), !N.eqb_refl in E. cbn [andb] in E. lia.
Qed.


Lemma Proto_map st (h : sub -> sub) st' :
  (forall x, s_conn (h x) = s_conn x /\ s_sig (h x) = s_sig x /\ s_pc (h x) = s_pc x) ->
  subs st' = map h (subs st) -> cl st' = cl st -> table st' = table st -> up st' = up st ->
  (forall c f n, pend st' = Some (c, f, n) -> is_dreply f) ->
  (forall c f, In f (down st' c) -> no_derror f) ->
  Proto st -> Proto st'.
Proof.
  intros Hh Es Ec Et Eu PP' PD' [PK PP PD]. split; [|exact PP'|exact PD']. intros c sig.
  apply (keyinv_frame st); unfold frames; rewrite ?Ec, ?Et, ?Eu; auto.
  - now apply (nP_map crit st st' h).
  - now apply (nP_map isAck st st' h).
  - intros p Hs. eapply has_sub_map; eassumption.
Qed.

Lemma Proto_core_same st st' :
  subs st' = subs st -> cl st' = cl st -> table st' = table st -> up st' = up st ->
  (forall c f n, pend st' = Some (c, f, n) -> is_dreply f) ->
  (forall c f, In f (down st' c) -> no_derror f) ->
  Proto st -> Proto st'.
Proof.
  intros Es Ec Et Eu PP' PD' P. apply (Proto_map st (fun x => x)); try assumption; [auto|].
  now rewrite map_id.
Qed.

Lemma no_derror_push (d : nat -> list dframe) c f :
  (forall c0 f0, In f0 (d c0) -> no_derror f0) -> no_derror f ->
  forall c0 f0, In f0 (fupd d c (d c ++ [f]) c0) -> no_derror f0.
Proof.
  intros PD Hf c0 f0. unfold fupd. destruct (Nat.eqb c0 c) eqn:E; [apply Nat.eqb_eq in E; subst|apply PD].
  intro Hin. apply in_app_or in Hin as [Hin|[<-|[]]]; [now apply (PD c)|exact Hf].
Qed.
Lemma no_derror_pop (d : nat -> list dframe) c f rest : d c = f :: rest ->
  (forall c0 f0, In f0 (d c0) -> no_derror f0) ->
  forall c0 f0, In f0 (fupd d c rest c0) -> no_derror f0.
Proof.
  intros Hd PD c0 f0. unfold fupd. destruct (Nat.eqb c0 c) eqn:E; [apply Nat.eqb_eq in E; subst|apply PD].
  intro Hin. apply (PD c). rewrite Hd. now right.
Qed.

Theorem Proto_step g st l st' : UidInv st -> Conserve st -> Proto st -> CStep g st l st' -> Proto st'.
Proof.
  intros HU HC HP HS. destruct HS.
  6:{ (* CMboxUnreg, the one step that reads UidInv *)
    destruct HP as [PK PP PD]. split; [|intros c1 f n [= <- <- <-]; exact I|exact PD].
    set (st' := st_mbox _ _ _ _ _). pose proof (PK c sig) as K.
    pose proof (frames_pop st st' c _ rest c sig Hup eq_refl) as EF.
    cbn [usig] in EF. rewrite Nat.eqb_refl, N.eqb_refl in EF.
    destruct (phase_head _ _ _ _ _ _ _ _ _ _ _ K EF) as (L & NC & NA & F' & HS & C0 & H0 & HE).
    pose proof (unreg_finds_key_entry st c sig uid i e HU HE Hent Huser) as Ee.
    assert (Hek : ekey c sig e = true).
    { assert (Hin : In e (ents (table st) c sig)) by (rewrite Ee; now left). now apply filter_In in Hin. }
    intros c0 sig0. destruct (Nat.eqb c c0 && (sig =? sig0)) eqn:Hn; [apply key_true in Hn as [<- <-]|].
    + (* Busy WaitUnreg: request in flight -> entry removed *)
      apply (Busy (PWaitUnreg m)); try assumption. split; [exact C0|split; [exact H0|right]].
      split; [exact F'|]. subst st'. psimpl.
      pose proof (Permutation_length (ents_swap_remove _ _ _ c sig Hent)) as PL. cbn [ents filter] in PL.
      rewrite Hek, Ee in PL. injection PL as PL. apply length_zero_iff_nil. symmetry. exact PL.
    + assert (Hk0 : ekey c0 sig0 e = false).
      { destruct (key_true _ _ _ _ Hek) as [E1 E2]. unfold ekey. now rewrite E1, E2. }
      pose proof (ents_swap_remove _ _ _ c0 sig0 Hent) as P. cbn [ents filter] in P. rewrite Hk0 in P.
      apply (keyinv_frame st); [now repeat split| |exact (frames_pop_other st st' c _ rest c0 sig0 Hup eq_refl Hn)|reflexivity|reflexivity|auto|apply PK].
      subst st'. psimpl. exact (perm_le1_eq _ _ (keyinv_ents_le1 _ _ _ (PK c0 sig0)) P). }
  10:{ (* CRecvAnswer (the eleventh constructor, the tenth goal left), the one step that reads Conserve *)
    destruct (waits_inv _ _ _ _ Hw) as [<- Hpc].
    apply (Proto_substep st _ s x (answer_sub x f) Hx); try reflexivity;
      try (unfold answer_sub; destruct (s_pc x), f; reflexivity).
    + other_cl x.
    + exact HP.
    + intros c1 f1. psimpl. destruct (Nat.eq_dec c1 (s_conn x)) as [->|Ne]; [rewrite fset_eq|now rewrite fset_neq by exact Ne].
      intro H1. rewrite Hdown. now right.
    + intro K. assert (Hcr : crit (s_pc x) = true) by (destruct Hpc as [[_ ->]|[_ ->]]; reflexivity).
      destruct (busy_of_crit _ _ x K Hx Hcr) as (L & NC & NA & B).
      assert (NF : forall fr, frames st (s_conn x) (s_sig x) = [fr] -> umatch act m fr = true -> False).
      { intros fr EF. apply (answered_not_in_up st _ f rest act m fr HC Hdown Hrep).
        assert (H : In fr (frames st (s_conn x) (s_sig x))) by (rewrite EF; now left). now apply filter_In in H. }
      destruct Hpc as [[-> Hp]|[-> Hp]]; rewrite Hp in B; cbn [busy] in B; unfold answer_sub in *; rewrite Hp in *.
      * (* Busy WaitReg, registered -> Free, count 1 *)
        destruct B as (C1 & [[F1 _]|[F0 HE]]); [exfalso; apply (NF _ F1); cbn; now rewrite !N.eqb_refl|].
        destruct f; [|contradiction|discriminate]. own_key st x Hp.
        apply Free; [reflexivity|lia|lia|exact F0|now rewrite C1].
      * (* Busy WaitUnreg, entry removed -> Free, count 0 *)
        destruct B as (C0 & H0 & [(h' & F1 & _)|[F0 E0]]); [exfalso; apply (NF _ F1); cbn; now rewrite !N.eqb_refl|].
        own_key st x Hp. apply Free; [reflexivity|lia|lia|exact F0|now rewrite C0]. }
  all: clear HU HC.
  - (* CInstall *)
    destruct HP as [PK PP PD]. split; [|exact PP|exact PD].
    intros c0 sig0.
    apply (keyinv_frame st); [now repeat split|reflexivity|reflexivity|now eapply nP_app_installed..| |apply PK].
    intros p (y & Hy & Ky & Py). exists y. psimpl. repeat split; auto. apply in_or_app; now left.
  - (* CCountFirst: Free, count 0 -> Busy NeedReg *)
    apply (Proto_substep st _ s x (with_pc x PNeedReg) Hx); try reflexivity; [other_cl x|auto..|].
    intros [_ NC NA FR X|p L]; [|congruence]. rewrite Hcnt in *. destruct X as [E0 H0]. own_key st x Hpc.
    apply (Busy PNeedReg); [reflexivity|lia|now left|lia|now cbn].
  - (* CCountMore: Free, count n > 0 -> Free, count n + 1 *)
    apply (Proto_substep st _ s x (acked x) Hx); try reflexivity; [other_cl x|auto..|].
    intros [_ NC NA FR X|p L]; [|congruence]. apply Nat.eqb_neq in Hcnt. rewrite Hcnt in X. own_key st x Hpc.
    apply Free; [exact Hfree|lia|lia|exact FR|exact X].
  - (* CSendReg: Busy NeedReg -> Busy WaitReg, request in flight *)
    eapply (Proto_substep st _ s x (with_pc x (PWaitReg _)) Hx); try reflexivity;
      [other_cl x|auto..|eapply frames_push_other; reflexivity|].
    intro K. destruct (busy_of_crit _ _ x K Hx) as (L & NC & NA & B); [now rewrite Hpc|].
    rewrite Hpc in B. destruct B as (C1 & H0 & E0 & F0). own_key st x Hpc.
    apply (Busy (PWaitReg (c_mid (cl st (s_conn x)) + 2))); [exact L|lia|now left|lia|].
    split; [exact C1|left]. now rewrite H0, E0, F0.
  - (* CMboxReg *)
    destruct HP as [PK PP PD]. split; [|intros c1 f n [= <- <- <-]; exact I|exact PD].
    set (st' := st_mbox _ _ _ _ _). intros c0 sig0. destruct (Nat.eqb c c0 && (sig =? sig0)) eqn:Hn; [apply key_true in Hn as [<- <-]|].
    + (* Busy WaitReg: request in flight -> registered *)
      pose proof (PK c sig) as K. pose proof (frames_pop st st' c _ rest c sig Hup eq_refl) as EF.
      cbn [usig] in EF. rewrite Nat.eqb_refl, N.eqb_refl in EF.
      destruct (phase_head _ _ _ _ _ _ _ _ _ _ _ K EF) as (L & NC & NA & F' & HS & C1 & -> & E0).
      apply (Busy (PWaitReg m)); try assumption. split; [exact C1|right]. split; [exact F'|].
      exists (new_user c m sig (c_hid (cl st c) sig)). subst st'. psimpl.
      now rewrite ents_app, E0, ents_new, Nat.eqb_refl, N.eqb_refl.
    + apply (keyinv_frame st); [now repeat split| |exact (frames_pop_other st st' c _ rest c0 sig0 Hup eq_refl Hn)|reflexivity|reflexivity|auto|apply PK].
      subst st'. psimpl. now rewrite ents_app, ents_new, Hn, app_nil_r.
  - (* CReply *)
    destruct HP as [PK PP PD]. apply (Proto_core_same st); try reflexivity; [discriminate| |split; assumption].
    apply no_derror_push; [exact PD|]. now apply is_dreply_no_derror.
  - (* CEmitSnap *)
    destruct HP as [PK PP PD]. apply (Proto_map st (note_emit st sig p)); try reflexivity; try assumption; [|split; assumption].
    intro y. unfold note_emit. destruct ((s_sig y =? sig) && live (s_pc y)); auto.
  - (* CEmitSend *)
    destruct HP as [PK PP PD]. apply (Proto_core_same st); try reflexivity; [exact PP| |split; assumption].
    now apply no_derror_push.
  - (* CRecvEvent *)
    destruct HP as [PK PP PD]. apply (Proto_map st (fun y => fst (enqueue c sig p y))); try reflexivity; try assumption; [| |split; assumption].
    + intro y. unfold enqueue. destruct (Nat.eqb (s_conn y) c && (s_sig y =? sig) && live (s_pc y)); [|auto].
      destruct (Nat.ltb (List.length (s_queue y)) QueueCap); auto.
    + eapply no_derror_pop; eassumption.
  - (* CCancelLast: Free, count 1 -> Busy NeedUnreg *)
    apply (Proto_substep st _ s x (with_pc x PNeedUnreg) Hx); try reflexivity; [other_cl x|auto..|].
    intros [_ NC NA FR X|p L]; [|congruence].
    pose proof (nP_ge1 isAck st s x Hx) as HA. rewrite Hpc in HA. specialize (HA eq_refl).
    destruct (Nat.eqb_spec (c_count (cl st (s_conn x)) (s_sig x)) 0) as [|_]; [lia|]. own_key st x Hpc.
    apply (Busy PNeedUnreg); [reflexivity|lia|now left|lia|now cbn].
  - (* CCancelMore: Free, count n > 1 -> Free, count n - 1 *)
    apply (Proto_substep st _ s x (with_pc x PAborting) Hx); try reflexivity; [other_cl x|auto..|].
    intros [_ NC NA FR X|p L]; [|congruence].
    pose proof (nP_ge1 isAck st s x Hx) as HA. rewrite Hpc in HA. specialize (HA eq_refl).
    destruct (Nat.eqb_spec (c_count (cl st (s_conn x)) (s_sig x)) 0) as [|_]; [lia|]. own_key st x Hpc.
    apply Free; [exact Hfree|lia|lia|exact FR|].
    now destruct (Nat.eqb_spec (Nat.pred (c_count (cl st (s_conn x)) (s_sig x))) 0).
  - (* CSendUnreg: Busy NeedUnreg -> Busy WaitUnreg, request in flight *)
    eapply (Proto_substep st _ s x (with_pc x (PWaitUnreg _)) Hx); try reflexivity;
      [other_cl x|auto..|eapply frames_push_other; reflexivity|].
    intro K. destruct (busy_of_crit _ _ x K Hx) as (L & NC & NA & B); [now rewrite Hpc|].
    rewrite Hpc in B. destruct B as (C0 & F0 & HE). own_key st x Hpc.
    apply (Busy (PWaitUnreg (c_mid (cl st (s_conn x)) + 2))); [exact L|lia|now left|lia|].
    split; [exact C0|split; [reflexivity|left]]. exists (c_hid (cl st (s_conn x)) (s_sig x)). now rewrite F0.
  - (* CDeliver *)
    destruct HP as [PK PP PD]. split; [|exact PP|exact PD]. intros c0 sig0.
    apply (substep_frame st _ s x (sub_deliver x p q) Hx); try reflexivity; [now right|now repeat split|apply PK].
  - (* CFanClose: the phase of the key stays *)
    apply (Proto_substep st _ s x (sub_close x) Hx); try reflexivity; auto.
    intro K. unfold next_phase. rewrite Hpc. cbn [sub_close s_pc crit isAck Nat.b2n].
    rewrite !Nat.add_0_r, !Nat.sub_0_r. destruct K as [L NC NA FR X|p L NC HS NA B]; [now apply Free|].
    apply (Busy p); auto. right. split; [|exact HS]. intros <-. exact B.
Qed.

Lemma Step_CStep g st l st' : repaired g -> UidInv st -> Conserve st -> Proto st -> Step g st l st' -> CStep g st l st'.
Proof.
  intros (Hg1 & Hg3) HU HC HP HS. destruct HS.
  - apply CInstall.
  - apply CCountFirst; try assumption. now apply (serialised_enter g).
  - apply CCountMore; try assumption. now apply (serialised_enter g).
  - now apply CSendReg.
  - apply CMboxReg; auto.
  - (* SMboxRegDead: impossible, the id of a request in flight is in no entry of its connection *)
    exfalso. eapply uid_global_off_no_dup; eassumption.
  - (* SMboxRegErr: impossible, likewise *) exfalso. eapply uid_global_off_no_dup; eassumption.
  - edestruct (find_idx_some (A := user)) as (e & He & Hi); [eassumption|]. rewrite (nth_error_nth _ _ no_user He).
    apply (CMboxUnreg g st c m sig uid rest i e); auto.
  - (* SMboxUnregErr: impossible, the key of an unregisterEvent in flight has its entry *)
    exfalso. eapply mbox_unreg_err_impossible; eassumption.
  - apply CReply; [assumption|]. eapply p_pend; eassumption.
  - now apply CEmitSnap.
  - now apply CEmitSend.
  - now apply (CRecvEvent g st c sig m).
  - (* SRecvDrop: impossible, an answer has its waiting call *) exfalso. eapply answer_has_waiter; eassumption.
  - apply (CRecvAnswer g st c f act m); try assumption. apply (p_down _ HP c).
    match goal with E : down st c = _ |- _ => rewrite E end. now left.
  - apply CCancelLast; try assumption. now apply (serialised_enter g).
  - apply CCancelMore; try assumption. now apply (serialised_enter g).
  - now apply CSendUnreg.
  - now apply CDeliver.
  - now apply CFanClose.
Qed.
