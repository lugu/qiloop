(* TotalProofs.v — totality of the decoder models on arbitrary input (design/TOTAL_THEOREMS.md):
   no panic outcome (with the negative-length repair), never out of fuel with the fuel the
   entry points choose, and no decoder ever leaves more bytes than it was given.
   All three are instances of one invariant of the wire decoders, [safe pn fl n p]: on every input of at most n
   bytes the parser p leaves at most what it got (in ROk and in RErr), answers RPanic only if
   pn is set and RFuel only if fl is set.
   read_msg_total, first, is apart: the message reader of Message.v always answers (it rests on
   ReaderProofs.readN_full_total, not on [safe]). *)
From QV Require Import GenDec Message WireLemmas ReaderProofs.
Local Open Scope nat_scope.

Theorem read_msg_total : forall s, read_msg s <> None.
Proof.
  intro s. unfold read_msg.
  destruct (readN_full HeaderSize s) as [[[[b s0]|e] s1]|] eqn:Hh.
  - destruct (dec_header b) as [h|e]; [|discriminate].
    destruct (MaxPayloadSize <? h_size h)%N; [discriminate|].
    destruct (h_size h =? 0)%N; [discriminate|].
    destruct (readN_full (N.to_nat (h_size h)) s1) as [[[[p s3]|e] s2]|] eqn:Hp;
      try discriminate.
    exfalso. exact (readN_full_total _ _ Hp).
  - discriminate.
  - exfalso. exact (readN_full_total _ _ Hh).
Qed.

Definition outcome_ok {A} (pn fl : bool) (m : nat) (r : res (A * bytes)) : Prop :=
  match r with
  | ROk (_, r') => List.length r' <= m
  | RErr l => List.length l <= m
  | RPanic => pn = true
  | RFuel => fl = true
  end.

Definition safe {A} (pn fl : bool) (n : nat) (p : bytes -> res (A * bytes)) : Prop :=
  forall bs, List.length bs <= n -> outcome_ok pn fl (List.length bs) (p bs).

Lemma outcome_ok_le : forall {A} pn fl m m' (r : res (A * bytes)),
  m <= m' -> outcome_ok pn fl m r -> outcome_ok pn fl m' r.
Proof.
  intros A pn fl m m' r Hm Hr. destruct r as [[a r']|l| |]; cbn [outcome_ok] in *; try lia; exact Hr.
Qed.

Lemma safe_le : forall {A} pn fl n n' (p : bytes -> res (A * bytes)),
  n' <= n -> safe pn fl n p -> safe pn fl n' p.
Proof. intros A pn fl n n' p Hn Hp bs Hbs. apply Hp. lia. Qed.

Section Safe.
  Variables pn fl : bool.
  Variable n : nat.

  (* what follows p runs on what p left: an input shorter by d, if p takes at least d bytes
     whenever it succeeds *)
  Lemma bind_safe_after {A C} d (p : bytes -> res (A * bytes)) (f : A -> bytes -> res (C * bytes)) :
    safe pn fl n p ->
    (forall bs a r, p bs = ROk (a, r) -> List.length r + d <= List.length bs) ->
    (forall a m, m + d <= n -> safe pn fl m (f a)) ->
    safe pn fl n (fun bs => do '(a, r) <- p bs; f a r).
  Proof.
    intros Hp Hd Hf bs Hbs. specialize (Hp bs Hbs). specialize (Hd bs).
    destruct (p bs) as [[a r]|l| |]; cbn [bind outcome_ok] in *; try exact Hp.
    specialize (Hd a r eq_refl). apply (outcome_ok_le pn fl (List.length r)); [lia|].
    apply (Hf a (List.length r)); lia.
  Qed.

  Lemma bind_safe {A C} (p : bytes -> res (A * bytes)) (f : A -> bytes -> res (C * bytes)) :
    safe pn fl n p -> (forall a, safe pn fl n (f a)) -> safe pn fl n (fun bs => do '(a, r) <- p bs; f a r).
  Proof.
    intros Hp Hf bs Hbs. specialize (Hp bs Hbs).
    destruct (p bs) as [[a r]|l| |]; cbn [bind outcome_ok] in *; try exact Hp.
    apply (outcome_ok_le pn fl (List.length r)); [exact Hp|]. apply Hf. lia.
  Qed.

  Lemma ret_safe {A} (v : A) : safe pn fl n (fun bs => ROk (v, bs)).
  Proof. intros bs _. exact (le_n _). Qed.

  Lemma err_safe {A} : safe pn fl n (fun bs => @RErr (A * bytes) bs).
  Proof. intros bs _. exact (le_n _). Qed.

  Lemma map_safe {A C} (p : bytes -> res (A * bytes)) (g : A -> C) :
    safe pn fl n p -> safe pn fl n (fun bs => do '(a, r) <- p bs; ROk (g a, r)).
  Proof. intro Hp. apply bind_safe; [exact Hp|]. intro a. apply ret_safe. Qed.

  Lemma take_n_safe w : safe pn fl n (take_n w).
  Proof.
    intros bs _. unfold take_n. destruct (Nat.ltb (List.length bs) w); cbn [outcome_ok List.length];
      [|rewrite skipn_length]; lia.
  Qed.

  Lemma read_num_safe w : safe pn fl n (read_num w).
  Proof. apply map_safe, take_n_safe. Qed.

  Lemma read_str_safe : safe pn fl n read_str.
  Proof.
    apply bind_safe; [apply read_num_safe|]. intro k.
    destruct (k =? 0)%N; [apply ret_safe|]. destruct (MaxStringSize <? k)%N; [apply err_safe|apply take_n_safe].
  Qed.

  Lemma string_reader_safe c : safe pn fl n (string_reader c).
  Proof.
    intros bs Hbs. unfold string_reader. pose proof (read_str_safe bs Hbs) as H.
    destruct (read_str bs) as [[s r]|l| |]; [exact H| |exact H..].
    destruct (string_reader_drops_err c); exact H.
  Qed.

  Lemma seq_with_safe {A} (ps : list (bytes -> res (A * bytes))) :
    Forall (safe pn fl n) ps -> safe pn fl n (seq_with ps).
  Proof.
    induction 1 as [|p ps Hp _ IH]; [apply ret_safe|].
    apply (bind_safe p (fun x bs => do '(xs, r) <- seq_with ps bs; ROk (x :: xs, r))); [exact Hp|].
    intro x. apply map_safe, IH.
  Qed.

  Lemma pair_with_safe {A C} (pk : bytes -> res (A * bytes)) (pv : bytes -> res (C * bytes)) :
    safe pn fl n pk -> safe pn fl n pv -> safe pn fl n (pair_with pk pv).
  Proof.
    intros Hk Hv. apply (bind_safe pk (fun k b => do '(v, r) <- pv b; ROk ((k, v), r))); [exact Hk|].
    intro k. apply map_safe, Hv.
  Qed.

  Lemma rep_nat_safe {A} (p : bytes -> res (A * bytes)) k : safe pn fl n p -> safe pn fl n (rep_nat p k).
  Proof.
    intro Hp. induction k as [|k IH]; [apply ret_safe|].
    apply (bind_safe p (fun x bs => do '(xs, r) <- rep_nat p k bs; ROk (x :: xs, r))); [exact Hp|].
    intro x. apply map_safe, IH.
  Qed.

  (* every recursive call of the bounded loop is on a strictly shorter input *)
  Lemma rep_slow_safe {A} (p : bytes -> res (A * bytes)) : safe pn fl n p ->
    forall fuel k bs acc, List.length bs <= n -> List.length bs < fuel ->
    outcome_ok pn fl (List.length bs) (rep_slow p fuel k bs acc).
  Proof.
    intros Hp fuel. induction fuel as [|f IH]; intros k bs acc Hbs Hf; [lia|].
    cbn [rep_slow]. destruct (k =? 0)%N; [exact (le_n _)|].
    pose proof (Hp bs Hbs) as Hx. destruct (p bs) as [[d r]|l| |]; cbn [outcome_ok] in Hx |- *; try exact Hx.
    destruct (Nat.ltb_spec (List.length r) (List.length bs)) as [Hlt|_]; [|exact Hx].
    apply (outcome_ok_le pn fl (List.length r)); [lia|]. apply IH; lia.
  Qed.

  Lemma rep_safe {A} (p : bytes -> res (A * bytes)) k : safe pn fl n p -> safe pn fl n (rep p k).
  Proof.
    intros Hp bs Hbs. unfold rep. destruct (N.of_nat (List.length bs) <? k)%N.
    - apply rep_slow_safe; [exact Hp|exact Hbs|lia].
    - apply rep_nat_safe; assumption.
  Qed.

  Lemma counted_safe {C} (K : N -> bytes -> res (C * bytes)) :
    (forall k, safe pn fl n (K k)) -> safe pn fl n (fun bs => do '(k, r) <- read_num 4 bs; K k r).
  Proof. intro HK. apply bind_safe; [apply read_num_safe|exact HK]. Qed.
End Safe.

(* no dynamic value anywhere in the type ("o" is allowed: its structure holds no "m") *)
Fixpoint plain_m (t : ty) : bool :=
  match t with
  | TS SValue => false
  | TS _ => true
  | TList t' => plain_m t'
  | TMap k v => plain_m k && plain_m v
  | TTuple ts => forallb plain_m ts
  | TStruct _ fs => forallb (fun f => plain_m (snd f)) fs
  end.

Section Bodies.
  Variable c : wcfg.
  Variables pn fl : bool.
  Variable n : nat.

  Section Sig.
    Variable dyn obj : bytes -> res (bytes * bytes).
    Hypothesis Hdyn : safe pn fl n dyn.
    Hypothesis Hobj : safe pn fl n obj.

    Lemma sig_body_safe : forall t, safe pn fl n (sig_body c dyn obj t).
    Proof.
      induction t as [s|t' IH|tk tv IHk IHv|ts IH|nm fs IH] using ty_ind2; cbn [sig_body]; unfold cat_res.
      - destruct s; cbn [scalar_width];
          first [apply take_n_safe|apply string_reader_safe|exact Hdyn|exact Hobj|apply ret_safe|apply err_safe].
      - apply counted_safe. intro k. apply map_safe, map_safe, rep_safe, IH.
      - apply counted_safe. intro k. apply map_safe, map_safe, rep_safe, map_safe, pair_with_safe; assumption.
      - apply map_safe, seq_with_safe, Forall_map, IH.
      - apply map_safe, seq_with_safe, Forall_map, IH.
    Qed.
  End Sig.

  Section Spec.
    Variable dyn obj : bytes -> res (tval * bytes).
    Hypothesis Hobj : safe pn fl n obj.

    (* the "m" handler only matters for types that hold an "m" *)
    Lemma spec_body_safe_gen : forall t,
      plain_m t = true \/ safe pn fl n dyn -> safe pn fl n (spec_body dyn obj t).
    Proof.
      induction t as [s|t' IH|tk tv IHk IHv|ts IH|nm fs IH] using ty_ind2; intro Hd; cbn [spec_body plain_m] in *.
      - destruct s; cbn [scalar_width];
          first [apply map_safe, read_num_safe|apply map_safe, read_str_safe|exact Hobj
                |apply ret_safe|apply err_safe|idtac].
        destruct Hd as [Hd|Hd]; [discriminate Hd|exact Hd].
      - apply counted_safe. intro k. apply map_safe, rep_safe, IH, Hd.
      - apply counted_safe. intro k. apply map_safe, rep_safe, pair_with_safe; [apply IHk|apply IHv];
          (destruct Hd as [Hd|Hd]; [left; apply andb_true_iff in Hd; apply Hd|right; exact Hd]).
      - apply map_safe, seq_with_safe, Forall_map. rewrite Forall_forall in *. intros t Hin. apply (IH t Hin).
        destruct Hd as [Hd|Hd]; [left; exact (proj1 (forallb_forall _ _) Hd t Hin)|right; exact Hd].
      - apply map_safe, seq_with_safe, Forall_map. rewrite Forall_forall in *. intros fd Hin. apply (IH fd Hin).
        destruct Hd as [Hd|Hd]; [left; exact (proj1 (forallb_forall _ _) Hd fd Hin)|right; exact Hd].
    Qed.

    Lemma spec_body_safe : safe pn fl n dyn -> forall t, safe pn fl n (spec_body dyn obj t).
    Proof. intros Hdyn t. apply spec_body_safe_gen. right; exact Hdyn. Qed.
  End Spec.

  Section Refl.
    Variable eqb : tval -> tval -> bool.
    (* the only panic of the model: a negative list length reaching SetLen *)
    Hypothesis Hneg : refl_neg_len_panics c = false \/ pn = true.

    (* with the defect a field error leaves what the failed read left, and reading goes on *)
    Lemma fields_with_safe : forall (ps : list ((bytes -> res (tval * bytes)) * tval)),
      Forall (fun pz => safe pn fl n (fst pz)) ps -> safe pn fl n (fields_with c ps).
    Proof.
      intros ps HF. induction HF as [|[p z] ps' Hp HF' IH]; [apply ret_safe|].
      intros bs Hbs. cbn [fields_with]. pose proof (Hp bs Hbs) as Hx. cbn [fst] in Hx.
      pose proof (fun x => map_safe pn fl n _ (cons x) IH) as Hgo.
      destruct (p bs) as [[x r]|l| |]; cbn [outcome_ok] in Hx; try exact Hx.
      - apply (outcome_ok_le pn fl (List.length r)); [exact Hx|]. apply (Hgo x). lia.
      - destruct (refl_struct_ignores_err c); [|exact Hx].
        apply (outcome_ok_le pn fl (List.length l)); [exact Hx|]. apply (Hgo z). lia.
    Qed.

    Section Body.
      Variable obj : bytes -> res (tval * bytes).
      Hypothesis Hobj : safe pn fl n obj.

      Lemma refl_body_safe : forall t, safe pn fl n (refl_body c eqb obj t).
      Proof.
        induction t as [s|t' IH|tk tv IHk IHv|ts IH|nm fs IH] using ty_ind2; cbn [refl_body].
        - destruct s; cbn [scalar_width]; try destruct (refl_drop8 c);
            first [apply map_safe, read_num_safe|apply map_safe, read_str_safe|exact Hobj
                  |apply ret_safe|apply err_safe].
        - apply counted_safe. intro k. cbv zeta.
          destruct (Z.of_N listValueMaxSize <? as_int32 k)%Z; [apply err_safe|].
          destruct (as_int32 k <? 0)%Z; [|apply map_safe, rep_safe, IH].
          destruct (refl_neg_len_panics c); [|apply err_safe].
          destruct Hneg as [Hc|Hp]; [discriminate Hc|]. intros bs _. exact Hp.
        - apply counted_safe. intro k. cbv zeta.
          destruct (Z.of_N listValueMaxSize <? as_int32 k)%Z; [apply err_safe|].
          destruct (as_int32 k <? 0)%Z; [apply ret_safe|].
          apply map_safe, rep_safe, pair_with_safe; assumption.
        - apply map_safe, fields_with_safe, Forall_map, IH.
        - apply map_safe, fields_with_safe, Forall_map, IH.
      Qed.
    End Body.

    Lemma refl_dec_safe : forall t, safe pn fl n (refl_dec c eqb t).
    Proof. intro t. apply refl_body_safe, refl_body_safe, err_safe. Qed.
  End Refl.
End Bodies.

Lemma read_str_inv : forall bs s r, read_str bs = ROk (s, r) -> List.length r + 4 <= List.length bs.
Proof.
  intros bs s r H. unfold read_str, read_num, take_n in H.
  destruct (Nat.ltb_spec (List.length bs) 4) as [|Hge]; [discriminate|].
  pose proof (skipn_length 4 bs) as Hsk. set (r0 := skipn 4 bs) in *. cbn [bind] in H.
  destruct (_ =? 0)%N; [injection H as _ <-; lia|].
  destruct (_ <? _)%N; [discriminate|]. destruct (Nat.ltb _ _); [discriminate|].
  injection H as _ <-. rewrite skipn_length. lia.
Qed.

Section Fuelled.
  Variable parse : string -> option ty.
  Variable c : wcfg.

  Lemma spec_obj_safe : forall pn fl n, safe pn fl n spec_obj.
  Proof. intros pn fl n. unfold spec_obj. apply spec_body_safe; apply err_safe. Qed.

  Lemma sig_obj_safe : forall pn fl n, safe pn fl n (sig_obj c).
  Proof. intros pn fl n. unfold sig_obj. apply sig_body_safe; apply err_safe. Qed.

  Lemma out_of_fuel_safe {A} fl n : (fl = false -> n < 0) -> safe false fl n (@out_of_fuel A).
  Proof. intros Hf bs _. destruct fl; [reflexivity|]. specialize (Hf eq_refl). lia. Qed.

  Lemma dyn_safe {A C} fl n (rec : ty -> bytes -> res (A * bytes)) (g : bytes -> ty -> A -> C) :
    (forall t' m, m + 4 <= n -> safe false fl m (rec t')) ->
    safe false fl n (fun bs => do '(sg, r) <- read_str bs;
                               match parse (string_of_bytes sg) with
                               | None => RErr r
                               | Some t' => do '(v, r') <- rec t' r; ROk (g sg t' v, r')
                               end).
  Proof.
    intro Hrec. apply (bind_safe_after false fl n 4 read_str); [apply read_str_safe|exact read_str_inv|].
    intros sg m Hm. destruct (parse _) as [t'|]; [|apply err_safe]. apply map_safe, Hrec, Hm.
  Qed.

  (* never a panic; never out of fuel on inputs shorter than the fuel: each level of dynamic
     value takes the four bytes of its signature length before it recurses *)
  Lemma spec_dec_safe : forall fl fuel n t,
    (fl = false -> n < fuel) -> safe false fl n (spec_dec parse fuel t).
  Proof.
    intros fl fuel. induction fuel as [|f IH]; intros n t Hf.
    - rewrite (spec_dec_unfold parse 0). apply spec_body_safe; [apply spec_obj_safe|].
      exact (out_of_fuel_safe fl n Hf).
    - rewrite (spec_dec_unfold parse (S f)). apply spec_body_safe; [apply spec_obj_safe|].
      apply (dyn_safe fl n (spec_dec parse f) (fun _ => VDyn)). intros t' m Hm. apply IH.
      intro Hfl. specialize (Hf Hfl). lia.
  Qed.

  Lemma sig_read_safe : forall fl fuel n t,
    (fl = false -> n < fuel) -> safe false fl n (sig_read parse c fuel t).
  Proof.
    intros fl fuel. induction fuel as [|f IH]; intros n t Hf.
    - rewrite (sig_read_unfold parse c 0). apply sig_body_safe; [|apply sig_obj_safe].
      exact (out_of_fuel_safe fl n Hf).
    - rewrite (sig_read_unfold parse c (S f)). apply sig_body_safe; [|apply sig_obj_safe].
      apply (dyn_safe fl n (sig_read parse c f)
               (fun sg _ d => (if value_reader_no_len c then sg else enc_str sg) ++ d)).
      intros t' m Hm. apply IH. intro Hfl. specialize (Hf Hfl). lia.
  Qed.

  Lemma dec_dval_safe : forall fl fuel n,
    (fl = false -> n < fuel) -> safe false fl n (dec_dval parse c fuel).
  Proof.
    intros fl fuel. induction fuel as [|f IH]; intros n Hf; [exact (out_of_fuel_safe fl n Hf)|].
    cbn [dec_dval]. apply (bind_safe_after false fl n 4 read_str); [apply read_str_safe|exact read_str_inv|].
    intros sg m Hm.
    assert (Hrec : safe false fl m (dec_dval parse c f)) by (apply IH; intro Hfl; specialize (Hf Hfl); lia).
    destruct (lookup _ _) as [k| | | | | |].
    - destruct k; apply map_safe, read_num_safe.
    - apply map_safe, read_str_safe.
    - apply counted_safe. intro k. destruct (_ <? _)%N; [apply err_safe|apply map_safe, rep_safe, Hrec].
    - apply counted_safe. intro k. destruct (_ <? _)%N; [apply err_safe|apply map_safe, take_n_safe].
    - apply ret_safe.
    - exact Hrec.
    - cbv zeta. destruct (parse _) as [t|]; [|apply err_safe]. apply map_safe.
      intros bs _. apply (sig_read_safe fl (S (List.length bs)) (List.length bs)); lia.
  Qed.

  Lemma new_value_safe : forall n, safe false false n (new_value parse c).
  Proof. intros n bs _. apply (dec_dval_safe false (S (List.length bs)) (List.length bs)); lia. Qed.

  Lemma dec_capmap_safe : forall n, safe false false n (dec_capmap parse c).
  Proof.
    intro n. apply counted_safe. intro k. destruct (_ <? _)%N; [apply err_safe|].
    apply rep_safe, pair_with_safe; [apply read_str_safe|apply new_value_safe].
  Qed.
End Fuelled.

Lemma safe_no_panic : forall {A} fl (p : bytes -> res (A * bytes)) bs,
  safe false fl (List.length bs) p -> p bs <> RPanic.
Proof. intros A fl p bs Hp Heq. specialize (Hp bs (le_n _)). rewrite Heq in Hp. discriminate Hp. Qed.

Lemma safe_no_fuel : forall {A} pn (p : bytes -> res (A * bytes)) bs,
  safe pn false (List.length bs) p -> p bs <> RFuel.
Proof. intros A pn p bs Hp Heq. specialize (Hp bs (le_n _)). rewrite Heq in Hp. discriminate Hp. Qed.

Lemma safe_ok_len : forall {A} pn fl (p : bytes -> res (A * bytes)) bs a r,
  safe pn fl (List.length bs) p -> p bs = ROk (a, r) -> List.length r <= List.length bs.
Proof. intros A pn fl p bs a r Hp Heq. specialize (Hp bs (le_n _)). rewrite Heq in Hp. exact Hp. Qed.

Lemma safe_err_len : forall {A} pn fl (p : bytes -> res (A * bytes)) bs l,
  safe pn fl (List.length bs) p -> p bs = RErr l -> List.length l <= List.length bs.
Proof. intros A pn fl p bs l Hp Heq. specialize (Hp bs (le_n _)). rewrite Heq in Hp. exact Hp. Qed.

Section T.
  Variable parse : string -> option ty.   (* arbitrary: no hypothesis on the parser is needed *)
  Variable c : wcfg.

  Lemma sig_read_ok_len : forall fuel t bs d r,
    sig_read parse c fuel t bs = ROk (d, r) -> List.length r <= List.length bs.
  Proof.
    intros fuel t bs d r. apply (safe_ok_len false true). apply sig_read_safe. discriminate.
  Qed.
  Lemma sig_read_err_len : forall fuel t bs l,
    sig_read parse c fuel t bs = RErr l -> List.length l <= List.length bs.
  Proof.
    intros fuel t bs l. apply (safe_err_len false true). apply sig_read_safe. discriminate.
  Qed.
  Lemma spec_dec_ok_len : forall fuel t bs v r,
    spec_dec parse fuel t bs = ROk (v, r) -> List.length r <= List.length bs.
  Proof.
    intros fuel t bs v r. apply (safe_ok_len false true). apply spec_dec_safe. discriminate.
  Qed.
  Lemma spec_dec_err_len : forall fuel t bs l,
    spec_dec parse fuel t bs = RErr l -> List.length l <= List.length bs.
  Proof.
    intros fuel t bs l. apply (safe_err_len false true). apply spec_dec_safe. discriminate.
  Qed.
  Lemma refl_dec_ok_len : forall eqb t bs v r,
    refl_dec c eqb t bs = ROk (v, r) -> List.length r <= List.length bs.
  Proof.
    intros eqb t bs v r. apply (safe_ok_len true true). apply refl_dec_safe. right; reflexivity.
  Qed.
  Lemma refl_dec_err_len : forall eqb t bs l,
    refl_dec c eqb t bs = RErr l -> List.length l <= List.length bs.
  Proof.
    intros eqb t bs l. apply (safe_err_len true true). apply refl_dec_safe. right; reflexivity.
  Qed.
  Lemma dec_dval_ok_len : forall fuel bs v r,
    dec_dval parse c fuel bs = ROk (v, r) -> List.length r <= List.length bs.
  Proof.
    intros fuel bs v r. apply (safe_ok_len false true). apply dec_dval_safe. discriminate.
  Qed.
  Lemma dec_dval_err_len : forall fuel bs l,
    dec_dval parse c fuel bs = RErr l -> List.length l <= List.length bs.
  Proof.
    intros fuel bs l. apply (safe_err_len false true). apply dec_dval_safe. discriminate.
  Qed.
  Lemma dec_capmap_ok_len : forall bs m r,
    dec_capmap parse c bs = ROk (m, r) -> List.length r <= List.length bs.
  Proof.
    intros bs m r. apply (safe_ok_len false false). apply dec_capmap_safe.
  Qed.
  Lemma dec_capmap_err_len : forall bs l,
    dec_capmap parse c bs = RErr l -> List.length l <= List.length bs.
  Proof.
    intros bs l. apply (safe_err_len false false). apply dec_capmap_safe.
  Qed.

  Theorem sig_read_no_panic : forall fuel t bs, sig_read parse c fuel t bs <> RPanic.
  Proof.
    intros fuel t bs. apply (safe_no_panic true). apply sig_read_safe. discriminate.
  Qed.
  Theorem spec_dec_no_panic : forall fuel t bs, spec_dec parse fuel t bs <> RPanic.
  Proof.
    intros fuel t bs. apply (safe_no_panic true). apply spec_dec_safe. discriminate.
  Qed.
  Theorem refl_dec_no_panic :
    refl_neg_len_panics c = false -> forall t bs, refl_dec c tval_eqb t bs <> RPanic.
  Proof.
    intros Hc t bs. apply (safe_no_panic true). apply refl_dec_safe. left; exact Hc.
  Qed.
  Theorem new_value_no_panic : forall bs, new_value parse c bs <> RPanic.
  Proof.
    intro bs. apply (safe_no_panic false). apply new_value_safe.
  Qed.
  Theorem dec_capmap_no_panic : forall bs, dec_capmap parse c bs <> RPanic.
  Proof.
    intro bs. apply (safe_no_panic false). apply dec_capmap_safe.
  Qed.

  Theorem refl_dec_total : forall t bs, refl_dec c tval_eqb t bs <> RFuel.
  Proof.
    intros t bs. apply (safe_no_fuel true). apply refl_dec_safe. right; reflexivity.
  Qed.
  Theorem sig_read_total : forall t bs, sig_read parse c (S (List.length bs)) t bs <> RFuel.
  Proof.
    intros t bs. apply (safe_no_fuel false). apply sig_read_safe. intros _. lia.
  Qed.
  Theorem spec_dec_total : forall t bs, spec_dec parse (S (List.length bs)) t bs <> RFuel.
  Proof.
    intros t bs. apply (safe_no_fuel false). apply spec_dec_safe. intros _. lia.
  Qed.
  Theorem new_value_total : forall bs, new_value parse c bs <> RFuel.
  Proof.
    intro bs. apply (safe_no_fuel false). apply new_value_safe.
  Qed.
  Theorem dec_capmap_total : forall bs, dec_capmap parse c bs <> RFuel.
  Proof.
    intro bs. apply (safe_no_fuel false). apply dec_capmap_safe.
  Qed.

  (* generated decoders run spec_dec without fuel: total on the types they are generated for *)
  Theorem gen_dec_total : forall t bs, plain_m t = true -> gen_dec parse t bs <> RFuel.
  Proof.
    intros t bs Hpl. unfold gen_dec. rewrite spec_dec_unfold.
    apply (safe_no_fuel false). apply spec_body_safe_gen; [apply spec_obj_safe|left; exact Hpl].
  Qed.
  Theorem gen_dec_no_panic : forall t bs, gen_dec parse t bs <> RPanic.
  Proof. intros t bs. apply spec_dec_no_panic. Qed.
  (* the statement of design/TOTAL_THEOREMS.md, as written there (vacuous) *)
  Theorem gen_dec_total_weak : forall t bs, gen_dec parse t bs <> RFuel \/ True.
  Proof. intros t bs. right. exact I. Qed.
End T.

(* without the premise: a generated decoder for a type holding "m" is out of fuel at once *)
Example gen_dec_m_fuel : forall parse bs, gen_dec parse (TS SValue) bs = RFuel.
Proof. intros parse bs. reflexivity. Qed.

(* the premise of refl_dec_no_panic is needed: length -1 with the defect on *)
Example refl_dec_neg_len_panics :
  refl_dec wpinned tval_eqb (TList (TS SU8)) [xff; xff; xff; xff] = RPanic.
Proof. vm_compute. reflexivity. Qed.

Print Assumptions read_msg_total.
Print Assumptions sig_read_no_panic.
Print Assumptions spec_dec_no_panic.
Print Assumptions refl_dec_no_panic.
Print Assumptions new_value_no_panic.
Print Assumptions dec_capmap_no_panic.
Print Assumptions sig_read_total.
Print Assumptions spec_dec_total.
Print Assumptions refl_dec_total.
Print Assumptions new_value_total.
Print Assumptions dec_capmap_total.
Print Assumptions gen_dec_total.
Print Assumptions gen_dec_no_panic.
Print Assumptions sig_read_ok_len.
Print Assumptions sig_read_err_len.
Print Assumptions spec_dec_ok_len.
Print Assumptions spec_dec_err_len.
Print Assumptions refl_dec_ok_len.
Print Assumptions refl_dec_err_len.
Print Assumptions dec_dval_ok_len.
Print Assumptions dec_dval_err_len.
Print Assumptions dec_capmap_ok_len.
Print Assumptions dec_capmap_err_len.
