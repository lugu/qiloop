(* ValueProofs.v — dynamic values (type/value/value.go): NewValue consumes exactly what Write wrote,
   for every well-formed value, reads it back with value_reader_no_len off and refuses every proper prefix
   with string_reader_drops_err off (statements: design/WIRE_THEOREMS.md, under "File ReflProofs.v" and
   "File PrefixProofs.v"; properties C02, C08). *)

From QV Require Import Value WireLemmas WireProofs PrefixLemmas.
Local Open Scope N_scope.

Inductive wf_dval : dval -> Prop :=
| wf_num  : forall k b, b < 2 ^ (8 * N.of_nat (dkind_width k)) -> (k = KBool -> b <= 1) -> wf_dval (DNum k b)
| wf_str  : forall s, N.of_nat (List.length s) <= MaxStringSize -> wf_dval (DStr s)
| wf_list : forall l, N.of_nat (List.length l) <= listValueMaxSize -> Forall wf_dval l -> wf_dval (DList l)
| wf_raw  : forall b, N.of_nat (List.length b) <= rawValueMaxSize -> wf_dval (DRaw b)
| wf_void : wf_dval DVoid
| wf_opq  : forall t v, wf_ty t = true -> lookup (print t) dispatch_table = DOther -> print t <> "o"%string ->
            N.of_nat (String.length (print t)) <= MaxStringSize -> has_ty v t = true ->
            wf_dval (DOpaque (bytes_of_string (print t)) (spec_enc v)).

Lemma wf_dval_inv : forall v, wf_dval v ->
  match v with
  | DNum k b => b < 2 ^ (8 * N.of_nat (dkind_width k)) /\ (k = KBool -> b <= 1)
  | DStr s => N.of_nat (List.length s) <= MaxStringSize
  | DList l => N.of_nat (List.length l) <= listValueMaxSize /\ Forall wf_dval l
  | DRaw b => N.of_nat (List.length b) <= rawValueMaxSize
  | DVoid => True
  | DOpaque sg d => exists t v0, sg = bytes_of_string (print t) /\ d = spec_enc v0 /\
      wf_ty t = true /\ lookup (print t) dispatch_table = DOther /\ print t <> "o"%string /\
      N.of_nat (String.length (print t)) <= MaxStringSize /\ has_ty v0 t = true
  end.
Proof.
  intros v H. destruct H as [k b Hb Hk|s Hs|l Hn Hall|b Hn| |t v0 Hg Hl Hno Hs Hty]; auto.
  exists t, v0. repeat split; assumption.
Qed.

Lemma sig_bytes_length : forall s, List.length (sig_bytes s) = (4 + String.length s)%nat.
Proof. intro s. unfold sig_bytes. now rewrite enc_str_length, length_bytes_of_string. Qed.

Lemma enc_dval_length_ge : forall v, (4 <= List.length (enc_dval v))%nat.
Proof.
  intro v. destruct v as [k b|s|l|b| |sg d]; cbn [enc_dval];
    rewrite ?app_length, ?sig_bytes_length, ?enc_str_length; lia.
Qed.

Lemma read_sig : forall s rest, N.of_nat (String.length s) <= MaxStringSize ->
  read_str (sig_bytes s ++ rest) = ROk (bytes_of_string s, rest).
Proof.
  intros s rest Hs. unfold sig_bytes. apply read_str_enc. now rewrite length_bytes_of_string.
Qed.

Lemma short_sig s :
  (String.length s <= 3)%nat -> N.of_nat (List.length (bytes_of_string s)) <= MaxStringSize.
Proof. intro Hs. rewrite length_bytes_of_string. unfold MaxStringSize. lia. Qed.

Section P.
  Variable parse : string -> option ty.
  Hypothesis parse_print : forall t, wf_ty t = true -> parse (print t) = Some t.
  Variable c : wcfg.

  (* what NewValue does once the signature string is read *)
  Definition dval_body (f : nat) (sg r : bytes) : res (dval * bytes) :=
    match lookup (string_of_bytes sg) dispatch_table with
    | DKind KBool => do '(n, r') <- read_num 1 r; ROk (DNum KBool (if (n =? 0)%N then 0%N else 1%N), r')
    | DKind k => do '(n, r') <- read_num (dkind_width k) r; ROk (DNum k n, r')
    | DString => do '(s, r') <- read_str r; ROk (DStr s, r')
    | DListM =>
        do '(n, r') <- read_num 4 r;
        if (listValueMaxSize <? n)%N then RErr r'
        else do '(l, r'') <- rep (dec_dval parse c f) n r'; ROk (DList l, r'')
    | DRawD =>
        do '(n, r') <- read_num 4 r;
        if (rawValueMaxSize <? n)%N then RErr r'
        else do '(b, r'') <- take_n (N.to_nat n) r'; ROk (DRaw b, r'')
    | DVoidD => ROk (DVoid, r)
    | DNested => dec_dval parse c f r
    | DOther =>
        let sg' := if String.eqb (string_of_bytes sg) "o" then bytes_of_string (print ty_ObjectReference) else sg in
        match parse (string_of_bytes sg') with
        | None => RErr r
        | Some t => do '(d, r') <- sig_read parse c (S (List.length r)) t r; ROk (DOpaque sg' d, r')
        end
    end.

  Lemma dec_dval_S f bs :
    dec_dval parse c (S f) bs = (do '(sg, r) <- read_str bs; dval_body f sg r).
  Proof. reflexivity. Qed.

  Lemma dval_body_num f k r :
    dval_body f (bytes_of_string (dkind_letter k)) r =
    (do '(n, r') <- read_num (dkind_width k) r;
     ROk (DNum k (match k with KBool => if (n =? 0)%N then 0%N else 1%N | _ => n end), r')).
  Proof. unfold dval_body. rewrite string_of_bytes_of_string. destruct k; reflexivity. Qed.

  Lemma dval_body_list f r :
    dval_body f (bytes_of_string "[m]") r =
    (do '(n, r') <- read_num 4 r;
     if (listValueMaxSize <? n)%N then RErr r'
     else do '(l, r'') <- rep (dec_dval parse c f) n r'; ROk (DList l, r'')).
  Proof. reflexivity. Qed.

  Lemma dval_body_raw f r :
    dval_body f (bytes_of_string "r") r =
    (do '(n, r') <- read_num 4 r;
     if (rawValueMaxSize <? n)%N then RErr r'
     else do '(b, r'') <- take_n (N.to_nat n) r'; ROk (DRaw b, r'')).
  Proof. reflexivity. Qed.

  Lemma dval_body_other f t r :
    lookup (print t) dispatch_table = DOther -> print t <> "o"%string -> wf_ty t = true ->
    dval_body f (bytes_of_string (print t)) r =
    (do '(d, r') <- sig_read parse c (S (List.length r)) t r;
     ROk (DOpaque (bytes_of_string (print t)) d, r')).
  Proof.
    intros Hlk Hno Hwf. unfold dval_body. rewrite string_of_bytes_of_string, Hlk.
    replace (String.eqb (print t) "o") with false by (symmetry; apply String.eqb_neq; exact Hno).
    rewrite string_of_bytes_of_string, (parse_print t Hwf). reflexivity.
  Qed.

  Lemma dec_dval_sig f s r : N.of_nat (String.length s) <= MaxStringSize ->
    dec_dval parse c (S f) (sig_bytes s ++ r) = dval_body f (bytes_of_string s) r.
  Proof. intro Hs. now rewrite dec_dval_S, read_sig. Qed.

  (* NewValue on what Write wrote for a list: the count is tested against listValueMaxSize
     before any member is read *)
  Lemma dec_dval_list : forall f l rest, N.of_nat (List.length l) < 2 ^ 32 ->
    dec_dval parse c (S f) (enc_dval (DList l) ++ rest) =
    if listValueMaxSize <? N.of_nat (List.length l) then RErr (flat_map enc_dval l ++ rest)
    else do '(l', r) <- rep (dec_dval parse c f) (N.of_nat (List.length l)) (flat_map enc_dval l ++ rest);
         ROk (DList l', r).
  Proof.
    intros f l rest Hn. cbn [enc_dval].
    now rewrite <- !app_assoc, dec_dval_sig, dval_body_list, read_num_le by (exact Hn || now apply N.leb_le).
  Qed.

  (* fuel at least the bound on the input length is enough: every level of nesting
     consumes its signature *)
  Lemma dec_dval_reads : forall v, wf_dval v -> forall f B, (B <= f)%nat ->
    reads (string_reader_drops_err c = false) B (dec_dval parse c f) (given (value_reader_no_len c = false) v) (enc_dval v).
  Proof.
    induction v as [k b|s|l IH|b| |sg d] using dval_ind2; intros Hwf f B HBf;
      (destruct f as [|f]; [replace B with 0%nat by lia; apply reads_0|]);
      apply (reads_ext (dec_dval_S f)); cbn [enc_dval]; unfold sig_bytes.
    - apply wf_dval_inv in Hwf as [Hb Hbool].
      apply reads_str; [apply short_sig; destruct k; repeat constructor|].
      apply (reads_ext (dval_body_num f k)).
      apply (reads_map (eq b)); [exact (read_num_reads Hb)|]. intros n <- _.
      destruct k; try reflexivity. specialize (Hbool eq_refl).
      now replace (if b =? 0 then 0 else 1)%N with b by (destruct (N.eqb_spec b 0); lia).
    - apply wf_dval_inv in Hwf.
      apply reads_str; [apply short_sig; repeat constructor|].
      exact (reads_if (reads_val (read_str_reads Hwf))).
    - apply wf_dval_inv in Hwf as [Hlen HF].
      apply reads_str; [apply short_sig; repeat constructor|].
      apply (reads_ext (dval_body_list f)).
      apply reads_u32; [exact (N.le_lt_trans _ _ (2 ^ 32)%N Hlen eq_refl)|].
      rewrite (proj2 (N.ltb_ge _ _) Hlen).
      apply (reads_map (Forall2 (given (value_reader_no_len c = false)) l)).
      + apply rep_reads.
        * rewrite Forall_forall in *. intros x Hin. apply (IH x Hin (HF x Hin)). lia.
        * left. apply Forall_map, Forall_forall. intros x _. pose proof (enc_dval_length_ge x). lia.
      + intros ys Hys Hc. f_equal.
        apply (Forall2_given_id (fun _ => value_reader_no_len c = false) l ys Hys), Forall_forall. auto.
    - apply wf_dval_inv in Hwf.
      apply reads_str; [apply short_sig; repeat constructor|].
      apply (reads_ext (dval_body_raw f)).
      apply reads_u32; [exact (N.le_lt_trans _ _ (2 ^ 32)%N Hwf eq_refl)|].
      rewrite (proj2 (N.ltb_ge _ _) Hwf), Nat2N.id.
      exact (reads_if (reads_val (take_n_reads (e := b) eq_refl))).
    - rewrite <- (app_nil_r (enc_str _)).
      apply reads_str; [apply short_sig; repeat constructor|]. now apply reads_ret.
    - apply wf_dval_inv in Hwf as (t & v & -> & -> & Hg & Hlk & Hno & Hlen & Hty).
      apply reads_str; [rewrite length_bytes_of_string; exact Hlen|].
      apply (reads_ext (fun r => dval_body_other f t r Hlk Hno Hg)).
      apply (reads_map (given (value_reader_no_len c = false) (spec_enc v)));
        [|intros d' Hx Hc; now rewrite (Hx Hc)].
      apply (reads_by_length (fun fuel => sig_read parse c fuel t)). intros fuel B' Hle.
      rewrite (sig_read_unfold parse c fuel).
      exact (sig_read_reads parse parse_print c v t Hty fuel B' (Nat.le_trans _ _ _ (Nat.le_min_r _ _) Hle)).
  Qed.

  Theorem value_roundtrip : forall v rest, value_reader_no_len c = false -> wf_dval v ->
    new_value parse c (enc_dval v ++ rest) = ROk (v, rest).
  Proof.
    intros v rest Hvr Hwf. revert rest.
    exact (reads_given (reads_by_length (dec_dval parse c) (dec_dval_reads v Hwf)) Hvr).
  Qed.

  Lemma new_value_long_list : forall l, listValueMaxSize < N.of_nat (List.length l) < 2 ^ 32 ->
    new_value parse c (enc_dval (DList l)) = RErr (flat_map enc_dval l).
  Proof.
    intros l [Hlong Hn]. unfold new_value. rewrite <- (app_nil_r (enc_dval _)) at 2.
    now rewrite dec_dval_list, (proj2 (N.ltb_lt _ _) Hlong), app_nil_r.
  Qed.

  (* Write accepts a list longer than listValueMaxSize; NewValue refuses what Write wrote *)
  Example value_unbounded_refuted :
    let v := DList (repeat DVoid 4097) in
    new_value parse c (enc_dval v) = RErr (flat_map enc_dval (repeat DVoid 4097)).
  Proof. apply new_value_long_list. split; vm_compute; reflexivity. Qed.

  (* valueReader without the length prefix: a dynamic value inside opaque data is not copied as it is *)
  Example sig_read_value_refuted : forall c', value_reader_no_len c' = true ->
    let v := VDyn (TS SI32) (VNum 4 5) in
    has_ty v (TS SValue) = true /\
    exists d, sig_read parse c' 1 (TS SValue) (spec_enc v) = ROk (d, []) /\ d <> spec_enc v.
  Proof.
    intros c' Hc'. split; [reflexivity|].
    cbn [sig_read sig_body spec_enc].
    rewrite read_str_enc by (apply N.leb_le; reflexivity). cbn [bind].
    rewrite string_of_bytes_of_string, (parse_print (TS SI32) eq_refl), Hc'.
    eexists. split; [vm_compute; reflexivity|]. vm_compute. discriminate.
  Qed.
End P.

Print Assumptions value_roundtrip.
Print Assumptions value_unbounded_refuted.
Print Assumptions sig_read_value_refuted.
