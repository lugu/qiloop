(* TeardownProofs.v — Teardown.v (C04, calls issued during the loss of the connection): inv_once (a call has returned
   as often as its status says: at most once, either order of closeWith), inv_cf (the order of the source: once a closeWith
   is over nobody waits), the schedule that loses a call under the other order (stuck_without_reader), and fwd /
   scen_ok_source_order (the scenarios of the harness, any number of calls, end with every call returned). *)
From Coq Require Import List Arith Bool Lia.
From QV Require Import ListFacts Teardown.
Import ListNotations.

Lemma exec_keeps : forall (P : st -> Prop) cf, (forall s l, P s -> P (step cf s l)) ->
  forall ls s, P s -> P (exec_from cf s ls).
Proof. intros P cf K. induction ls as [|l r IH]; intros s H; cbn; [exact H | apply IH, K, H]. Qed.

Definition returned (c : cstat) : nat := match c with SDone => 1 | _ => 0 end.
Definition inv_once (s : st) : Prop := forall i, rets s i = returned (stat s i).

Lemma inv_once_init : inv_once init.
Proof. intro i. reflexivity. Qed.

Lemma inv_once_set_call : forall s i c r k, inv_once s -> r = returned c -> inv_once (set_call s i c r k).
Proof. intros s i c r k H Hr j. cbn. destruct (Nat.eq_dec j i) as [->|N]; [rewrite !fset_eq; exact Hr | rewrite !fset_neq by exact N; apply H]. Qed.

Lemma inv_once_empty : forall s, inv_once s -> inv_once (do_empty s).
Proof. intros s H j. cbn. rewrite (H j). destruct (stat s j); reflexivity. Qed.

Lemma inv_once_step : forall cf s l, inv_once s -> inv_once (step cf s l).
Proof.
  intros cf s l H. destruct l as [i|i|i| | |]; cbn.
  - destruct (stat s i) eqn:E; try exact H. apply inv_once_set_call; [exact H | now rewrite (H i), E].
  - destruct (stat s i) as [|hc| |] eqn:E; try exact H.
    unfold ret_err. destruct (open s); [destruct hc|]; apply inv_once_set_call; try exact H; now rewrite (H i), E.
  - destruct (stat s i) eqn:E; try exact H.
    destruct (reader s); [|exact H]. apply inv_once_set_call; [exact H | now rewrite (H i), E].
  - exact H.
  - destruct cf; [exact H | exact (inv_once_empty s H)].
  - destruct (inprog s); [exact H|]. destruct cf; [exact (inv_once_empty s H) | exact H].
Qed.

Definition inv_cf (s : st) : Prop :=
  (inprog s > 0 \/ completed s > 0 -> open s = false) /\
  (completed s > 0 -> forall i, stat s i <> SWait).

Lemma inv_cf_init : inv_cf init.
Proof. split; cbn; intros; lia. Qed.

Lemma inv_cf_set_call : forall s i c r k, inv_cf s -> (completed s > 0 -> c <> SWait) -> inv_cf (set_call s i c r k).
Proof.
  intros s i c r k [Ho Hw] Hc. split; cbn; [exact Ho|]. intros Hp j.
  destruct (Nat.eq_dec j i) as [->|N]; [rewrite fset_eq; now apply Hc | rewrite fset_neq by exact N; now apply Hw].
Qed.

Lemma inv_cf_step : forall s l, inv_cf s -> inv_cf (step true s l).
Proof.
  intros s l H. destruct l as [i|i|i| | |]; cbn.
  - destruct (stat s i); try exact H. apply inv_cf_set_call; [exact H | discriminate].
  - destruct (stat s i) as [|hc| |]; try exact H.
    unfold ret_err. destruct (open s) eqn:Eo; [destruct hc|]; apply inv_cf_set_call; try exact H; try discriminate.
    (* the call starts to wait: the stream accepts the Write, so no closeWith has begun *)
    intros Hc. rewrite (proj1 H (or_intror Hc)) in Eo. discriminate.
  - destruct (stat s i); try exact H. destruct (reader s); [|exact H]. apply inv_cf_set_call; [exact H | discriminate].
  - exact H.
  - split; cbn; [reflexivity | exact (proj2 H)].
  - destruct (inprog s) eqn:Ep; [exact H|]. split; cbn.
    + intros _. apply (proj1 H). left. lia.
    + intros _ j. destruct (stat s j); discriminate.
Qed.

Lemma every_call_returns : forall ls, let s := exec true ls in completed s > 0 ->
  forall i, stat s i <> SWait /\
    (forall b, stat s i = SReg b ->
       stat (step true s (DSend i)) i = SDone /\ rets (step true s (DSend i)) i = 1).
Proof.
  intros ls s Hc i. pose proof (exec_keeps _ _ inv_cf_step ls init inv_cf_init) as [Ho Hw]. fold (exec true ls) in *. fold s in Ho, Hw.
  split; [now apply Hw|]. intros b Hb. cbn. rewrite Hb, (Ho (or_intror Hc)). cbn. rewrite !fset_eq.
  split; [reflexivity|].
  pose proof (exec_keeps _ _ (inv_once_step true) ls init inv_once_init i) as H2. fold (exec true ls) in H2. fold s in H2.
  now rewrite H2, Hb.
Qed.

Lemma stuck_step : forall i s l,
  reader s = false -> inprog s = 0 -> stat s i = SWait -> rets s i = 0 -> l <> DTear1 ->
  reader (step false s l) = false /\ inprog (step false s l) = 0 /\
  stat (step false s l) i = SWait /\ rets (step false s l) i = 0.
Proof.
  intros i s l Hr Hp Hs Hn Hl.
  destruct l as [j|j|j| | |]; cbn; try congruence.
  - destruct (Nat.eq_dec j i) as [->|Hij]; [rewrite Hs; auto|].
    destruct (stat s j); cbn; rewrite ?fset_neq by auto; auto.
  - destruct (Nat.eq_dec j i) as [->|Hij]; [rewrite Hs; auto|].
    destruct (stat s j) as [|hc| |]; cbn; auto.
    unfold ret_err; destruct (open s); [destruct hc|]; cbn; rewrite ?fset_neq by auto; auto.
  - destruct (Nat.eq_dec j i) as [->|Hij]; [rewrite Hs, Hr; auto|].
    destruct (stat s j); cbn; auto. rewrite Hr; auto.
  - auto.
  - rewrite Hp. auto.
Qed.

Lemma stuck_without_reader : forall i ls s,
  reader s = false -> inprog s = 0 -> stat s i = SWait -> rets s i = 0 -> no_tear1 ls = true ->
  stat (exec_from false s ls) i = SWait /\ rets (exec_from false s ls) i = 0.
Proof.
  intros i. induction ls as [|l r IH]; intros s Hr Hp Hs Hn Hl; cbn; [split; assumption|].
  assert (l <> DTear1 /\ no_tear1 r = true) as [Hl1 Hl2] by (destruct l; cbn in Hl; split; congruence).
  destruct (stuck_step i s l Hr Hp Hs Hn Hl1) as (A & B & C & D).
  now apply IH.
Qed.

(* a pending call, the loss, the handlers are released, a second call starts, the stream is closed *)
Definition witness_ls : list label := [DReg 0; DSend 0; DLoss; DTear1; DReg 1; DSend 1; DTear2].

Lemma order_matters :
  let s := exec false witness_ls in
  completed s = 1 /\ inprog s = 0 /\ reader s = false /\ open s = false /\
  stat s 0 = SDone /\ stat s 1 = SWait /\ rets s 1 = 0 /\
  forall ls', no_tear1 ls' = true ->
    stat (exec_from false s ls') 1 = SWait /\ rets (exec_from false s ls') 1 = 0.
Proof.
  cbv zeta. repeat (split; [reflexivity|]).
  intros ls' H. now apply stuck_without_reader.
Qed.

Lemma same_schedule_source_order :
  let s := exec true witness_ls in stat s 0 = SDone /\ rets s 0 = 1 /\ stat s 1 = SDone /\ rets s 1 = 1.
Proof. repeat split. Qed.

Fixpoint all_lists (n : nat) : list (list nat) :=
  match n with
  | 0 => [[]]
  | S k => [] :: flat_map (fun l => map (fun p => p :: l) [0; 1; 2; 3]) (all_lists k)
  end.
Definition scen_ok (cf local answers : bool) (ps : list nat) : bool :=
  forallb (fun i => negb (Nat.eqb (outcome (exec cf (schedule cf local answers ps)) i) 0)) (seq 0 (length ps)).

(* the frame of the call is written, or the call has returned: no step leads back from there *)
Definition fwd (c : cstat) : bool := match c with SWait | SDone => true | _ => false end.

Lemma fwd_step : forall cf i s l, fwd (stat s i) = true -> fwd (stat (step cf s l) i) = true.
Proof.
  intros cf i s l H. destruct l as [j|j|j| | |]; cbn.
  - destruct (stat s j) eqn:E; try exact H. cbn. unfold upd. destruct (Nat.eqb_spec i j) as [->|]; [|exact H].
    rewrite E in H. discriminate.
  - destruct (stat s j) as [|hc| |]; try exact H.
    unfold ret_err. destruct (open s); [destruct hc|]; cbn; unfold upd; destruct (Nat.eqb i j); auto.
  - destruct (stat s j); try exact H. destruct (reader s); [|exact H]. cbn. unfold upd. destruct (Nat.eqb i j); auto.
  - exact H.
  - destruct cf; cbn; [exact H|]. destruct (stat s i); auto.
  - destruct (inprog s); [exact H|]. destruct cf; cbn; [|exact H]. destruct (stat s i); auto.
Qed.

Lemma exec_from_app : forall cf l1 l2 s, exec_from cf s (l1 ++ l2) = exec_from cf (exec_from cf s l1) l2.
Proof. induction l1 as [|l r IH]; intros l2 s; cbn; [reflexivity | apply IH]. Qed.

(* whatever the state: after MakeHandler and Send the call waits or has returned *)
Lemma call_fwd : forall cf a i s, fwd (stat (exec_from cf s (call_steps a i)) i) = true.
Proof.
  intros cf a i s. unfold call_steps. rewrite exec_from_app. apply (exec_keeps _ _ (fwd_step cf i)). cbn [exec_from].
  set (s1 := step cf s (DReg i)).
  assert (N : stat s1 i <> SIdle) by (subst s1; cbn; destruct (stat s i) eqn:E; cbn; rewrite ?fset_eq, ?E; discriminate).
  cbn [step]. destruct (stat s1 i) as [|hc| |] eqn:E1; [contradiction| |now rewrite E1..].
  unfold ret_err. destruct (open s1); [destruct hc|]; cbn; now rewrite fset_eq.
Qed.

Lemma calls_of_fwd : forall cf a k ps i0 s j, nth_error ps j = Some k ->
  fwd (stat (exec_from cf s (calls_of a k ps i0)) (i0 + j)) = true.
Proof.
  induction ps as [|p r IH]; intros i0 s j H; [destruct j; discriminate|]. cbn [calls_of]. rewrite exec_from_app.
  destruct j as [|j]; cbn [nth_error] in H.
  - injection H as ->. rewrite Nat.eqb_refl, Nat.add_0_r. apply (exec_keeps _ _ (fwd_step cf i0)), call_fwd.
  - rewrite <- Nat.add_succ_comm. apply IH, H.
Qed.

Lemma completed_step : forall cf c s l, c <= completed s -> c <= completed (step cf s l).
Proof.
  intros cf c s l H. destruct l as [j|j|j| | |]; cbn; [destruct (stat s j) as [|hc| |]..| | |destruct (inprog s)]; cbn; auto.
  destruct (open s); [destruct hc|]; cbn; auto.
  destruct (reader s); cbn; auto.
Qed.

(* a scenario in the order of the source: every call of a phase 0..3 is issued, and one closeWith runs through *)
Lemma schedule_fwd : forall local a ps i k, nth_error ps i = Some k -> k <= 3 ->
  fwd (stat (exec true (schedule true local a ps)) i) = true.
Proof.
  intros local a ps i k H L. unfold exec, schedule. cbv zeta. rewrite !exec_from_app.
  pose proof (exec_keeps _ _ (fwd_step true i)) as K.
  (* the run is now nested segment by segment, the last outermost: the local loss, phase 3, [DTear1; DTear2], phase 2,
     phase 1, the reader's loss, phase 0; fwd is carried outwards through the 6, 4, 3, 1 segments after phase k *)
  destruct k as [|[|[|[|]]]]; [do 6 apply K|do 4 apply K|do 3 apply K|apply K|lia];
    exact (calls_of_fwd true a _ ps 0 _ i H).
Qed.

Lemma schedule_completed : forall local a ps, completed (exec true (schedule true local a ps)) > 0.
Proof.
  intros local a ps. unfold exec, schedule. cbv zeta. rewrite !exec_from_app.
  do 2 apply (exec_keeps _ _ (completed_step true 1)). cbn. lia.
Qed.

(* any number of calls, each at one of the four points: all have returned at the end *)
Lemma scen_ok_source_order : forall local a ps, (forall p, In p ps -> p <= 3) -> scen_ok true local a ps = true.
Proof.
  intros local a ps Hp. unfold scen_ok. apply forallb_forall. intros i Hi. apply in_seq in Hi.
  destruct (nth_error ps i) as [k|] eqn:E; [|apply nth_error_None in E; lia].
  pose proof (schedule_fwd local a ps i k E (Hp k (nth_error_In _ _ E))) as F.
  destruct (exec_keeps _ _ inv_cf_step (schedule true local a ps) init inv_cf_init) as [_ W].
  specialize (W (schedule_completed local a ps) i). unfold exec in *. unfold outcome.
  destruct (stat (exec_from true init (schedule true local a ps)) i); [discriminate F..|contradiction|].
  now destruct (okres _ i).
Qed.

Lemma all_lists_le : forall n ps, In ps (all_lists n) -> forall p, In p ps -> p <= 3.
Proof.
  induction n as [|n IH]; intros ps H p Hp; cbn [all_lists] in H; destruct H as [<-|H]; try destruct Hp; try destruct H.
  apply in_flat_map in H as [l [Hl H]]. apply in_map_iff in H as [q [<- Hq]].
  destruct Hp as [<-|Hp]; [|exact (IH l Hl p Hp)]. cbn in Hq. intuition lia.
Qed.

Lemma scenario_other_order : scen_ok false false false [0; 2] = false /\ allowed false false [0; 2] 1 = [0; 0].
Proof. split; reflexivity. Qed.
