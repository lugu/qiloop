(* SignalsRawProofs.v — about SignalsRaw.v, in a configuration where a refused duplicate leaves the
   table alone ([dup_relock] off; the other switch of [rclean], how ids are compared, plays no part):
   an acknowledged registration is a full subscription until its own unregistration, whatever ids the
   other registrations use, on a connection whose health no RBreak label has changed
   ([raw_acked_receives], off [subscribed]); an acknowledged unregistration leaves no entry of its key
   ([raw_removed], off [Uniq]); a refused call changes nothing ([raw_refused]); a connection every write
   to which fails is sent nothing ([raw_bad_gets_nothing]).  [step_mbox_is_raw_step]: the table
   operation of [raw_step] is the one [step] does at LMbox. *)
From QV Require Import Signals SignalsLemmas SignalsRaw.
From Coq Require Import Permutation.
Local Open Scope N_scope.

(* the two switches that matter when callers choose their ids: ids compared per connection, and a
   refused duplicate leaves the table alone *)
Definition rclean (g : scfg) : Prop := uid_global g = false /\ dup_relock g = false.

Lemma fold_left_inv {A B} (f : A -> B -> A) (P : A -> Prop) l :
  (forall a b, In b l -> P a -> P (f a b)) -> forall a, P a -> P (fold_left f l a).
Proof.
  induction l as [|b l IH]; intros H a Pa; [exact Pa|]. cbn [fold_left].
  apply IH; [intros a' b' Hb'; apply H; now right|apply H; [now left|exact Pa]].
Qed.

Definition ukey (u : user) : nat * N := (u_conn u, u_uid u).
Definition Uniq (t : list user) : Prop := NoDup (map ukey t).

Lemma is_user_key c uid u : is_user c uid u = true <-> ukey u = (c, uid).
Proof.
  unfold is_user, ukey. split.
  - intros [->%N.eqb_eq ->%Nat.eqb_eq]%andb_true_iff. reflexivity.
  - intros [= <- <-]. rewrite N.eqb_refl. apply Nat.eqb_refl.
Qed.

Lemma is_user_same g c uid u : same_user g c uid u = false -> is_user c uid u = false.
Proof. unfold same_user, is_user. destruct (u_uid u =? uid); [|reflexivity]. destruct (uid_global g); [discriminate|auto]. Qed.

Lemma uniq_add t x : Uniq t -> (forall u, In u t -> is_user (u_conn x) (u_uid x) u = false) -> Uniq (t ++ [x]).
Proof.
  intros U H. unfold Uniq. rewrite map_app. apply NoDup_snoc; [exact U|].
  intro Hin. apply in_map_iff in Hin as (u & E & Hu). apply is_user_key in E. rewrite (H u Hu) in E. discriminate.
Qed.

(* removeSignalUser touches entries of its key only; that it leaves none of them needs [Uniq] *)
Lemma drop_user_spec t c uid :
  (forall x, In x t -> ukey x <> (c, uid) -> In x (drop_user t c uid)) /\
  (Uniq t -> Uniq (drop_user t c uid) /\ forall u, In u (drop_user t c uid) -> ukey u <> (c, uid)).
Proof.
  unfold drop_user. destruct (find_idx (is_user c uid) t) as [i|] eqn:F.
  - destruct (find_idx_some _ _ _ F) as (e & He & Fe). apply is_user_key in Fe.
    pose proof (swap_remove_perm t i e He) as P. split.
    + intros x Hx Ne. destruct (Permutation_in x P Hx) as [<-|Hin]; [contradiction|exact Hin].
    + intro U. pose proof (Permutation_NoDup (Permutation_map ukey P) U) as N. cbn [map] in N. rewrite Fe in N.
      apply NoDup_cons_iff in N as [Hn Hd]. split; [exact Hd|]. intros u Hu E. apply Hn. rewrite <- E. apply in_map, Hu.
  - split; [auto|]. intro U. split; [exact U|]. intros u Hu.
    rewrite <- is_user_key, (find_idx_none _ _ F u Hu). discriminate.
Qed.

(* what UpdateSignal's loop does with an entry of its snapshot: the write fails with io.EOF and the
   registration is dropped / the write succeeds *)
Definition eof (bad : list (nat * N)) (u : user) : bool :=
  match bad_of bad (u_conn u) with Some k => k =? 1 | None => false end.
Definition reached (bad : list (nat * N)) (once : list nat) (u : user) : bool :=
  match bad_of bad (u_conn u) with Some _ => false | None => negb (existsb (Nat.eqb (u_conn u)) once) end.

Lemma emit_go_eq snap bad once : forall t, emit_go snap t bad once =
  (fold_left (fun t u => drop_user t (u_conn u) (u_uid u)) (filter (eof bad) snap) t,
   map (fun u => (u_conn u, u_mid u)) (filter (reached bad once) snap)).
Proof.
  induction snap as [|u r IH]; intro t; [reflexivity|]. cbn [emit_go filter]. unfold eof at 1, reached at 1.
  destruct (bad_of bad (u_conn u)) as [k|]; [destruct (k =? 1); exact (IH _)|].
  destruct (existsb _ once); [exact (IH _)|]. rewrite IH. reflexivity.
Qed.

Lemma emit_go_table snap bad once t t' l : emit_go snap t bad once = (t', l) ->
  (Uniq t -> Uniq t') /\ forall x, In x t -> bad_of bad (u_conn x) = None -> In x t'.
Proof.
  rewrite emit_go_eq. intros [= <- _].
  apply (fold_left_inv _ (fun t' => (Uniq t -> Uniq t') /\ forall x, In x t -> bad_of bad (u_conn x) = None -> In x t')); [|auto].
  intros t' u Hu [U K]. apply filter_In in Hu as [_ Hu]. unfold eof in Hu.
  destruct (drop_user_spec t' (u_conn u) (u_uid u)) as [S D]. split; [intro Ut; exact (proj1 (D (U Ut)))|].
  intros x Hx Hb. apply S; [exact (K x Hx Hb)|]. unfold ukey. intros [= E _]. rewrite <- E, Hb in Hu. discriminate.
Qed.

Lemma emit_go_healthy snap t : emit_go snap t [] [] = (t, map (fun u => (u_conn u, u_mid u)) snap).
Proof. induction snap as [|u r IH]; [reflexivity|]. cbn [emit_go bad_of existsb]. rewrite IH. reflexivity. Qed.

Lemma del1_incl c c' l : In c (del1 c' l) -> In c l.
Proof.
  induction l as [|x l IH]; cbn [del1]; [auto|]. destruct (Nat.eqb x c'); [now right|].
  intros [->|H]; [now left|right; exact (IH H)].
Qed.

Lemma once_after_incl snap bad c : forall hit once, In c (once_after snap bad hit once) -> In c once.
Proof.
  induction snap as [|u r IH]; intros hit once; cbn [once_after]; [auto|].
  destruct (bad_of bad (u_conn u)); [apply IH|]. destruct (existsb _ hit); [apply IH|].
  intro H. exact (del1_incl _ _ _ (IH _ _ H)).
Qed.

Lemma bad_of_break bad c c' k : c' <> c -> bad_of ((c', k) :: bad) c = bad_of bad c.
Proof. intro Ne. cbn [bad_of]. rewrite (proj2 (Nat.eqb_neq c' c) Ne). reflexivity. Qed.

(* writes to connection c succeed: no permanent failure, no single failure pending *)
Definition healthy (st : rstate) (c : nat) : Prop := bad_of (r_bad st) c = None /\ ~ In c (r_once st).

Lemma reached_iff st u : reached (r_bad st) (r_once st) u = true <-> healthy st (u_conn u).
Proof.
  unfold reached, healthy. destruct (bad_of (r_bad st) (u_conn u)); [split; [discriminate|intros [[=] _]]|].
  rewrite negb_true_iff, <- not_true_iff_false, (existsb_eqb_In Nat.eqb Nat.eqb_eq).
  split; [split; [reflexivity|assumption]|intros [_ H]; exact H].
Qed.

Definition subscribed (x : user) (st : rstate) : Prop := In x (r_table st) /\ healthy st (u_conn x).

Section Raw.
Variable g : scfg.
Hypothesis G : dup_relock g = false.

Lemma emit_sent st sig p : snd (raw_step g st (REmit sig p)) =
  OSent (map (fun u => (u_conn u, u_mid u))
          (filter (reached (r_bad st) (r_once st)) (filter (fun u => u_sig u =? sig) (r_table st)))).
Proof. cbn [raw_step]. rewrite emit_go_eq. reflexivity. Qed.

(* unregisterEvent and the loop's reaction to io.EOF are the same removeSignalUser *)
Lemma unreg_table st c s uid : r_table (fst (raw_step g st (RUnreg c s uid))) =
  if r_dead st then r_table st else drop_user (r_table st) c uid.
Proof. cbn [raw_step]. unfold drop_user. destruct (r_dead st); [|destruct (find_idx _ _)]; reflexivity. Qed.

Lemma raw_step_healthy st o c : healthy st c -> (forall k, o <> RBreak c k) -> healthy (fst (raw_step g st o)) c.
Proof.
  intros H Nb. destruct o as [c' m sig uid|c' sig uid|sig p|c' k]; cbn [raw_step].
  - destruct (r_dead st); [exact H|]. destruct (find_idx _ _); [destruct (dup_relock g)|]; exact H.
  - destruct (r_dead st); [exact H|]. destruct (find_idx _ _); exact H.
  - destruct (emit_go _ _ _ _) as [t' l]. destruct H as [Hb Ho]. split; [exact Hb|].
    intro Hin. exact (Ho (once_after_incl _ _ _ _ _ Hin)).
  - assert (Ne : c' <> c) by (intros ->; exact (Nb k eq_refl)). destruct H as [Hb Ho]. split; cbn.
    + destruct ((k =? 0) || (k =? 1) || (k =? 2)); [rewrite bad_of_break by exact Ne|]; exact Hb.
    + destruct (k =? 3); [|exact Ho]. intros [E|Hin]; [exact (Ne E)|exact (Ho Hin)].
Qed.

Lemma raw_step_table st o :
  (Uniq (r_table st) -> Uniq (r_table (fst (raw_step g st o)))) /\
  forall x, In x (r_table st) -> bad_of (r_bad st) (u_conn x) = None ->
    (forall s, o <> RUnreg (u_conn x) s (u_uid x)) -> In x (r_table (fst (raw_step g st o))).
Proof.
  destruct o as [c m sig uid|c sig uid|sig p|c k].
  - cbn [raw_step]. destruct (r_dead st); [auto|].
    destruct (find_idx (same_user g c uid) (r_table st)) eqn:F; [rewrite G; auto|].
    cbn [fst with_table r_table]. split; [|intros; apply in_or_app; now left].
    intro U. apply uniq_add; [exact U|]. intros u Hu. exact (is_user_same g _ _ _ (find_idx_none _ _ F u Hu)).
  - rewrite unreg_table. destruct (r_dead st); [auto|].
    destruct (drop_user_spec (r_table st) c uid) as [S D]. split; [intro U; exact (proj1 (D U))|].
    intros x Hx _ No. apply S; [exact Hx|]. intros [= <- <-]. exact (No sig eq_refl).
  - cbn [raw_step]. destruct (emit_go _ _ _ _) as [t' l] eqn:E. cbn [fst r_table].
    destruct (emit_go_table _ _ _ _ _ _ E) as [U' K]. split; [exact U'|].
    intros x Hx Hb _. exact (K x Hx Hb).
  - cbn [raw_step fst r_table]. auto.
Qed.

Lemma raw_run_uniq os st : Uniq (r_table st) -> Uniq (r_table (raw_run g st os)).
Proof. apply (fold_left_inv _ (fun s => Uniq (r_table s))). intros s o _. exact (proj1 (raw_step_table s o)). Qed.

Lemma raw_run_healthy os c st : (forall k, ~ In (RBreak c k) os) -> healthy st c -> healthy (raw_run g st os) c.
Proof.
  intro Nb. apply (fold_left_inv _ (fun s => healthy s c)). intros s o Ho H. apply raw_step_healthy; [exact H|].
  intros k ->. exact (Nb k Ho).
Qed.

Lemma raw_run_app st a b : raw_run g st (a ++ b) = raw_run g (raw_run g st a) b.
Proof. unfold raw_run. apply fold_left_app. Qed.

Lemma raw_run_cons st o os : raw_run g st (o :: os) = raw_run g (fst (raw_step g st o)) os.
Proof. reflexivity. Qed.

(* a subscription stays one as long as no unregisterEvent of its own (connection, id) is processed
   and its own connection stays in good health: other registrations, refused or not, with the same
   id for another signal or on another connection, other unregistrations, and other connections
   going bad in any way (their registrations dropped in the middle of an emission, their writes
   failing once or for ever) do not touch it *)
Lemma raw_run_keeps os x st :
  (forall s, ~ In (RUnreg (u_conn x) s (u_uid x)) os) -> (forall k, ~ In (RBreak (u_conn x) k) os) ->
  subscribed x st -> subscribed x (raw_run g st os).
Proof.
  intros No Nb. apply (fold_left_inv _ (subscribed x)).
  intros s o Ho (Hx & Hh). split.
  - apply (raw_step_table s o); [exact Hx|exact (proj1 Hh)|]. intros s' ->. exact (No s' Ho).
  - apply raw_step_healthy; [exact Hh|]. intros k ->. exact (Nb k Ho).
Qed.

Lemma subscribed_receives x st p : subscribed x st ->
  exists l, snd (raw_step g st (REmit (u_sig x) p)) = OSent l /\ In (u_conn x, u_mid x) l.
Proof.
  intros (Hin & Hh). rewrite emit_sent. eexists. split; [reflexivity|].
  apply (in_map (fun u => (u_conn u, u_mid u))), filter_In. split; [|apply reached_iff; exact Hh].
  apply filter_In. split; [exact Hin|apply N.eqb_refl].
Qed.

(* an acknowledged registration is a subscription, from an empty table and through any operations
   before it that leave its connection alone *)
Lemma raw_acked_receives pre post c m sig uid p :
  snd (raw_step g (raw_run g rinit pre) (RReg c m sig uid)) = OAck ->
  (forall s, ~ In (RUnreg c s uid) post) ->
  (forall k, ~ In (RBreak c k) (pre ++ post)) ->
  exists l, snd (raw_step g (raw_run g rinit (pre ++ RReg c m sig uid :: post)) (REmit sig p)) = OSent l /\ In (c, m) l.
Proof.
  intros A No Nb. rewrite raw_run_app, raw_run_cons.
  apply (subscribed_receives {| u_uid := uid; u_sig := sig; u_mid := m; u_conn := c |}).
  apply raw_run_keeps; [exact No|intros k Hk; apply (Nb k), in_or_app; now right|].
  assert (Hh : healthy (raw_run g rinit pre) c).
  { apply raw_run_healthy; [|split; [reflexivity|intros []]]. intros k Hk. apply (Nb k), in_or_app. now left. }
  set (st := raw_run g rinit pre) in *.
  split; [|apply raw_step_healthy; [exact Hh|discriminate]].
  revert A. cbn [raw_step]. destruct (r_dead st); [discriminate|].
  destruct (find_idx _ _); [rewrite G; discriminate|]. intros _. apply in_or_app. right. now left.
Qed.

Lemma targets_in sig t x : In x t -> u_sig x = sig -> In (u_conn x, u_mid x) (targets sig t).
Proof.
  intros Hx E. unfold targets. apply (in_map (fun u => (u_conn u, u_mid u))). apply filter_In. split; [exact Hx|].
  now apply N.eqb_eq.
Qed.

Lemma raw_removed os c s uid :
  snd (raw_step g (raw_run g rinit os) (RUnreg c s uid)) = OAck ->
  forall u, In u (r_table (fst (raw_step g (raw_run g rinit os) (RUnreg c s uid)))) -> is_user c uid u = false.
Proof.
  pose proof (raw_run_uniq os rinit (NoDup_nil _)) as U. intros A u. rewrite unreg_table.
  revert A. cbn [raw_step]. destruct (r_dead _); [discriminate|]. intros _ Hu.
  apply not_true_iff_false. rewrite is_user_key. exact (proj2 (proj2 (drop_user_spec _ c uid) U) u Hu).
Qed.

Lemma raw_refused st o : snd (raw_step g st o) = ORefused -> fst (raw_step g st o) = st.
Proof.
  destruct o as [c m sig uid|c sig uid|sig p|c k]; cbn [raw_step].
  - rewrite G. destruct (r_dead st); [discriminate|]. destruct (find_idx _ _); [reflexivity|discriminate].
  - destruct (r_dead st); [discriminate|]. destruct (find_idx _ _); [discriminate|reflexivity].
  - destruct (emit_go _ _ _ _). discriminate.
  - discriminate.
Qed.

Lemma raw_bad_gets_nothing st sig p c m l : bad_of (r_bad st) c <> None ->
  snd (raw_step g st (REmit sig p)) = OSent l -> ~ In (c, m) l.
Proof.
  intros Hb. rewrite emit_sent. intros [= <-] Hin.
  apply in_map_iff in Hin as (u & [= <- _] & Hu). apply filter_In in Hu as [_ Hu].
  apply reached_iff in Hu. exact (Hb (proj1 Hu)).
Qed.
End Raw.

(* the table operation of [raw_step] is the one the mailbox goroutine of Signals.v performs (LMbox) *)
Definition op_of (c : nat) (f : uframe) : rop :=
  match f with UReg m sig uid => RReg c m sig uid | UUnreg m sig uid => RUnreg c sig uid end.
Lemma step_mbox_is_raw_step g st c f rest st' : up st c = f :: rest -> step g st (LMbox c) = Some st' ->
  table st' = r_table (fst (raw_step g (rof (table st)) (op_of c f))).
Proof.
  intros Hu H. pattern st'. apply (some_elim _ _ _ H). cbn [step].
  destruct (dead st || stuck st c); [exact I|]. destruct (pend st); [exact I|]. rewrite Hu.
  destruct (negb (snapshot_send g) && emitting st); [exact I|].
  destruct f as [m sig uid|m sig uid]; cbn [op_of raw_step rof r_dead r_table].
  - destruct (find_idx (same_user g c uid) (table st)); [destruct (dup_relock g)|]; reflexivity.
  - destruct (find_idx (is_user c uid) (table st)); reflexivity.
Qed.
