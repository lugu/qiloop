(* CostProofs.v — theorems about the instrumented decoder of Cost.v (C07): no panic once the negative-length
   repair is in, allocation paid for by the input (reflection and signature policies), iterations linear in
   the input, and the four refutations.
   cdec is read through ccount (what lists and maps share: count, gate, loop) and cgo (the member loop of
   tuples and structs).  The bounds are one argument (Section Pot): an allocated byte and an iteration have a
   price, every byte read pays K, and a count's own 4 bytes pay for its gate.  Two inductions over the type:
   cdec_gated, where a count pays for the iterations it announces (allocation, the reflection decoder's
   iterations and, at price 0, the absence of panics), and cdec_wfz, where the elements pay
   (iterations linear in the input, and with that the budget). *)
From QV Require Import Cost.
Local Open Scope N_scope.

Definition len (bs : bytes) : N := N.of_nat (List.length bs).

Fixpoint max_esz (t : ty) : N :=
  match t with
  | TS _ => 0
  | TList t' => N.max (elem_size t') (max_esz t')
  | TMap k v => N.max (elem_size k + elem_size v + 8) (N.max (max_esz k) (max_esz v))
  | TTuple ts => fold_right (fun t a => N.max (max_esz t) a) 0 ts
  | TStruct _ fs => fold_right (fun f a => N.max (max_esz (snd f)) a) 0 fs
  end.

(* the member loop of tuples (g the identity) and structs (g = snd); its parameters stand outside the
   fixpoint, so that it is cdec's own inner loop up to conversion *)
Section Go.
  Context {A : Type} (pol : policy) (neg : bool) (g : A -> ty).
  Fixpoint cgo (l : list A) (b : bytes) (bud : N) (acc : cost) : cres unit * cost :=
    match l with
    | [] => (COk tt b, acc)
    | x :: l' =>
        let '(r, c) := cdec pol neg (g x) b bud in
        match r with
        | COk _ b' => cgo l' b' (bud - iters c) (cadd acc c)
        | e => (e, cadd acc c)
        end
    end.
End Go.

Definition cpair (pol : policy) (neg : bool) (tk tv : ty) (b : bytes) (bud : N) : cres unit * cost :=
  let '(r1, c1) := cdec pol neg tk b bud in
  match r1 with
  | COk _ b' => let '(r2, c2) := cdec pol neg tv b' (bud - iters c1) in (r2, cadd c1 c2)
  | e => (e, c1)
  end.

(* lists and maps: a count, a gate on it, a loop over p; [early] is the reflection decoder's
   empty map for a negative count *)
Definition ccount (pol : policy) (neg : bool) (early : N -> bool) (esz : N) (p : bytes -> N -> cres unit * cost)
    (bs : bytes) (budget : N) : cres unit * cost :=
  match cnum 4 bs with
  | COk n r =>
      if early n then (COk tt r, czero)
      else match count_gate pol n esz with
           | None => (gate_fail pol neg n, czero)
           | Some a => cloop p (S (List.length r) + N.to_nat (N.min n 1024)) n r budget {| alloc := a; iters := 0 |}
           end
  | CErr => (CErr, czero) | CPanic => (CPanic, czero) | CBudget => (CBudget, czero)
  end.

Lemma cdec_list pol neg t' bs budget :
  cdec pol neg (TList t') bs budget = ccount pol neg (fun _ => false) (elem_size t') (cdec pol neg t') bs budget.
Proof. reflexivity. Qed.

Lemma cdec_map pol neg tk tv bs budget :
  cdec pol neg (TMap tk tv) bs budget =
  ccount pol neg (fun n => match pol with PRefl => 2 ^ 31 <=? n | _ => false end)
         (elem_size tk + elem_size tv + 8) (cpair pol neg tk tv) bs budget.
Proof. reflexivity. Qed.

Lemma cpair_cgo pol neg tk tv b bud :
  cpair pol neg tk tv b bud = cgo pol neg (fun t => t) [tk; tv] b bud czero.
Proof.
  unfold cpair. cbn [cgo]. destruct (cdec pol neg tk b bud) as [[u b'| | |] [a i]]; try reflexivity.
  cbn [iters]. destruct (cdec pol neg tv b' (bud - i)) as [[[] b''| | |] c2]; reflexivity.
Qed.

Lemma cdec_gen_alloc_refuted :
  alloc (snd (cdec PGen false (TList (TS SStr)) [xff; xff; xff; xff] 1000)) = (2 ^ 32 - 1) * 16.
Proof. vm_compute. reflexivity. Qed.

Lemma cdec_sig_spin_refuted :
  fst (cdec PSig false (TList (TS SVoid)) [xff; xff; xff; xff] 1000000) = CBudget.
Proof. vm_compute. reflexivity. Qed.

Lemma cdec_refl_panic_refuted :
  fst (cdec PRefl true (TList (TS SI32)) [xff; xff; xff; xff] 1000) = CPanic.
Proof. vm_compute. reflexivity. Qed.

Lemma cloop_alloc_mono {A} (p : bytes -> N -> cres A * cost) fuel :
  forall n bs budget acc, alloc acc <= alloc (snd (cloop p fuel n bs budget acc)).
Proof.
  induction fuel as [|f IH]; intros n bs budget acc; cbn [cloop];
    (destruct (n =? 0); [cbn; lia|]); (destruct (budget =? 0); [cbn; lia|]); [cbn; lia|].
  destruct (p bs (budget - 1)) as [r c].
  assert (Hacc : alloc acc <= alloc (cadd acc (cadd c {| alloc := 0; iters := 1 |})))
    by (cbn [cadd alloc]; lia).
  destruct r as [a rest| | |]; cbn [snd]; try exact Hacc.
  eapply N.le_trans; [exact Hacc|apply IH].
Qed.

Lemma elem_size_repeat_str m : elem_size (TTuple (repeat (TS SStr) m)) = 16 * N.of_nat m.
Proof.
  cbn [elem_size]. induction m as [|m IH]; [reflexivity|].
  cbn [repeat fold_right]. rewrite IH. cbn [elem_size]. lia.
Qed.

Lemma cdec_gen_alloc_unbounded :
  forall k, exists t bs, len bs = 4 /\ k <= alloc (snd (cdec PGen false t bs 1000)).
Proof.
  intro k. exists (TList (TTuple (repeat (TS SStr) (N.to_nat k)))), [x01; x00; x00; x00].
  split; [reflexivity|].
  rewrite cdec_list. unfold ccount.
  change (cnum 4 [x01; x00; x00; x00]) with (@COk N 1 []).
  cbv beta iota. unfold count_gate.
  eapply N.le_trans; [|apply cloop_alloc_mono].
  cbn [alloc]. rewrite elem_size_repeat_str. lia.
Qed.

Lemma ctake_spec n bs :
  ctake n bs = CErr \/ exists d r, ctake n bs = COk d r /\ len r + N.of_nat n = len bs.
Proof.
  unfold ctake. destruct (Nat.ltb (List.length bs) n) eqn:Hlt; [left; reflexivity|right].
  apply Nat.ltb_ge in Hlt. exists (firstn n bs), (skipn n bs). split; [reflexivity|].
  unfold len. rewrite skipn_length. lia.
Qed.

Lemma cnum_spec w bs :
  cnum w bs = CErr \/ exists n r, cnum w bs = COk n r /\ len r + N.of_nat w = len bs.
Proof.
  unfold cnum. destruct (ctake_spec w bs) as [He|[d [r [He Hl]]]]; rewrite He; [left; reflexivity|right].
  exists (unle d), r. split; [reflexivity|exact Hl].
Qed.

(* a type without containers: no iteration; a success has read at least mw bytes and what it allocated (a
   string's buffer), an error has allocated at most one string; no other outcome *)
Definition paid (mw : N) (bs : bytes) (rc : cres unit * cost) : Prop :=
  iters (snd rc) = 0 /\
  match fst rc with
  | COk _ rest => alloc (snd rc) + mw + len rest <= len bs
  | CErr => alloc (snd rc) <= MaxStringSize
  | _ => False
  end.

Lemma paid_err mw bs : paid mw bs (@CErr unit, czero).
Proof. split; [reflexivity|]. cbn [fst snd czero alloc]. unfold MaxStringSize. lia. Qed.

Lemma paid_take w bs :
  paid (N.of_nat w) bs
    (match ctake w bs with COk _ r => COk tt r | CErr => CErr | CPanic => CPanic | CBudget => CBudget end, czero).
Proof.
  destruct (ctake_spec w bs) as [Ht|[d [r [Ht Hl]]]]; rewrite Ht; [apply paid_err|].
  split; [reflexivity|]. cbn [fst snd czero alloc]. lia.
Qed.

Lemma paid_str pol neg bs budget : paid 4 bs (cdec pol neg (TS SStr) bs budget).
Proof.
  cbn [cdec]. unfold cstr. destruct (cnum_spec 4 bs) as [He|[n [r [He Hl]]]]; rewrite He; [apply paid_err|].
  destruct (n =? 0); [split; [reflexivity|cbn [fst snd czero alloc]; lia]|].
  destruct (MaxStringSize <? n) eqn:Hmax; [apply paid_err|]. apply N.ltb_ge in Hmax.
  destruct (ctake_spec (N.to_nat n) r) as [Ht|[d [r' [Ht Hl']]]]; rewrite Ht; (split; [reflexivity|]);
    cbn [fst snd alloc]; lia.
Qed.

(* the case of cdec that is not a loop: what cdec_list and cdec_map (and, by conversion, cgo) are for the
   others, as a specification because the scalars differ only in their width *)
Lemma cdec_scalar pol neg s bs budget :
  paid (N.of_nat (min_width (TS s))) bs (cdec pol neg (TS s) bs budget).
Proof.
  destruct s; cbn [cdec scalar_width min_width]; try apply paid_take; try apply paid_err.
  apply (paid_str pol neg bs budget).
Qed.

Lemma gate_fail_cases pol neg n : gate_fail pol neg n = CErr \/ neg = true /\ gate_fail pol neg n = CPanic.
Proof.
  unfold gate_fail. destruct pol; try (left; reflexivity).
  destruct neg; [|rewrite andb_false_r; left; reflexivity].
  destruct (2 ^ 31 <=? n); [right; split|left]; reflexivity.
Qed.

Section Pot.
  (* the price of an allocated byte and of an iteration, and what one byte of input pays *)
  Variables (A I K : N) (np : Prop).
  Definition mu (c : cost) : N := A * alloc c + I * iters c.

  Lemma mu_add a b : mu (cadd a b) = mu a + mu b.
  Proof. unfold mu. cbn [cadd alloc iters]. lia. Qed.

  Lemma mu_mk a i : mu {| alloc := a; iters := i |} = A * a + I * i.
  Proof. reflexivity. Qed.

  (* Starting with credit a, the run is paid by the bytes it read, K each: a success has read at least w
     bytes' worth more than it has spent; a failure may have spent E that nothing pays for.  Where np holds
     the run is also said not to panic (at price 0 that is all that is said). *)
  Definition pot (E w a : N) (bs : bytes) (rc : cres unit * cost) : Prop :=
    match fst rc with
    | COk _ rest => mu (snd rc) + w + K * len rest <= a + K * len bs
    | CPanic => ~ np /\ mu (snd rc) <= a + K * len bs + E
    | _ => mu (snd rc) <= a + K * len bs + E
    end.

  Lemma pot_no_panic E w a bs rc : np -> pot E w a bs rc -> fst rc <> CPanic.
  Proof. unfold pot. intros Hnp H Hr. rewrite Hr in H. exact (proj1 H Hnp). Qed.

  Lemma pot_total E w a bs rc : pot E w a bs rc -> mu (snd rc) <= a + K * len bs + E.
  Proof. unfold pot. destruct (fst rc); intuition lia. Qed.

  (* the same run seen from further back: more credit, more bytes *)
  Lemma pot_mono E E' w w' a a' bs bs' rc :
    pot E w a bs rc ->
    a + K * len bs + E <= a' + K * len bs' + E' -> w' + a + K * len bs <= w + a' + K * len bs' ->
    pot E' w' a' bs' rc.
  Proof. unfold pot. destruct (fst rc); intuition lia. Qed.

  (* The loop charges one iteration per element.  The element's own bytes pay for it (we), or the count
     does, d per announced element; an iteration that fails has paid for nothing. *)
  Lemma cloop_pot E we d (p : bytes -> N -> cres unit * cost) :
    (forall b bud, pot E we 0 b (p b bud)) -> I <= we + d ->
    forall fuel n bs budget acc,
      pot (E + (I - d)) 0 (mu acc + n * d) bs (cloop p fuel n bs budget acc).
  Proof.
    intros Hp Hone fuel. induction fuel as [|f IH]; intros n bs budget acc; cbn [cloop];
      (destruct (n =? 0) eqn:Hn; [unfold pot; cbn [fst snd]; lia|]);
      (destruct (budget =? 0); [unfold pot; cbn [fst snd]; lia|]); [unfold pot; cbn [fst snd]; lia|].
    specialize (Hp bs (budget - 1)). destruct (p bs (budget - 1)) as [r c]. unfold pot in Hp |- *. cbn [fst snd] in Hp.
    apply N.eqb_neq in Hn. assert (Hd : n * d = (n - 1) * d + d) by (rewrite <- N.mul_succ_l; f_equal; lia).
    destruct r as [u rest| | |]; cbn [fst snd]; rewrite ?mu_add, ?mu_mk; [|intuition lia ..].
    eapply pot_mono; [apply (IH (n - 1) rest (budget - 1 - iters c))| |]; rewrite !mu_add, mu_mk; lia.
  Qed.

  Lemma cgo_pot {T} E pol neg (g : T -> ty) (w : T -> nat) l :
    Forall (fun x => forall bs bud, pot E (N.of_nat (w x)) 0 bs (cdec pol neg (g x) bs bud)) l ->
    forall b bud acc,
      pot E (N.of_nat (fold_right (fun x a => (w x + a)%nat) 0%nat l)) (mu acc) b (cgo pol neg g l b bud acc).
  Proof.
    intro HF. induction HF as [|x l Hx HF IH]; intros b bud acc; cbn [cgo fold_right].
    - unfold pot. cbn [fst snd]. lia.
    - specialize (Hx b bud). destruct (cdec pol neg (g x) b bud) as [r c]. unfold pot in Hx |- *. cbn [fst snd] in Hx.
      destruct r as [u b'| | |]; cbn [fst snd]; rewrite ?mu_add; [|intuition lia ..].
      eapply pot_mono; [apply (IH b' (bud - iters c))| |]; rewrite mu_add; lia.
  Qed.

  (* The 4 bytes of the count pay for the gate's allocation and the d per announced element, and leave
     enough for the container's own w and for one failed iteration. *)
  Lemma ccount_pot E w we d pol neg early esz p :
    (forall b bud, pot E we 0 b (p b bud)) -> (np -> neg = false) ->
    I <= we + d -> w <= 4 * K ->
    (forall n a, count_gate pol n esz = Some a -> A * a + n * d + N.max w (I - d) <= 4 * K) ->
    forall bs budget, pot E w 0 bs (ccount pol neg early esz p bs budget).
  Proof.
    intros Hp Hneg Hone Hw Hgate bs budget. unfold ccount.
    destruct (cnum_spec 4 bs) as [He|(n & r & He & Hl)]; rewrite He;
      [unfold pot, czero; cbn [fst snd]; rewrite mu_mk; lia|].
    destruct (early n); [unfold pot, czero; cbn [fst snd]; rewrite mu_mk; lia|].
    destruct (count_gate pol n esz) as [a|] eqn:Hg.
    - specialize (Hgate n a Hg). generalize (S (List.length r) + N.to_nat (N.min n 1024))%nat as fuel. intro fuel.
      eapply pot_mono; [apply (cloop_pot E we d p Hp Hone fuel n r budget {| alloc := a; iters := 0 |})| |];
        rewrite mu_mk; lia.
    - destruct (gate_fail_cases pol neg n) as [Hf|[Hn Hf]]; rewrite Hf; unfold pot, czero; cbn [fst snd]; rewrite mu_mk; [lia|].
      split; [intro Hnp; rewrite (Hneg Hnp) in Hn; discriminate|lia].
  Qed.

  Lemma cgo_pot0 {T} E pol neg (g : T -> ty) l :
    Forall (fun x => forall bs bud, pot E 0 0 bs (cdec pol neg (g x) bs bud)) l ->
    forall b bud, pot E 0 0 b (cgo pol neg g l b bud czero).
  Proof.
    intros HF b bud. eapply pot_mono; [exact (cgo_pot E pol neg g (fun _ => 0%nat) l HF b bud czero)| |]; unfold czero; rewrite mu_mk; lia.
  Qed.

  (* For a price list at which the counts pay for the iterations they announce.  A type without containers
     allocates at most a string that it has read, or one that it could not read (cdec_scalar).  A tuple or a
     struct is its cgo by conversion. *)
  Lemma cdec_gated pol neg M t :
    A <= K -> (np -> neg = false) ->
    (forall n esz a, esz <= M -> count_gate pol n esz = Some a -> A * a + n * I <= 4 * K) ->
    max_esz t <= M -> forall bs bud, pot (A * MaxStringSize) 0 0 bs (cdec pol neg t bs bud).
  Proof.
    intros HA Hneg Hgate. set (E := A * MaxStringSize).
    assert (Hc : forall early esz p, esz <= M -> (forall b bud, pot E 0 0 b (p b bud)) ->
              forall bs bud, pot E 0 0 bs (ccount pol neg early esz p bs bud)).
    { intros early esz p Hesz Hp. apply (ccount_pot E 0 0 I); [exact Hp|exact Hneg|lia|apply N.le_0_l|].
      intros n a Hc. specialize (Hgate n esz a Hesz Hc). lia. }
    induction t as [s|t' IH|tk tv IHk IHv|ts IH|name fs IH] using ty_ind2; cbn [max_esz]; intro HM.
    - intros bs bud. destruct (cdec_scalar pol neg s bs bud) as [Hi H]. unfold pot, mu. rewrite Hi.
      destruct (fst (cdec pol neg (TS s) bs bud)) as [u rest| | |]; [nia ..|destruct H|destruct H].
    - intros bs bud. rewrite cdec_list. apply Hc; [exact (N.max_lub_l _ _ _ HM)|apply IH, (N.max_lub_r _ _ _ HM)].
    - apply N.max_lub_r in HM as HM'. intros bs bud. rewrite cdec_map. apply Hc; [exact (N.max_lub_l _ _ _ HM)|].
      intros b bud'. rewrite cpair_cgo.
      apply cgo_pot0, Forall_cons, Forall_cons, Forall_nil; [apply IHk, (N.max_lub_l _ _ _ HM')|apply IHv, (N.max_lub_r _ _ _ HM')].
    - apply (cgo_pot0 E pol neg (fun t => t) ts). rewrite Forall_forall in IH |- *. intros x Hin.
      apply (IH x Hin), (N.le_trans _ _ _ (fold_Nmax_in max_esz ts x Hin) HM).
    - apply (cgo_pot0 E pol neg snd fs). rewrite Forall_forall in IH |- *. intros x Hin.
      apply (IH x Hin), (N.le_trans _ _ _ (fold_Nmax_in (fun f => max_esz (snd f)) fs x Hin) HM).
  Qed.
End Pot.

(* at price 0 nothing is measured, only the outcome is looked at *)
Theorem cdec_no_panic : forall pol t bs budget, fst (cdec pol false t bs budget) <> CPanic.
Proof.
  intros pol t bs budget. apply (pot_no_panic 0 0 0 True 0 0 0 bs _ Logic.I).
  apply (cdec_gated 0 0 0 True pol false (max_esz t)); [apply N.le_refl|reflexivity|intros; lia|apply N.le_refl].
Qed.

Lemma iters_add a b : iters (cadd a b) = iters a + iters b.
Proof. reflexivity. Qed.

(* Iterations are paid for by consumed bytes, one each, and a success consumes at least mw bytes; and then a
   budget of the input's length is not used up.  The two go through the type together: the second needs the
   first of every member. *)
Definition linb (mw : N) (bs : bytes) (bud : N) (rc : cres unit * cost) : Prop :=
  pot 0 1 1 False 0 mw 0 bs rc /\ (len bs <= bud -> fst rc <> CBudget).

Lemma cloop_no_budget mw (p : bytes -> N -> cres unit * cost) :
  1 <= mw -> (forall b bud, linb mw b bud (p b bud)) ->
  forall fuel n bs budget acc,
    len bs < budget -> (List.length bs < fuel)%nat -> fst (cloop p fuel n bs budget acc) <> CBudget.
Proof.
  intros Hmw Hp fuel. induction fuel as [|f IH]; intros n bs budget acc Hbud Hfuel; [lia|].
  cbn [cloop]. destruct (n =? 0); [cbn; discriminate|].
  destruct (budget =? 0) eqn:Hz; [apply N.eqb_eq in Hz; lia|].
  destruct (Hp bs (budget - 1)) as [Hp1 Hb1]. unfold pot, mu in Hp1. specialize (Hb1 ltac:(lia)).
  destruct (p bs (budget - 1)) as [r c]. cbn [fst snd] in Hp1, Hb1.
  destruct r as [u rest| | |]; cbn [fst]; try discriminate; [|congruence].
  apply IH; unfold len in *; lia.
Qed.

Lemma ccount_linb pol neg early esz mw p :
  1 <= mw -> (forall b bud, linb mw b bud (p b bud)) ->
  forall bs budget, linb 4 bs budget (ccount pol neg early esz p bs budget).
Proof.
  intros Hmw Hp bs budget. split.
  - apply (ccount_pot 0 1 1 False 0 4 mw 0); [intros b bud; apply Hp|intros []|lia|apply N.le_refl|intros n a _; lia].
  - intro Hle. unfold ccount.
    destruct (cnum_spec 4 bs) as [He|(n & r & He & Hl)]; rewrite He; [cbn; discriminate|].
    destruct (early n); [cbn; discriminate|].
    destruct (count_gate pol n esz).
    + apply (cloop_no_budget mw); [exact Hmw|exact Hp|lia|lia].
    + destruct (gate_fail_cases pol neg n) as [Hg|[_ Hg]]; rewrite Hg; cbn; discriminate.
Qed.

Lemma cgo_linb {A} pol neg (g : A -> ty) l :
  Forall (fun x => forall bs bud, linb (N.of_nat (min_width (g x))) bs bud (cdec pol neg (g x) bs bud)) l ->
  forall b bud, linb (N.of_nat (fold_right (fun x a => (min_width (g x) + a)%nat) 0%nat l)) b bud (cgo pol neg g l b bud czero).
Proof.
  intros HF b bud. split.
  - refine (cgo_pot 0 1 1 False 0 pol neg g (fun x => min_width (g x)) l _ b bud czero).
    revert HF. apply Forall_impl. intros x H bs0 bud0. apply H.
  - generalize czero as acc. revert b bud.
    induction HF as [|x l Hx HF IH]; intros b bud acc Hle; cbn [cgo]; [cbn; discriminate|].
    destruct (Hx b bud) as [Hl1 Hb1]. unfold pot, mu in Hl1. specialize (Hb1 Hle).
    destruct (cdec pol neg (g x) b bud) as [r c]. cbn [fst snd] in Hl1, Hb1.
    destruct r as [u b'| | |]; cbn [fst]; try discriminate; [|congruence].
    apply IH. lia.
Qed.

Lemma cdec_wfz pol neg t :
  wfz t = true -> forall bs budget, linb (N.of_nat (min_width t)) bs budget (cdec pol neg t bs budget).
Proof.
  induction t as [s|t' IH|tk tv IHk IHv|ts IH|name fs IH] using ty_ind2; cbn [wfz]; intro Hwf.
  - intros bs budget. pose proof (cdec_scalar pol neg s bs budget) as [Hi H]. unfold linb, pot, mu. rewrite Hi.
    destruct (fst (cdec pol neg (TS s) bs budget)) as [u rest| | |]; try contradiction; (split; [lia|intros _; discriminate]).
  - apply andb_true_iff in Hwf as [Hmw Hwf]. apply Nat.leb_le in Hmw.
    intros bs budget. rewrite cdec_list. apply (ccount_linb _ _ _ _ (N.of_nat (min_width t'))); [lia|exact (IH Hwf)].
  - apply andb_true_iff in Hwf as [Hwf Hwfv]. apply andb_true_iff in Hwf as [Hmw Hwfk]. apply Nat.leb_le in Hmw.
    intros bs budget. rewrite cdec_map.
    apply (ccount_linb _ _ _ _ (N.of_nat (min_width (TTuple [tk; tv])))); [cbn [min_width fold_right]; lia|].
    intros b bud. rewrite cpair_cgo. exact (cgo_linb pol neg (fun t => t) _ (Forall_cons _ (IHk Hwfk) (Forall_cons _ (IHv Hwfv) (Forall_nil _))) b bud).
  - apply (cgo_linb pol neg (fun t => t) ts). rewrite Forall_forall in IH |- *. intros x Hin.
    apply (IH x Hin), (proj1 (forallb_forall _ _) Hwf x Hin).
  - apply (cgo_linb pol neg snd fs). rewrite Forall_forall in IH |- *. intros x Hin.
    apply (IH x Hin), (proj1 (forallb_forall _ _) Hwf x Hin).
Qed.

Theorem cdec_iters_wfz : forall pol neg t bs budget, wfz t = true ->
  iters (snd (cdec pol neg t bs budget)) <= len bs.
Proof.
  intros pol neg t bs budget Hwf. pose proof (proj1 (cdec_wfz pol neg t Hwf bs budget)) as H. apply pot_total in H.
  unfold mu in H. lia.
Qed.

Theorem cdec_budget_enough : forall pol neg t bs budget, wfz t = true -> len bs < budget ->
  fst (cdec pol neg t bs budget) <> CBudget.
Proof. intros pol neg t bs budget Hwf Hlt. apply (cdec_wfz pol neg t Hwf bs budget). lia. Qed.

Lemma count_gate_refl n esz a : count_gate PRefl n esz = Some a -> n <= listValueMaxSize /\ a = n * esz.
Proof.
  unfold count_gate. destruct (2 ^ 31 <=? n); [discriminate|].
  destruct (listValueMaxSize <? n) eqn:Hmax; [discriminate|]. intro Hc. apply N.ltb_ge in Hmax.
  inversion Hc. split; [exact Hmax|reflexivity].
Qed.

(* An allocated byte costs 4, and every consumed byte pays 4 + G: for itself, and a quarter of a gate of at
   most G bytes, a gate having read its 4-byte count; the only allocation not paid for is that of the one
   string whose body could not be read. *)
Lemma cdec_apaid pol neg M G t :
  (forall n esz a, esz <= M -> count_gate pol n esz = Some a -> a <= G) -> max_esz t <= M ->
  forall bs budget, pot 4 0 (4 + G) False (4 * MaxStringSize) 0 0 bs (cdec pol neg t bs budget).
Proof.
  intros Hgate. apply (cdec_gated 4 0 (4 + G) False pol neg M); [lia|intros []|].
  intros n esz a He Hc. apply (Hgate _ _ _ He) in Hc. lia.
Qed.

Theorem cdec_alloc_sig : forall neg t bs budget,
  alloc (snd (cdec PSig neg t bs budget)) <= len bs + MaxStringSize.
Proof.
  intros neg t bs budget.
  assert (Hg : forall n esz a, esz <= max_esz t -> count_gate PSig n esz = Some a -> a <= 0)
    by (intros n esz a _ Hc; inversion Hc; apply N.le_refl).
  pose proof (pot_total _ _ _ _ _ _ _ _ _ (cdec_apaid PSig neg _ 0 t Hg (N.le_refl _) bs budget)) as H.
  unfold mu in H. lia.
Qed.

Theorem cdec_alloc_refl : forall neg t bs budget,
  alloc (snd (cdec PRefl neg t bs budget))
  <= len bs + MaxStringSize + (len bs / 4 + 1) * (listValueMaxSize * max_esz t).
Proof.
  intros neg t bs budget. set (G := listValueMaxSize * max_esz t).
  assert (Hg : forall n esz a, esz <= max_esz t -> count_gate PRefl n esz = Some a -> a <= G).
  { intros n esz a He Hc. apply count_gate_refl in Hc as [Hn ->]. apply N.mul_le_mono; assumption. }
  pose proof (pot_total _ _ _ _ _ _ _ _ _ (cdec_apaid PRefl neg _ G t Hg (N.le_refl _) bs budget)) as H.
  assert (Hq : G * len bs <= G * (4 * (len bs / 4 + 1))).
  { apply N.mul_le_mono_l. pose proof (N.div_mod (len bs) 4 ltac:(discriminate)) as Hdm.
    pose proof (N.mod_lt (len bs) 4 ltac:(discriminate)) as Hm. lia. }
  unfold mu in H. lia.
Qed.

(* an iteration costs 1 and a consumed byte pays 1024: a gate lets at most 4096 iterations through and has
   read 4 bytes *)
Lemma cdec_ipaid neg t : forall bs budget, pot 0 1 1024 False 0 0 0 bs (cdec PRefl neg t bs budget).
Proof.
  apply (cdec_gated 0 1 1024 False PRefl neg (max_esz t)); [lia|intros []| |apply N.le_refl].
  intros n esz a _ Hc. apply count_gate_refl in Hc as [Hc _]. unfold listValueMaxSize in Hc. lia.
Qed.

Theorem cdec_iters_refl : forall neg t bs budget,
  iters (snd (cdec PRefl neg t bs budget)) <= (len bs / 4 + 1) * listValueMaxSize + len bs.
Proof.
  intros neg t bs budget. pose proof (cdec_ipaid neg t bs budget) as H. apply pot_total in H.
  pose proof (N.div_mod (len bs) 4 ltac:(discriminate)) as Hdm.
  pose proof (N.mod_lt (len bs) 4 ltac:(discriminate)) as Hm. unfold mu, listValueMaxSize in H |- *. lia.
Qed.

Print Assumptions cdec_no_panic.
Print Assumptions cdec_alloc_refl.
Print Assumptions cdec_alloc_sig.
Print Assumptions cdec_iters_wfz.
Print Assumptions cdec_budget_enough.
Print Assumptions cdec_iters_refl.
Print Assumptions cdec_gen_alloc_refuted.
Print Assumptions cdec_gen_alloc_unbounded.
Print Assumptions cdec_sig_spin_refuted.
Print Assumptions cdec_refl_panic_refuted.
