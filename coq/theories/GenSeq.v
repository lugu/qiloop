(* GenSeq.v — sequences of operations on ONE generated stub / proxy pair (C05).
   What an object built by generated code keeps between two calls is the value of each of
   its properties: Update<P> (generated helper of the stub) and Set<P> (generated proxy)
   store the payload that the generated Marshal produced and send it to the subscribers,
   Signal<S> only sends, Get<P> returns what is stored.  The store keeps payloads BY VALUE:
   nothing done later for another property or signal changes a stored payload.  The harness
   (qv C05, sequences) compares every event and every getter reply of long drawn sequences
   with [srun]. *)
From QV Require Import Wire GenCodec.
Local Open Scope N_scope.

Inductive sop :=
| SUpdate (p : N) (v : tval)   (* Update<P>(v) through the SignalHelper of the stub *)
| SSet (p : N) (v : tval)      (* Set<P>(v) through the proxy *)
| SSignal (s : N) (v : tval)   (* Signal<S>(v) through the SignalHelper *)
| SGet (p : N).                (* Get<P>() through the proxy *)

Definition pstore := list (N * bytes).   (* newest entry first *)

Fixpoint plookup (st : pstore) (p : N) : option bytes :=
  match st with
  | [] => None
  | (q, b) :: r => if q =? p then Some b else plookup r p
  end.

(* one operation: the new store and what the proxy side observes (event payload / reply) *)
Definition sstep (st : pstore) (o : sop) : pstore * option bytes :=
  match o with
  | SUpdate p v => ((p, emit v) :: st, Some (emit v))
  | SSet p v => ((p, emit v) :: st, Some (emit v))
  | SSignal _ v => (st, Some (emit v))
  | SGet p => (st, plookup st p)
  end.

Fixpoint sfinal (st : pstore) (ops : list sop) : pstore :=
  match ops with [] => st | o :: r => sfinal (fst (sstep st o)) r end.

Fixpoint srun (st : pstore) (ops : list sop) : list (option bytes) :=
  match ops with [] => [] | o :: r => snd (sstep st o) :: srun (fst (sstep st o)) r end.

Definition writes_to (p : N) (o : sop) : bool :=
  match o with SUpdate q _ | SSet q _ => q =? p | _ => false end.

Definition payload_of (o : sop) : option tval :=
  match o with SUpdate _ v | SSet _ v | SSignal _ v => Some v | SGet _ => None end.

Lemma sfinal_app : forall a st b, sfinal st (a ++ b) = sfinal (sfinal st a) b.
Proof. induction a as [|o a IH]; intros st b; cbn; [reflexivity|apply IH]. Qed.

Lemma srun_app : forall a st b, srun st (a ++ b) = srun st a ++ srun (sfinal st a) b.
Proof. induction a as [|o a IH]; intros st b; cbn; [reflexivity|f_equal; apply IH]. Qed.

Lemma srun_length : forall ops st, List.length (srun st ops) = List.length ops.
Proof. induction ops as [|o r IH]; intro st; cbn; [reflexivity|f_equal; apply IH]. Qed.

Lemma plookup_untouched : forall p ops st,
  forallb (fun o => negb (writes_to p o)) ops = true -> plookup (sfinal st ops) p = plookup st p.
Proof.
  intros p. induction ops as [|o r IH]; intros st H; cbn in *; [reflexivity|].
  apply andb_prop in H as [Ho Hr]. rewrite (IH _ Hr).
  destruct o as [q v|q v|s v|q]; cbn in *; try reflexivity;
    destruct (q =? p); cbn in *; (discriminate || reflexivity).
Qed.

(* Every Get<P> returns the payload P was last given -- by the helper or by the proxy,
   whatever was done before it, and whatever was done since for other properties and
   signals -- and the generated getter decodes it to the value that was written. *)
Theorem get_returns_last_write : forall st before w p v after t,
  (w = SUpdate p v \/ w = SSet p v) ->
  forallb (fun o => negb (writes_to p o)) after = true ->
  good_ty t = true -> has_ty v t = true ->
  last (srun st (before ++ w :: after ++ [SGet p])) None = Some (emit v) /\
  subscriber_recv t (emit v) = ROk (v, []).
Proof.
  intros st before w p v after t Hw Hafter Hg Hv. split.
  - rewrite srun_app. cbn [srun]. rewrite srun_app. cbn [srun sstep snd].
    rewrite !app_comm_cons, app_assoc, last_last.
    rewrite (plookup_untouched p after _ Hafter).
    destruct Hw as [-> | ->]; cbn; rewrite N.eqb_refl; reflexivity.
  - rewrite <- (app_nil_r (emit v)). apply signal_roundtrip; assumption.
Qed.

(* Every event carries the payload that was emitted, whatever the store holds, and the
   generated subscriber decodes it to the emitted value. *)
Theorem event_carries_payload : forall st o v t,
  payload_of o = Some v -> good_ty t = true -> has_ty v t = true ->
  snd (sstep st o) = Some (emit v) /\ subscriber_recv t (emit v) = ROk (v, []).
Proof.
  intros st o v t Ho Hg Hv. split.
  - destruct o; cbn in *; inversion Ho; reflexivity.
  - rewrite <- (app_nil_r (emit v)). apply signal_roundtrip; assumption.
Qed.

(* not vacuous: two properties and a signal interleaved *)
Example seq_example :
  srun [] [SUpdate 101 (VNum 4 21); SUpdate 102 (VStr []); SSignal 103 (VNum 1 7); SGet 101; SSet 101 (VNum 4 19); SGet 102; SGet 101]
  = [Some (emit (VNum 4 21)); Some (emit (VStr [])); Some (emit (VNum 1 7)); Some (emit (VNum 4 21));
     Some (emit (VNum 4 19)); Some (emit (VStr [])); Some (emit (VNum 4 19))].
Proof. reflexivity. Qed.
