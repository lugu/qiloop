(* SessionProofs.v — proofs about the machine of Session.v (property C19).
   Inv asks of every running thread that `check` accepts its remaining code from the abstract state that
   mk_a computes from the machine state; tstep_sound is the soundness of `check` for one step. A step
   changes one component of the shared state: the closers (step_local ... step_pool) say what such a change
   owes, `wf` holding the clauses about the shared state and `frame` what the other threads are promised.
   Section C19 reads the invariant at the states reached from init (the theorems props/C19.v states).
   Schedules are finite because every step shortens the code of its thread (moves, ksize).
   At the end, the schedule on which the program with RUnlock after Lock ends in Fatal. *)
From Coq Require Import List Arith Bool.
From QV Require Import ListFacts Session.
Import ListNotations.

Lemma sum_upd_lt (f : thread -> nat) l i t t' :
  nth_error l i = Some t -> f t' < f t -> list_sum (map f (upd i t' l)) < list_sum (map f l).
Proof.
  revert i. induction l as [|x l IH]; intros [|i] Hn Hlt; cbn in *; try discriminate.
  - injection Hn as ->. now apply Nat.add_lt_mono_r.
  - now apply Nat.add_lt_mono_l, IH.
Qed.

Lemma mem_true_iff i l : mem i l = true <-> In i l.
Proof. exact (existsb_eqb_In Nat.eqb Nat.eqb_eq i l). Qed.

Lemma mem_false_iff i l : mem i l = false <-> ~ In i l.
Proof. rewrite <- mem_true_iff. destruct (mem i l); split; congruence. Qed.

Lemma mem_cons i x l : mem i (x :: l) = (i =? x) || mem i l.
Proof. reflexivity. Qed.

Lemma mem_ext j l l' : (In j l <-> In j l') -> mem j l = mem j l'.
Proof. rewrite <- !mem_true_iff. destruct (mem j l), (mem j l'); intuition congruence. Qed.

Lemma In_remove_one_iff i x l : NoDup l -> In x (remove_one i l) <-> In x l /\ x <> i.
Proof.
  induction 1 as [|y l Hy _ IH]; cbn [remove_one In]; [tauto|].
  destruct (Nat.eqb_spec y i) as [->|N]; cbn [In]; [|rewrite IH]; split.
  - intro H. split; [now right | now intros ->].
  - now intros [[->|H] N].
  - intros [<-|[H N']]; [split; [now left | exact N] | split; [now right | exact N']].
  - intros [[<-|H] N']; [now left | now right].
Qed.

Lemma In_remove_one_neq i j l : i <> j -> In j (remove_one i l) <-> In j l.
Proof.
  intro N. induction l as [|y l IH]; cbn [remove_one]; [tauto|].
  destruct (Nat.eqb_spec y i) as [->|_]; cbn [In]; [|now rewrite IH]. split; [now right | now intros [E|H]].
Qed.

Lemma In_cons_neq (i j : nat) l : i <> j -> In j (i :: l) <-> In j l.
Proof. intro N. split; [now intros [E|H] | now right]. Qed.

Lemma mem_remove_one_eq i l : NoDup l -> mem i (remove_one i l) = false.
Proof. intro H. apply mem_false_iff. rewrite In_remove_one_iff by exact H. tauto. Qed.

Lemma NoDup_remove_one i l : NoDup l -> NoDup (remove_one i l).
Proof.
  induction 1 as [|x l Hx Hl IH]; cbn [remove_one]; [constructor|]. destruct (x =? i); [exact Hl|].
  constructor; [|exact IH]. rewrite In_remove_one_iff by exact Hl. tauto.
Qed.

Lemma lookup_cons a b x p : lookup a ((b, x) :: p) = if b =? a then Some x else lookup a p.
Proof. unfold lookup. cbn [find fst]. destruct (b =? a); reflexivity. Qed.

(* lookup is written with find; it is the lookup of an association list keyed by nat *)
Lemma lookup_aget a p : lookup a p = aget Nat.eqb a p.
Proof. induction p as [|[b x] p IH]; [reflexivity|]. rewrite lookup_cons, IH. reflexivity. Qed.

Lemma lookup_In a p x : lookup a p = Some x -> In (a, x) p.
Proof. rewrite lookup_aget. apply (aget_in Nat.eqb_spec). Qed.

Lemma lookup_None_notin a p : lookup a p = None -> ~ In a (map fst p).
Proof. rewrite lookup_aget. apply (aget_none Nat.eqb_spec). Qed.

Lemma In_lookup a x p : NoDup (map fst p) -> In (a, x) p -> lookup a p = Some x.
Proof. rewrite lookup_aget. apply (in_aget Nat.eqb_spec). Qed.

Lemma pooled_true_iff x p : pooled x p = true <-> exists a, In (a, x) p.
Proof.
  unfold pooled. rewrite existsb_exists. split.
  - intros [[a y] [Hin Hy]]. apply Nat.eqb_eq in Hy. cbn [snd] in Hy. subst y. eauto.
  - intros [a Hin]. exists (a, x). split; [exact Hin | apply Nat.eqb_refl].
Qed.

Lemma pooled_cons x a y p : pooled x ((a, y) :: p) = (y =? x) || pooled x p.
Proof. reflexivity. Qed.

Lemma lookup_pooled a p x : lookup a p = Some x -> pooled x p = true.
Proof. intro H. apply pooled_true_iff. exists a. now apply lookup_In. Qed.

Definition pooled_in (eps : list nat) (c : nat) (p : list (nat * nat)) : bool :=
  existsb (fun a => match lookup a p with Some c' => c' =? c | None => false end) eps.

Lemma pooled_in_true_iff eps c p : pooled_in eps c p = true <-> exists a, In a eps /\ lookup a p = Some c.
Proof.
  unfold pooled_in. rewrite existsb_exists. split.
  - intros [a [Hin H]]. destruct (lookup a p) as [c'|] eqn:E; [|discriminate]. apply Nat.eqb_eq in H. subst. eauto.
  - intros [a [Hin H]]. exists a. split; [exact Hin|]. rewrite H. apply Nat.eqb_refl.
Qed.

Lemma pooled_in_pooled eps c p : pooled_in eps c p = true -> pooled c p = true.
Proof. rewrite pooled_in_true_iff. intros [a [_ H]]. now apply lookup_pooled in H. Qed.

Lemma pooled_in_ext eps c p a x : lookup a p = None -> pooled_in eps c p = true -> pooled_in eps c ((a, x) :: p) = true.
Proof.
  intros Hn. rewrite !pooled_in_true_iff. intros [b [Hin H]]. exists b. split; [exact Hin|].
  rewrite lookup_cons. destruct (Nat.eqb_spec a b) as [->|_]; [congruence | exact H].
Qed.

Lemma first_hit_Some eps p c : first_hit eps p = Some c -> exists a, In a eps /\ lookup a p = Some c.
Proof.
  induction eps as [|a eps IH]; cbn [first_hit]; [discriminate|].
  destruct (lookup a p) as [c'|] eqn:E.
  - intros [= <-]. exists a. split; [now left | exact E].
  - intro H. destruct (IH H) as [b [Hin Hb]]. exists b. split; [now right | exact Hb].
Qed.

(* mk_a s i t ab: the checker's abstract state of thread i, computed from the machine state (no ghost variables):
   its lock mode from the holders of the mutex, what its variable c holds from the pool, whether it owns an unpooled open connection *)
Definition mode_of (s : shared) (i : nat) : mode :=
  match s_wh s with
  | Some w => if w =? i then MW else if mem i (s_rh s) then MR else MN
  | None => if mem i (s_rh s) then MR else MN
  end.

Definition cst_of (s : shared) (i : nat) (t : thread) : cst :=
  match t_c t with
  | None => CNone
  | Some c =>
      if c =? i then
        (if pooled i (s_pool s) then CPooled else match t_sel t with Some _ => CFresh | None => CBad end)
      else if pooled_in (t_eps t) c (s_pool s) then CPooled else CBad
  end.

Definition owns_of (s : shared) (i : nat) : bool := mem i (s_open s) && negb (pooled i (s_pool s)).

Definition sel_b (t : thread) : bool := match t_sel t with Some _ => true | None => false end.

Definition mk_a (s : shared) (i : nat) (t : thread) (ab : bool) : astate :=
  {| a_mode := mode_of s i; a_sel := sel_b t; a_absent := ab; a_c := cst_of s i t; a_owns := owns_of s i |}.

(* ab = true: the thread holds the write lock and its selected address has no pool entry *)
Definition absent_ok (s : shared) (i : nat) (t : thread) (ab : bool) : Prop :=
  ab = true -> s_wh s = Some i /\ exists a, t_sel t = Some a /\ lookup a (s_pool s) = None.

Definition thread_ok (s : shared) (i : nat) (t : thread) : Prop :=
  (forall a, t_sel t = Some a -> In a (t_eps t)) /\
  match t_res t with
  | Running => exists ab, absent_ok s i t ab /\ check (mk_a s i t ab) (t_k t) = true
  | r => mode_of s i = MN /\ owns_of s i = false /\
         (forall c, r = Returned c -> pooled_in (t_eps t) c (s_pool s) = true) /\ r <> ReturnedNil
  end.

Record Inv (s : st) : Prop := {
  inv_wh : forall w, s_wh (st_sh s) = Some w -> s_rh (st_sh s) = [] /\ exists t, nth_error (st_thr s) w = Some t;
  inv_rh : NoDup (s_rh (st_sh s)) /\ forall r, In r (s_rh (st_sh s)) -> exists t, nth_error (st_thr s) r = Some t;
  inv_keys : NoDup (map fst (s_pool (st_sh s)));
  inv_pool : forall a x, In (a, x) (s_pool (st_sh s)) ->
             exists t, nth_error (st_thr s) x = Some t /\ t_sel t = Some a /\ mem x (s_open (st_sh s)) = true;
  inv_open : NoDup (s_open (st_sh s)) /\
             forall x, In x (s_open (st_sh s)) -> exists t a, nth_error (st_thr s) x = Some t /\ t_sel t = Some a;
  inv_thr : forall i t, nth_error (st_thr s) i = Some t -> thread_ok (st_sh s) i t
}.

Lemma mode_eqb_iff a b : mode_eqb a b = true <-> a = b.
Proof. destruct a, b; cbn; split; congruence. Qed.
Lemma cst_eqb_iff a b : cst_eqb a b = true <-> a = b.
Proof. destruct a, b; cbn; split; congruence. Qed.

Lemma mode_of_MW s i : mode_of s i = MW <-> s_wh s = Some i.
Proof.
  unfold mode_of. destruct (s_wh s) as [w|]; [destruct (Nat.eqb_spec w i) as [->|N]|]; [tauto|..];
    destruct (mem i (s_rh s)); split; congruence.
Qed.
Lemma mode_of_MR s i : mode_of s i = MR -> mem i (s_rh s) = true.
Proof. unfold mode_of. destruct (s_wh s) as [w|]; [destruct (w =? i)|]; destruct (mem i (s_rh s)); congruence. Qed.
Lemma mode_of_MN s i : mode_of s i = MN -> mem i (s_rh s) = false.
Proof. unfold mode_of. destruct (s_wh s) as [w|]; [destruct (w =? i)|]; destruct (mem i (s_rh s)); congruence. Qed.

Lemma owns_of_true s i : owns_of s i = true <-> mem i (s_open s) = true /\ pooled i (s_pool s) = false.
Proof. unfold owns_of. now rewrite andb_true_iff, negb_true_iff. Qed.

Lemma sel_b_true t : sel_b t = true -> exists a, t_sel t = Some a.
Proof. unfold sel_b. destruct (t_sel t) as [a|]; [eauto | discriminate]. Qed.
Lemma sel_b_false t : sel_b t = false -> t_sel t = None.
Proof. unfold sel_b. now destruct (t_sel t). Qed.

Lemma check_not_bad a k : check a k = true -> a_c a <> CBad.
Proof. destruct k; cbn [check]; intros [H _]%andb_prop E; rewrite E in H; discriminate H. Qed.

Lemma absent_ok_false s i t : absent_ok s i t false.
Proof. intro H. discriminate H. Qed.

Lemma running_ok s i t ab :
  t_res t = Running -> (forall a, t_sel t = Some a -> In a (t_eps t)) -> absent_ok s i t ab ->
  check (mk_a s i t ab) (t_k t) = true -> thread_ok s i t.
Proof. intros Er Hsel Hab Hc. split; [exact Hsel|]. rewrite Er. eauto. Qed.

Lemma done_ok s i t r :
  (forall a, t_sel t = Some a -> In a (t_eps t)) -> mode_of s i = MN -> owns_of s i = false ->
  match r with
  | Failed => True
  | Returned c => pooled_in (t_eps t) c (s_pool s) = true
  | _ => False
  end -> thread_ok s i (finish t r).
Proof.
  intros Hsel Hm Ho Hr. split; [exact Hsel|]. cbn [finish t_res].
  destruct r; [contradiction| | |contradiction]; repeat split; auto; try discriminate.
  intros c0 [= <-]. exact Hr.
Qed.

Lemma cst_of_found s i t k c a ab :
  In a (t_eps t) -> lookup a (s_pool s) = Some c ->
  mk_a s i (set_kc t k c) ab = a_set_c (mk_a s i t ab) CPooled.
Proof.
  intros Hin Hl. unfold mk_a, a_set_c. cbn [a_mode a_sel a_absent a_c a_owns]. f_equal.
  unfold cst_of. cbn [set_kc t_c t_eps t_sel].
  destruct (Nat.eqb_spec c i) as [->|_].
  - now rewrite (lookup_pooled _ _ _ Hl).
  - assert (H : pooled_in (t_eps t) c (s_pool s) = true) by (apply pooled_in_true_iff; eauto). now rewrite H.
Qed.

Definition frame (i : nat) (s s' : shared) : Prop :=
  (forall j, i <> j -> mode_of s' j = mode_of s j) /\
  (forall j, i <> j -> In j (s_open s') <-> In j (s_open s)) /\
  (s_pool s' = s_pool s \/
   exists a, s_pool s' = (a, i) :: s_pool s /\ lookup a (s_pool s) = None /\ s_wh s = Some i).

Lemma frame_refl i s : frame i s s.
Proof. repeat split; auto. Qed.

Lemma frame_pooled i j s s' : i <> j -> frame i s s' -> pooled j (s_pool s') = pooled j (s_pool s).
Proof.
  intros Hj (_ & _ & [E|(a & E & _)]); rewrite E; [reflexivity|].
  rewrite pooled_cons. apply Nat.eqb_neq in Hj. now rewrite Hj.
Qed.

Lemma frame_owns i j s s' : i <> j -> frame i s s' -> owns_of s' j = owns_of s j.
Proof.
  intros Hj F. unfold owns_of. rewrite (frame_pooled i j s s' Hj F).
  destruct F as (_ & F & _). now rewrite (mem_ext _ _ _ (F j Hj)).
Qed.

Lemma frame_cst i j s s' t : i <> j -> frame i s s' -> cst_of s j t <> CBad -> cst_of s' j t = cst_of s j t.
Proof.
  intros Hj F Hb. unfold cst_of in *. destruct (t_c t) as [c|]; [|reflexivity].
  destruct (c =? j).
  - now rewrite (frame_pooled i j s s' Hj F).
  - destruct F as (_ & _ & [E|(a & E & Hn & _)]); rewrite E; [reflexivity|].
    destruct (pooled_in (t_eps t) c (s_pool s)) eqn:Ep; [|congruence]. now rewrite (pooled_in_ext _ _ _ _ _ Hn Ep).
Qed.

Lemma frame_thread_ok i j s s' t : i <> j -> frame i s s' -> thread_ok s j t -> thread_ok s' j t.
Proof.
  intros Hj F [Hsel H]. split; [exact Hsel|].
  pose proof F as (Fm & _ & Fp). specialize (Fm j Hj).
  assert (Hdone : forall r, mode_of s j = MN /\ owns_of s j = false /\
                    (forall c, r = Returned c -> pooled_in (t_eps t) c (s_pool s) = true) /\ r <> ReturnedNil ->
                  mode_of s' j = MN /\ owns_of s' j = false /\
                    (forall c, r = Returned c -> pooled_in (t_eps t) c (s_pool s') = true) /\ r <> ReturnedNil).
  { intros r (H1 & H2 & H3 & H4). rewrite Fm, (frame_owns i j s s' Hj F). repeat split; auto.
    intros c E. specialize (H3 c E). destruct Fp as [->|(a & -> & Hn & _)]; [exact H3 | now apply pooled_in_ext]. }
  destruct (t_res t); [|now apply Hdone..].
  destruct H as (ab & Hab & Hc). exists ab. split.
  - intro E. destruct (Hab E) as (Hw & a & Hs & Hl). split.
    + apply mode_of_MW. rewrite Fm. now apply mode_of_MW.
    + exists a. split; [exact Hs|]. destruct Fp as [->|(_ & _ & _ & Hwi)]; [exact Hl | congruence].
  - unfold mk_a. rewrite Fm, (frame_owns i j s s' Hj F), (frame_cst i j s s' t Hj F); [exact Hc|].
    exact (check_not_bad _ _ Hc).
Qed.

(* the clauses of Inv about the shared state (who may hold the lock, be pooled, be open), over any thread table;
   Inv is a flat record, so they are written again: Inv_wf and Inv_intro go between the two *)
Record wf (sh : shared) (thr : list thread) : Prop := {
  wf_wh : forall w, s_wh sh = Some w -> s_rh sh = [] /\ exists t, nth_error thr w = Some t;
  wf_rh : NoDup (s_rh sh) /\ forall r, In r (s_rh sh) -> exists t, nth_error thr r = Some t;
  wf_keys : NoDup (map fst (s_pool sh));
  wf_pool : forall a x, In (a, x) (s_pool sh) ->
            exists t, nth_error thr x = Some t /\ t_sel t = Some a /\ mem x (s_open sh) = true;
  wf_open : NoDup (s_open sh) /\ forall x, In x (s_open sh) -> exists t a, nth_error thr x = Some t /\ t_sel t = Some a
}.

Lemma Inv_wf s : Inv s -> wf (st_sh s) (st_thr s).
Proof. intros [H1 H2 H3 H4 H5 _]. now constructor. Qed.

Lemma Inv_intro sh thr :
  wf sh thr -> (forall i t, nth_error thr i = Some t -> thread_ok sh i t) -> Inv {| st_sh := sh; st_thr := thr |}.
Proof. intros [H1 H2 H3 H4 H5] H6. now constructor. Qed.

Lemma wf_mono sh thr thr' :
  (forall j u, nth_error thr j = Some u ->
     exists u', nth_error thr' j = Some u' /\ forall a, t_sel u = Some a -> t_sel u' = Some a) ->
  wf sh thr -> wf sh thr'.
Proof.
  intros K [Hw [Hnr Hr] Hk Hp [Hno Ho]].
  constructor; [ | split; [exact Hnr|] | exact Hk | | split; [exact Hno|] ].
  - intros w E. destruct (Hw w E) as (R & u & Hu). destruct (K _ _ Hu) as (u' & Hu' & _). eauto.
  - intros r E. destruct (Hr r E) as (u & Hu). destruct (K _ _ Hu) as (u' & Hu' & _). eauto.
  - intros a x E. destruct (Hp a x E) as (u & Hu & Su & M). destruct (K _ _ Hu) as (u' & Hu' & S'). eauto.
  - intros x E. destruct (Ho x E) as (u & a & Hu & Su). destruct (K _ _ Hu) as (u' & Hu' & S'). eauto.
Qed.

Section Step.
  Variables (sh : shared) (thr : list thread) (i : nat) (t : thread).
  Hypothesis Wf : wf sh thr.
  Hypothesis T : forall j u, nth_error thr j = Some u -> thread_ok sh j u.
  Hypothesis Ht : nth_error thr i = Some t.

  (* Outside this section Hsel_kept (a step does not forget the address it selected) is the first premise of every
     closer. In tstep_sound the new thread is set_k, set_kc or finish of t, which keep t_sel, so the premise
     holds by conversion and goes with `trivial` / `auto` at the `apply`; only the dial sets t_sel, from None
     (its first bullet). *)
  Section Closers.
  Variable t' : thread.
  Hypothesis Hsel_kept : forall a, t_sel t = Some a -> t_sel t' = Some a.

  Definition stepped (sh' : shared) : Prop :=
    Inv {| st_sh := sh'; st_thr := upd i t' thr |} /\ frame i sh sh'.

  Lemma upd_i : nth_error (upd i t' thr) i = Some t'.
  Proof. exact (nth_error_lset_eq _ _ _ _ Ht). Qed.

  Lemma wf_upd : wf sh (upd i t' thr).
  Proof.
    apply (wf_mono _ thr); [|exact Wf]. intros j u Hj. destruct (Nat.eq_dec i j) as [<-|N].
    - exists t'. split; [exact upd_i|]. rewrite Ht in Hj. now injection Hj as <-.
    - exists u. split; [now rewrite nth_error_lset_neq | auto].
  Qed.

  Lemma close sh' : wf sh' (upd i t' thr) -> frame i sh sh' -> thread_ok sh' i t' -> stepped sh'.
  Proof.
    intros W F Hok. split; [|exact F]. apply (Inv_intro _ _ W). intros j u Hj. destruct (Nat.eq_dec i j) as [<-|N].
    - rewrite upd_i in Hj. now injection Hj as <-.
    - rewrite nth_error_lset_neq in Hj by exact N. exact (frame_thread_ok i j _ _ u N F (T j u Hj)).
  Qed.

  Lemma step_local : thread_ok sh i t' -> stepped sh.
  Proof. exact (close _ wf_upd (frame_refl _ _)). Qed.

  Lemma step_rh rh' :
    s_wh sh = None -> NoDup rh' -> (forall j, i <> j -> In j rh' <-> In j (s_rh sh)) ->
    thread_ok (with_rh sh rh') i t' -> stepped (with_rh sh rh').
  Proof.
    intros Ew Hnd Hin. destruct wf_upd as [_ [_ Hr] Hk Hp Ho]. apply close.
    - constructor; trivial; cbn [with_rh s_wh s_rh]; [congruence | split; [exact Hnd|]].
      intros r Hr'. destruct (Nat.eq_dec i r) as [<-|N]; [exists t'; exact upd_i | now apply Hr, Hin].
    - split; [|split; [reflexivity | now left]]. intros j N. unfold mode_of. cbn [with_rh s_wh s_rh].
      now rewrite (mem_ext _ _ _ (Hin j N)).
  Qed.

  (* the writer changes between nobody and i (there are no readers): the others' modes do not see it *)
  Lemma step_wh wh' :
    s_wh sh = None \/ s_wh sh = Some i -> wh' = None \/ wh' = Some i -> s_rh sh = [] ->
    thread_ok (with_wh sh wh') i t' -> stepped (with_wh sh wh').
  Proof.
    intros Hw Hw' Erh. destruct wf_upd as [_ Hr Hk Hp Ho]. apply close.
    - constructor; trivial. cbn [with_wh s_wh s_rh]. intros w E. split; [exact Erh|].
      destruct Hw' as [->| ->]; [discriminate E|]. injection E as <-. exists t'. exact upd_i.
    - split; [|split; [reflexivity | now left]]. intros j N. apply Nat.eqb_neq in N. unfold mode_of. cbn [with_wh s_wh s_rh].
      destruct Hw as [->| ->], Hw' as [->| ->]; rewrite ?N; reflexivity.
  Qed.

  (* the open connections change at i only: i has dialed if it is open, and stays open if it is pooled *)
  Lemma step_open o' :
    NoDup o' -> (forall j, i <> j -> In j o' <-> In j (s_open sh)) ->
    (In i o' -> t_sel t' <> None) -> (pooled i (s_pool sh) = true -> In i o') ->
    thread_ok (with_open sh o') i t' -> stepped (with_open sh o').
  Proof.
    intros Hnd Hin Hsi Hpi. destruct wf_upd as [Hw Hr Hk Hp [_ Ho]]. apply close.
    - constructor; trivial; cbn [with_open s_pool s_open]; [ | split; [exact Hnd|]].
      + intros a x E. destruct (Hp a x E) as (u & Hu & Su & M). exists u. split; [exact Hu|]. split; [exact Su|].
        apply mem_true_iff. destruct (Nat.eq_dec i x) as [<-|N]; [apply Hpi, pooled_true_iff; eauto|].
        now apply Hin, mem_true_iff.
      + intros x E. destruct (Nat.eq_dec i x) as [<-|N]; [|now apply Ho, Hin].
        exists t'. destruct (t_sel t') as [a|]; [exists a; split; [exact upd_i | reflexivity] | now destruct (Hsi E)].
    - split; [reflexivity | split; [exact Hin | now left]].
  Qed.

  Lemma step_pool a :
    lookup a (s_pool sh) = None -> s_wh sh = Some i ->
    t_sel t' = Some a -> mem i (s_open sh) = true ->
    thread_ok (with_pool sh ((a, i) :: s_pool sh)) i t' ->
    stepped (with_pool sh ((a, i) :: s_pool sh)).
  Proof.
    intros Hl Ew Es Hm. destruct wf_upd as [Hw Hr Hk Hp Ho]. apply close.
    - constructor; trivial; cbn [with_pool s_pool s_open map fst].
      + constructor; [now apply lookup_None_notin | exact Hk].
      + intros b x [[= <- <-]|E]; [exists t'; split; [exact upd_i | auto] | exact (Hp b x E)].
    - split; [reflexivity | split; [reflexivity | right; exists a; auto]].
  Qed.
  End Closers.

  Hypothesis Er : t_res t = Running.

  Lemma goes_on sh' k ab : absent_ok sh' i t ab -> check (mk_a sh' i t ab) k = true -> thread_ok sh' i (set_k t k).
  Proof. exact (running_ok sh' i (set_k t k) ab Er (proj1 (T i t Ht))). Qed.

  (* Soundness of `check` for one step of a running thread: the runtime does not stop it, it waits only for the
     lock (or for an answer of the dial that is not one of its endpoints: not a label of the system), and when it
     moves the invariant holds again and the other threads are not disturbed. *)
  Theorem tstep_sound ch :
    match tstep sh i t ch with
    | TNext sh' t' => stepped t' sh'
    | TFatal => False
    | TBlocked => mode_of sh i = MN /\ (s_wh sh <> None \/ s_rh sh <> []) \/
                  exists a, ch = Some a /\ mem a (t_eps t) = false
    end.
  Proof.
    destruct (T i t Ht) as [Hsel Hok]. rewrite Er in Hok. destruct Hok as (ab & Hab & Hc).
    unfold tstep. rewrite Er. destruct (t_k t) as [|ins k]; [cbn in Hc; now rewrite andb_false_r in Hc|].
    pose proof (check_not_bad _ _ Hc) as Hnb. cbn [check] in Hc. apply andb_prop in Hc as [_ Hc].
    destruct (wf_rh _ _ Wf) as [Hnr _]. destruct (wf_open _ _ Wf) as [Hno Ho].
    (* Hc is the conjunction `check` computes for the instruction: each case first splits off the guards it uses *)
    destruct ins.
    - (* IIfEmptyErr *) apply andb_prop in Hc as [[Hm%mode_eqb_iff Hown%negb_true_iff]%andb_prop Hc].
      destruct (t_eps t) eqn:Ee in |- *; apply step_local; trivial.
      + now apply done_ok.
      + exact (goes_on _ k ab Hab Hc).
    - (* IRLock *) apply andb_prop in Hc as [Hm%mode_eqb_iff Hc]. pose proof (mode_of_MN _ _ Hm) as Hni.
      destruct (s_wh sh) eqn:Ew; [left; split; [exact Hm | left; discriminate]|].
      apply step_rh; trivial.
      + constructor; [now apply mem_false_iff | exact Hnr].
      + intros j. apply In_cons_neq.
      + apply (goes_on _ k false (absent_ok_false _ _ _)). unfold mk_a, mode_of. cbn [with_rh s_wh s_rh].
        now rewrite Ew, mem_cons, Nat.eqb_refl.
    - (* IRUnlock *) apply andb_prop in Hc as [Hm%mode_eqb_iff%mode_of_MR Hc].
      assert (Ew : s_wh sh = None).
      { destruct (s_wh sh) as [w|] eqn:Ew; [|reflexivity]. destruct (wf_wh _ _ Wf w Ew) as [Hr _].
        rewrite Hr in Hm. discriminate Hm. }
      destruct (s_rh sh) eqn:Erh in |- *; [rewrite Erh in Hm; discriminate Hm|]. rewrite <- Erh, Hm.
      apply step_rh; trivial.
      + now apply NoDup_remove_one.
      + intros j. now apply In_remove_one_neq.
      + apply (goes_on _ k false (absent_ok_false _ _ _)). unfold mk_a, mode_of. cbn [with_rh s_wh s_rh].
        now rewrite Ew, mem_remove_one_eq.
    - (* ILock *) apply andb_prop in Hc as [Hm%mode_eqb_iff Hc].
      destruct (s_wh sh) eqn:Ew; [left; split; [exact Hm | left; discriminate]|].
      destruct (s_rh sh) eqn:Erh; [|left; split; [exact Hm | right; discriminate]].
      apply step_wh; auto.
      apply (goes_on _ k false (absent_ok_false _ _ _)). unfold mk_a, mode_of. cbn [with_wh s_wh].
      now rewrite Nat.eqb_refl.
    - (* IUnlock *) apply andb_prop in Hc as [Hm%mode_eqb_iff%mode_of_MW Hc]. rewrite Hm.
      destruct (wf_wh _ _ Wf i Hm) as [Erh _]. apply step_wh; auto.
      apply (goes_on _ k false (absent_ok_false _ _ _)). unfold mk_a, mode_of. cbn [with_wh s_wh s_rh].
      now rewrite Erh.
    - (* IRangeLookup *) apply andb_prop in Hc as [[_ Hh]%andb_prop Hc].
      destruct (first_hit (t_eps t) (s_pool sh)) as [c|] eqn:Ef; apply step_local; trivial.
      + destruct (first_hit_Some _ _ _ Ef) as (a & Hin & Hl).
        apply (running_ok _ _ (set_kc t hit c) ab Er Hsel Hab). now rewrite (cst_of_found _ _ _ _ _ a ab Hin Hl).
      + exact (goes_on _ k ab Hab Hc).
    - (* IDialOrErr *)
      apply andb_prop in Hc as [[[Hm%mode_eqb_iff Es%negb_true_iff%sel_b_false]%andb_prop Hown%negb_true_iff]%andb_prop Hc].
      destruct ch as [a|]; [destruct (mem a (t_eps t)) eqn:Ea; [|right; eauto]|].
      2:{ apply step_local; trivial. now apply done_ok. }
      assert (Hnp : pooled i (s_pool sh) = false).
      { destruct (pooled i (s_pool sh)) eqn:Ep; [|reflexivity]. apply pooled_true_iff in Ep. destruct Ep as [a1 Hin].
        destruct (wf_pool _ _ Wf a1 i Hin) as (u & Hu & Hus & _). congruence. }
      assert (Hni : ~ In i (s_open sh)).
      { intro Hin. destruct (Ho i Hin) as (u & a1 & Hu & Hus). congruence. }
      apply step_open.
      + (* Hsel_kept: nothing was selected *) intros a0 E0. rewrite Es in E0. discriminate E0.
      + (* NoDup *) now constructor.
      + (* the others *) intros j. apply In_cons_neq.
      + (* i, open, has dialed *) discriminate.
      + (* i, if pooled, is open *) now left.
      + (* thread_ok *) apply (running_ok _ _ (set_ksel t k a) false Er); [| apply absent_ok_false |].
        * intros a1 [= <-]. now apply mem_true_iff.
        * assert (Ec : cst_of (with_open sh (i :: s_open sh)) i (set_ksel t k a) = cst_of sh i t).
          { cbn [mk_a a_c] in Hnb. unfold cst_of in *. cbn [with_open s_pool set_ksel t_c t_sel t_eps].
            rewrite Es, Hnp in Hnb. rewrite Hnp. destruct (t_c t) as [c|]; [|reflexivity]. destruct (c =? i); [congruence | reflexivity]. }
          unfold mk_a, owns_of. rewrite Ec. cbn [with_open s_open s_pool]. rewrite mem_cons, Nat.eqb_refl, Hnp.
          rewrite <- Hm in Hc. exact Hc.
    - (* ILookupSel *) apply andb_prop in Hc as [[[_ [a Es]%sel_b_true]%andb_prop Hh]%andb_prop Hc]. rewrite Es.
      destruct (lookup a (s_pool sh)) as [c|] eqn:El; apply step_local; trivial.
      + apply (running_ok _ _ (set_kc t hit c) ab Er Hsel Hab). now rewrite (cst_of_found _ _ _ _ _ a ab (Hsel a Es) El).
      + apply (goes_on _ k (mode_eqb (mode_of sh i) MW)).
        * intro Em. apply mode_eqb_iff, mode_of_MW in Em. split; [exact Em|]. exists a. split; [exact Es | exact El].
        * unfold mk_a, sel_b. cbn [set_k t_sel]. now rewrite Es.
    - (* INewClient *) apply andb_prop in Hc as [[[a Es]%sel_b_true [_ Hnp]%owns_of_true]%andb_prop Hc]. rewrite Es.
      apply step_local; trivial. apply (running_ok _ _ (set_kc t k i) ab Er Hsel Hab).
      unfold mk_a, cst_of. cbn [set_kc t_c t_sel t_k]. now rewrite Nat.eqb_refl, Es, Hnp.
    - (* IInsert *)
      apply andb_prop in Hc as [[[[Hm%mode_eqb_iff Eab]%andb_prop Hcst%cst_eqb_iff]%andb_prop [Hop _]%owns_of_true]%andb_prop Hc].
      destruct (Hab Eab) as (Ew & a & Es & El).
      assert (Ec : t_c t = Some i).
      { cbn [mk_a a_c] in Hcst. unfold cst_of in Hcst. destruct (t_c t) as [c|]; [|discriminate Hcst].
        destruct (Nat.eqb_spec c i) as [Eci|_]; [now subst c|]. destruct (pooled_in _ c _); discriminate Hcst. }
      rewrite Es, Ec. apply step_pool with (a := a); trivial.
      apply (goes_on _ k false (absent_ok_false _ _ _)).
      unfold mk_a, owns_of, cst_of. cbn [with_pool s_pool s_open set_k t_c].
      rewrite <- Hm in Hc. now rewrite Ec, pooled_cons, !Nat.eqb_refl, andb_false_r.
    - (* IAddHandler *) apply step_local; trivial.
      exact (goes_on _ k ab Hab Hc).
    - (* ICloseEndpoint *) apply andb_prop in Hc as [[[_ Hnp]%owns_of_true _]%andb_prop Hc].
      (* i is not pooled (Hnp), so it need not stay open: `congruence` *)
      apply step_open; trivial; try congruence.
      + (* NoDup *) now apply NoDup_remove_one.
      + (* the others *) intros j. now apply In_remove_one_neq.
      + (* i is no longer open *) rewrite In_remove_one_iff by exact Hno. tauto.
      + (* thread_ok *) apply (goes_on (with_open _ _) k ab Hab). unfold mk_a, owns_of. cbn [with_open s_open].
        now rewrite mem_remove_one_eq.
    - (* IReturnC *) apply andb_prop in Hc as [[Hm%mode_eqb_iff Hcst%cst_eqb_iff]%andb_prop Hown%negb_true_iff].
      apply step_local; trivial. cbn [mk_a a_c] in Hcst. unfold cst_of in Hcst.
      destruct (t_c t) as [c|]; [|discriminate Hcst]. apply done_ok; trivial.
      destruct (Nat.eqb_spec c i) as [Eci|_]; [subst c|now destruct (pooled_in _ c _)].
      (* its own client: pooled for the address it selected, which is one of its endpoints *)
      destruct (pooled i (s_pool sh)) eqn:Ep; [|destruct (t_sel t); discriminate Hcst].
      apply pooled_true_iff in Ep. destruct Ep as [a Hin]. destruct (wf_pool _ _ Wf a i Hin) as (u & Hu & Hus & _).
      apply pooled_in_true_iff. exists a. split; [apply Hsel; congruence | exact (In_lookup _ _ _ (wf_keys _ _ Wf) Hin)].
  Qed.
End Step.

Lemma tstep_running sh i t ch sh' t' : tstep sh i t ch = TNext sh' t' -> t_res t = Running.
Proof. unfold tstep. destruct (t_res t); congruence. Qed.

Theorem tstep_safe s i t ch :
  Inv s -> nth_error (st_thr s) i = Some t ->
  match tstep (st_sh s) i t ch with
  | TNext sh' t' => stepped (st_sh s) (st_thr s) i t' sh'
  | TFatal => False
  | TBlocked => True
  end.
Proof.
  intros I Ht. destruct (t_res t) eqn:Er; [|unfold tstep; now rewrite Er..].
  pose proof (tstep_sound _ _ i t (Inv_wf s I) (inv_thr s I) Ht Er ch) as H. now destruct (tstep (st_sh s) i t ch).
Qed.

Definition safe (P : st -> Prop) (o : outcome) : Prop :=
  match o with Run s => P s | Fatal => False | Stuck => True end.

Theorem step_safe s l : Inv s -> safe Inv (step s l).
Proof.
  intro I. unfold step. destruct l as [i ch]. destruct (nth_error (st_thr s) i) as [t|] eqn:Ht; [|exact Logic.I].
  pose proof (tstep_safe s i t ch I Ht) as H. destruct (tstep (st_sh s) i t ch); [exact Logic.I | exact H | exact (proj1 H)].
Qed.

Theorem exec_safe ls : forall s, Inv s -> safe Inv (exec s ls).
Proof.
  induction ls as [|l ls IH]; intros s I; cbn [exec]; [exact I|].
  pose proof (step_safe s l I) as H. destruct (step s l); [now apply IH | exact H | exact H].
Qed.

Lemma check_prog_clean : check a_init (prog cfg_clean) = true.
Proof. vm_compute. reflexivity. Qed.

(* a call about to enter a body that the checker accepts: nothing dialed, no client yet *)
Definition entering (t : thread) : Prop :=
  t_sel t = None /\ t_c t = None /\ t_res t = Running /\ check a_init (t_k t) = true.

(* such calls find the invariant and keep it, whatever code they run: nothing shared names them yet *)
Lemma inv_enter new s :
  Forall entering new -> Inv s -> Inv {| st_sh := st_sh s; st_thr := st_thr s ++ new |}.
Proof.
  intros Hnew I. apply Inv_intro.
  - apply (wf_mono _ (st_thr s)); [|now apply Inv_wf]. intros j u Hj. exists u. split; [now apply nth_error_app_old | auto].
  - intros i t Hi. destruct (le_lt_dec (List.length (st_thr s)) i) as [Hge|Hlt].
    2:{ rewrite nth_error_app1 in Hi by exact Hlt. now apply (inv_thr s I). }
    rewrite nth_error_app2 in Hi by exact Hge. apply nth_error_In in Hi.
    destruct (proj1 (Forall_forall _ _) Hnew t Hi) as (Es & Ec & Er & Hk).
    (* i is not the index of an old thread, and every index the shared state mentions is one *)
    assert (Hold : forall u, nth_error (st_thr s) i = Some u -> False).
    { intros u Hu. apply nth_error_Some_lt in Hu. exact (Nat.lt_irrefl _ (Nat.lt_le_trans _ _ _ Hu Hge)). }
    destruct I as [Hw [_ Hr] _ _ [_ Ho] _].
    assert (Hm : mode_of (st_sh s) i = MN).
    { unfold mode_of. replace (mem i (s_rh (st_sh s))) with false.
      - destruct (s_wh (st_sh s)) as [w|]; [|reflexivity]. destruct (Hw w eq_refl) as (_ & u & Hu).
        destruct (Nat.eqb_spec w i) as [->|_]; [now destruct (Hold u) | reflexivity].
      - symmetry. apply mem_false_iff. intro Hin. destruct (Hr i Hin) as (u & Hu). exact (Hold u Hu). }
    assert (Hown : owns_of (st_sh s) i = false).
    { unfold owns_of. replace (mem i (s_open (st_sh s))) with false; [reflexivity|]. symmetry. apply mem_false_iff.
      intro Hin. destruct (Ho i Hin) as (u & a & Hu & _). exact (Hold u Hu). }
    apply (running_ok _ _ t false Er); [congruence | apply absent_ok_false |].
    unfold mk_a, sel_b, cst_of. rewrite Hm, Hown, Es, Ec. exact Hk.
Qed.

Lemma inv_new_threads c epss s :
  clean c -> Inv s -> Inv {| st_sh := st_sh s; st_thr := st_thr s ++ map (new_thread c) epss |}.
Proof.
  (* cfg has the one field runlock_after_lock: a clean c is cfg_clean, the constant check_prog_clean evaluates *)
  destruct c as [[|]]; [discriminate|]. intros _. apply inv_enter, Forall_forall.
  intros t (eps & <- & _)%in_map_iff. exact (conj eq_refl (conj eq_refl (conj eq_refl check_prog_clean))).
Qed.

Theorem init_inv c epss : clean c -> Inv (init c epss).
Proof.
  intro Hc. apply (inv_new_threads c epss {| st_sh := init_sh; st_thr := [] |} Hc).
  constructor; cbn [st_sh st_thr init_sh s_wh s_rh s_pool s_open map].
  - discriminate.
  - split; [constructor | intros r []].
  - constructor.
  - intros a x [].
  - split; [constructor | intros x []].
  - intros [|i] t; discriminate.
Qed.

Lemma done_thread s i t :
  Inv s -> nth_error (st_thr s) i = Some t -> t_res t <> Running ->
  mode_of (st_sh s) i = MN /\ owns_of (st_sh s) i = false /\
  (forall c, t_res t = Returned c -> pooled_in (t_eps t) c (s_pool (st_sh s)) = true) /\ t_res t <> ReturnedNil.
Proof. intros I Ht Hr. destruct (inv_thr s I i t Ht) as [_ H]. destruct (t_res t); [congruence | exact H..]. Qed.

Lemma all_done_nth s i t : all_done s = true -> nth_error (st_thr s) i = Some t -> t_res t <> Running.
Proof.
  unfold all_done. rewrite forallb_forall. intros H Ht E. specialize (H t (nth_error_In _ _ Ht)). now rewrite E in H.
Qed.

Lemma inv_returned s i t cl :
  Inv s -> nth_error (st_thr s) i = Some t -> t_res t = Returned cl ->
  exists a, In a (t_eps t) /\ lookup a (s_pool (st_sh s)) = Some cl /\ mem cl (s_open (st_sh s)) = true.
Proof.
  intros I Ht Er. destruct (done_thread s i t I Ht) as (_ & _ & Hp & _); [congruence|].
  specialize (Hp cl Er). apply pooled_in_true_iff in Hp. destruct Hp as (a & Hin & Hl). exists a. split; [exact Hin|].
  split; [exact Hl|]. now destruct (inv_pool s I a cl (lookup_In _ _ _ Hl)) as (u & _ & _ & Hm).
Qed.

Lemma inv_open_pooled s x :
  Inv s -> all_done s = true -> In x (s_open (st_sh s)) -> pooled x (s_pool (st_sh s)) = true.
Proof.
  intros I Hd Hx. destruct (inv_open s I) as [_ Ho]. destruct (Ho x Hx) as (t & a & Ht & _).
  destruct (done_thread s x t I Ht (all_done_nth s x t Hd Ht)) as (_ & Hown & _).
  unfold owns_of in Hown. apply mem_true_iff in Hx. rewrite Hx in Hown. now apply negb_false_iff in Hown.
Qed.

Lemma inv_pooled_inj s x y t u a :
  Inv s -> pooled x (s_pool (st_sh s)) = true -> pooled y (s_pool (st_sh s)) = true ->
  nth_error (st_thr s) x = Some t -> nth_error (st_thr s) y = Some u -> t_sel t = Some a -> t_sel u = Some a -> x = y.
Proof.
  intros I Px Py Ht Hu St Su. apply pooled_true_iff in Px, Py. destruct Px as [a1 P1]. destruct Py as [a2 P2].
  destruct (inv_pool s I a1 x P1) as (t1 & Ht1 & S1 & _). destruct (inv_pool s I a2 y P2) as (u1 & Hu1 & S2 & _).
  assert (a1 = a) by congruence. assert (a2 = a) by congruence. subst a1 a2.
  pose proof (In_lookup _ _ _ (inv_keys s I) P1). pose proof (In_lookup _ _ _ (inv_keys s I) P2). congruence.
Qed.

Section C19.
  Variable c : cfg.
  Hypothesis Hclean : clean c.
  Variable epss : list (list nat).
  Variable ls : list label.

  Theorem no_fatal : exec (init c epss) ls <> Fatal.
  Proof. intro E. pose proof (exec_safe ls _ (init_inv c epss Hclean)) as H. now rewrite E in H. Qed.

  Variable s : st.
  Hypothesis Hrun : exec (init c epss) ls = Run s.

  Lemma reach_inv : Inv s.
  Proof. pose proof (exec_safe ls _ (init_inv c epss Hclean)) as H. now rewrite Hrun in H. Qed.

  Theorem one_client_per_address : NoDup (map fst (s_pool (st_sh s))).
  Proof. exact (inv_keys s reach_inv). Qed.

  (* a caller that has returned got the client pooled for one of the addresses of its service,
     and the connection of that client is open *)
  Theorem caller_gets_pooled i t cl :
    nth_error (st_thr s) i = Some t -> t_res t = Returned cl ->
    exists a, In a (t_eps t) /\ lookup a (s_pool (st_sh s)) = Some cl /\ mem cl (s_open (st_sh s)) = true.
  Proof. exact (inv_returned s i t cl reach_inv). Qed.

  (* no call returns a nil client without an error *)
  Theorem never_nil i t : nth_error (st_thr s) i = Some t -> t_res t <> ReturnedNil.
  Proof. intros Ht Er. apply (done_thread s i t reach_inv Ht); congruence. Qed.

  (* callers of services behind the same single address share one client *)
  Theorem same_address_same_client i j t u a c1 c2 :
    nth_error (st_thr s) i = Some t -> nth_error (st_thr s) j = Some u ->
    t_eps t = [a] -> t_eps u = [a] -> t_res t = Returned c1 -> t_res u = Returned c2 -> c1 = c2.
  Proof.
    intros Ht Hu Et Eu Rt Ru.
    destruct (caller_gets_pooled i t c1 Ht Rt) as [a1 [H1 [L1 _]]].
    destruct (caller_gets_pooled j u c2 Hu Ru) as [a2 [H2 [L2 _]]].
    rewrite Et in H1. rewrite Eu in H2. destruct H1 as [<-|[]]. destruct H2 as [<-|[]]. congruence.
  Qed.

  (* once every call has returned, every open connection is a pooled one ... *)
  Theorem open_are_pooled x : all_done s = true -> In x (s_open (st_sh s)) -> pooled x (s_pool (st_sh s)) = true.
  Proof. exact (inv_open_pooled s x reach_inv). Qed.

  (* ... hence at most one connection per address stays open *)
  Theorem one_connection_per_address x y t u a :
    all_done s = true -> In x (s_open (st_sh s)) -> In y (s_open (st_sh s)) ->
    nth_error (st_thr s) x = Some t -> nth_error (st_thr s) y = Some u ->
    t_sel t = Some a -> t_sel u = Some a -> x = y.
  Proof.
    intros Hd Hx Hy. exact (inv_pooled_inj s x y t u a reach_inv (open_are_pooled x Hd Hx) (open_are_pooled y Hd Hy)).
  Qed.
End C19.

Lemma enabled s i t :
  Inv s -> nth_error (st_thr s) i = Some t -> t_res t = Running ->
  (mode_of (st_sh s) i <> MN \/ (s_wh (st_sh s) = None /\ s_rh (st_sh s) = [])) ->
  exists sh' t', tstep (st_sh s) i t None = TNext sh' t'.
Proof.
  intros I Ht Er Hen. pose proof (tstep_sound _ _ i t (Inv_wf s I) (inv_thr s I) Ht Er None) as H.
  destruct (tstep (st_sh s) i t None) as [| |sh' t']; [|contradiction|eauto].
  destruct H as [(Hm & Hb)|(a & E & _)]; [|discriminate E]. destruct Hen as [Hn|(Hw & Hr)]; [contradiction | tauto].
Qed.

Lemma running_thread s : all_done s = false -> exists i t, nth_error (st_thr s) i = Some t /\ t_res t = Running.
Proof.
  unfold all_done. induction (st_thr s) as [|t l IH]; cbn [forallb]; [discriminate|].
  destruct (t_res t) eqn:Er; [exists 0, t; now split|..];
    (intro H; destruct (IH H) as (i & u & Hi & Hu); exists (S i), u; now split).
Qed.

(* the thread that can step: the writer, else a reader, else (the lock is free) any running one *)
Theorem no_deadlock s : Inv s -> all_done s = false -> exists l s', step s l = Run s'.
Proof.
  intros I Hd.
  assert (Hgo : forall i t, nth_error (st_thr s) i = Some t -> t_res t = Running ->
                 (mode_of (st_sh s) i <> MN \/ (s_wh (st_sh s) = None /\ s_rh (st_sh s) = [])) ->
                 exists l s', step s l = Run s').
  { intros i t Ht Er Hen. destruct (enabled s i t I Ht Er Hen) as (sh' & t' & E).
    exists (i, None). eexists. unfold step. now rewrite Ht, E. }
  assert (Hheld : forall i t, nth_error (st_thr s) i = Some t -> mode_of (st_sh s) i <> MN -> exists l s', step s l = Run s').
  { intros i t Ht Hm. apply (Hgo i t Ht); [|now left].
    destruct (t_res t) eqn:Er; [reflexivity|..]; destruct (done_thread s i t I Ht) as (H & _); congruence. }
  destruct (s_wh (st_sh s)) as [w|] eqn:Ew.
  - destruct (inv_wh s I w Ew) as (_ & t & Ht). apply (Hheld w t Ht). apply mode_of_MW in Ew. congruence.
  - destruct (s_rh (st_sh s)) as [|r rr] eqn:Erh.
    + destruct (running_thread s Hd) as (i & t & Ht & Er). exact (Hgo i t Ht Er (or_intror (conj eq_refl eq_refl))).
    + destruct (inv_rh s I) as [_ Hex]. destruct (Hex r) as [t Ht]; [rewrite Erh; now left|]. apply (Hheld r t Ht).
      unfold mode_of. now rewrite Ew, Erh, mem_cons, Nat.eqb_refl.
Qed.

(* every schedule is finite: each step consumes program text *)
Fixpoint ksize (k : code) : nat :=
  match k with
  | CNil => 0
  | CCons i r => S (match i with IRangeLookup h | ILookupSel h => ksize h | _ => 0 end + ksize r)
  end.

Definition potential (s : st) : nat := list_sum (map (fun t => ksize (t_k t)) (st_thr s)).

Inductive moves (t : thread) (ch : option nat) : thread -> Prop :=
| moves_next t' : t_res t' = Running -> ksize (t_k t') < ksize (t_k t) -> moves t ch t'
| moves_done r : t_k t <> CNil -> (r = Failed -> t_eps t = [] \/ ch = None) -> moves t ch (finish t r).

Lemma tstep_moves sh i t ch sh' t' : tstep sh i t ch = TNext sh' t' -> moves t ch t'.
Proof.
  intro E. unfold tstep in E. destruct (t_res t) eqn:Er; try discriminate E.
  destruct (t_k t) as [|ins k] eqn:Ek; [discriminate E|].
  (* one goal for every way in which the instruction can move *)
  destruct ins;
    repeat match type of E with
           | match ?x with _ => _ end = TNext _ _ => destruct x eqn:?; try discriminate E
           end;
    injection E as <- <-;
    first [ apply moves_done; [congruence | auto]
          | apply moves_next; [exact Er|]; rewrite Ek; cbn [ksize t_k set_k set_kc set_ksel]; apply Nat.lt_succ_r;
            first [apply Nat.le_add_l | apply Nat.le_add_r] ].
  (* the one goal the chain leaves: IReturnC, whose result is a match on t_c t, never Failed *)
  now destruct (t_c t).
Qed.

Lemma tstep_shrinks sh i t ch sh' t' : tstep sh i t ch = TNext sh' t' -> ksize (t_k t') < ksize (t_k t).
Proof.
  intro E. destruct (tstep_moves _ _ _ _ _ _ E) as [t' _ H|r H _]; [exact H|].
  destruct (t_k t); [now destruct H | apply Nat.lt_0_succ].
Qed.

(* a call fails only when its service has no endpoint or the dial failed *)
Theorem failed_only_without_endpoint sh i t ch sh' t' :
  tstep sh i t ch = TNext sh' t' -> t_res t' = Failed -> t_eps t = [] \/ ch = None.
Proof. intro E. destruct (tstep_moves _ _ _ _ _ _ E) as [t' H _|r _ H]; [congruence | exact H]. Qed.

Theorem exec_bounded ls : forall s s', exec s ls = Run s' -> List.length ls + potential s' <= potential s.
Proof.
  induction ls as [|l ls IH]; intros s s' E; cbn [exec] in E; [injection E as ->; apply Nat.le_refl|].
  destruct (step s l) as [s1| |] eqn:Es; try discriminate E. specialize (IH s1 s' E).
  unfold step in Es. destruct l as [i ch]. destruct (nth_error (st_thr s) i) as [t|] eqn:Ht; [|discriminate Es].
  destruct (tstep (st_sh s) i t ch) as [| |sh' t'] eqn:Et; try discriminate Es. injection Es as <-.
  pose proof (sum_upd_lt (fun t => ksize (t_k t)) _ _ _ _ Ht (tstep_shrinks _ _ _ _ _ _ Et)) as Hlt.
  exact (Nat.le_trans _ _ _ (le_n_S _ _ IH) Hlt).
Qed.

Lemma potential_init c epss : potential (init c epss) = List.length epss * ksize (prog c).
Proof.
  unfold potential, init. cbn [st_thr]. rewrite map_map. cbn [new_thread t_k].
  induction epss as [|e l IH]; [reflexivity|]. cbn [map List.length Nat.mul]. now rewrite <- IH.
Qed.

Lemma check_prog_pinned : check a_init (prog cfg_pinned) = false.
Proof. vm_compute. reflexivity. Qed.

(* two goroutines ask for services behind the same endpoint 0, both miss the first lookup,
   both dial; the first one pools its client, the second finds it under the write lock and
   leaves through RUnlock *)
Definition wit_epss : list (list nat) := [[0]; [0]].
Definition wit_sched : list label :=
  [ (0, None); (0, None); (0, None); (0, None);          (* T0: len test, RLock, lookup misses, RUnlock *)
    (1, None); (1, None); (1, None); (1, None);          (* T1: the same *)
    (0, Some 0); (1, Some 0);                            (* both dial endpoint 0 *)
    (0, None); (0, None); (0, None); (0, None); (0, None); (0, None); (0, None);  (* T0: Lock, miss, new, insert, Unlock, add handler, return *)
    (1, None); (1, None); (1, None) ].                   (* T1: Lock, lookup hits, RUnlock *)
Lemma refuted_runlock_after_lock : exec (init cfg_pinned wit_epss) wit_sched = Fatal.
Proof. vm_compute. reflexivity. Qed.
