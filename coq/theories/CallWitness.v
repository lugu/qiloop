(* CallWitness.v — the example configuration (one method, service 1, object 1, action 100, which reverses its payload)
   and the schedules that props/C04.v evaluates. *)
From QV Require Import Call.
Local Open Scope N_scope.

Definition ex_target (s o a : N) : tgt :=
  if s =? 1 then if o =? 1 then if a =? 100 then Meth else NoAct else NoObj else NoSvc.
Definition ex_fres (s o a : N) (p : bytes) : bytes := rev p.
(* the method of the example takes a list of bytes: every payload decodes (a method without
   parameters behaves the same way for the empty payload of the client's Cancel frame) *)
Definition ex_ok (s o a : N) (p : bytes) : bool := true.
Definition ex_callerr (s o a : N) (p : bytes) : bool := false.
Definition run_ex (cf : cfg) (ls : list label) : state := exec cf pinned_filter_pass ex_target ex_fres ex_ok ex_callerr init ls.
Definition p12 : bytes := [x01; x02].
Definition p345 : bytes := [x03; x04; x05].

(* two calls in flight on one connection, answers handled in the other order of the returns *)
Definition ex_two_calls : list label :=
  [LAlloc 0 1 1 100 p12; LAlloc 0 1 1 100 p345; LSend 0 1; LSend 0 0; LSrv 0; LSrv 0; LMbox 1 1; LMbox 1 1;
   LCli 0; LCli 0; LReturn 0 0; LReturn 0 1].

(* pinned tree: a call that is cancelled runs its method twice (the Cancel frame is dispatched on
   the action only) *)
Definition ex_cancel : list label :=
  [LAlloc 0 1 1 100 p12; LSend 0 0; LSrv 0; LMbox 1 1; LCancel 0 0; LSrv 0; LMbox 1 1].
Lemma ex_cancel_clean_once : ex (run_ex cfg_clean ex_cancel) (TCall 0 0) = 1%nat.
Proof. vm_compute. reflexivity. Qed.

(* pinned tree: a Capability (6) or Cancel (7) frame runs the method, and the Capability frame is answered with a
   Reply (one such frame on connection 0) *)
Definition ex_raw (ty : N) : list label := [LRaw 0 ty 1 1 100 7 p12; LSrv 0; LMbox 1 1].

(* pinned tree: a Post to an action that does not exist (or whose arguments cannot be decoded)
   is answered with an Error frame *)
Definition ex_post_noact : list label := [LRaw 0 T_Post 1 1 999 7 p12; LSrv 0; LMbox 1 1].
