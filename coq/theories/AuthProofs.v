(* AuthProofs.v — C06: no delivery to a service other than 0 without an earlier accepted
   authenticate on the same connection (the two halves are step_out and
   authed_only_by_own_accepted_request; props/C06.v puts them together); a refused connection is answered once, closed and
   silent ever after.  For every authenticator, every opaque-value reader, every service table,
   every number of connections and every list of labels.  After the section: the decoder's fuel suffices
   (dec_value_fuel), an encoder of capability maps for the examples, and the example runs of C06_nonvacuous. *)
From Coq Require Import String.
From QV Require Import Auth.
Local Open Scope N_scope.

Section Proofs.
Variable skip_other : bytes -> bytes -> option bytes.
Variable filter_pass : N -> bool.
Variable auth : bytes -> bytes -> bool.
Variable exists_obj : N -> N -> option bool.

Notation step := (step skip_other filter_pass auth exists_obj).
Notation trace := (trace skip_other filter_pass auth exists_obj).
Notation exec := (exec skip_other filter_pass auth exists_obj).
Notation accepted_b := (accepted_b skip_other filter_pass auth).

Definition accepted (f : frame) : Prop := accepted_b f = true.

Lemma get_setc_same st c x : get (setc st c x) c = x.
Proof. unfold get, setc; cbn. now rewrite Nat.eqb_refl. Qed.
Lemma get_setc_other st c c' x : c' <> c -> get (setc st c x) c' = get st c'.
Proof. intro H. unfold get, setc; cbn. destruct (Nat.eqb_spec c' c); [contradiction|reflexivity]. Qed.
Lemma get_set_mbox st q c : get (set_mbox st q) c = get st c.
Proof. reflexivity. Qed.
Lemma mbox_setc st c x : s_mbox (setc st c x) = s_mbox st.
Proof. reflexivity. Qed.
Lemma mbox_set_mbox st q : s_mbox (set_mbox st q) = q.
Proof. reflexivity. Qed.

(* The invariant: every flag, queued frame and mail is accounted for by an arrival in the history h. *)
Definition fr_ok (f : frame) : Prop := type_ok (f_type f) = true /\ filter_pass (f_type f) = true.

Definition conn_ok (h : list label) (c : nat) (a : bool) (q : list frame) : Prop :=
  (a = true -> exists fa, In (LArrive c fa) h /\ accepted fa) /\
  (forall f, In f q -> In (LArrive c f) h /\ fr_ok f).

Definition mbox_ok (h : list label) (q : list (nat * frame)) : Prop :=
  forall c f, In (c, f) q -> In (LArrive c f) h /\ fr_ok f /\ f_svc f = 0 /\ f_obj f = 0.

Definition inv (h : list label) (st : state) : Prop :=
  (forall c, conn_ok h c (c_authed (get st c)) (c_inq (get st c))) /\ mbox_ok h (s_mbox st).

Lemma inv_setc h st c x : inv h st -> conn_ok h c (c_authed x) (c_inq x) -> inv h (setc st c x).
Proof.
  intros [Hc Hm] Hx. split; [|exact Hm]. intro c'.
  destruct (Nat.eq_dec c' c) as [->|N]; [now rewrite get_setc_same|now rewrite get_setc_other].
Qed.

Lemma inv_set_mbox h st q : inv h st -> mbox_ok h q -> inv h (set_mbox st q).
Proof. intros [Hc _] Hq. split; [exact Hc|exact Hq]. Qed.

Lemma inv_init h : inv h init.
Proof. split; [intro c; split; cbn; [discriminate|contradiction]|intros c f []]. Qed.

Lemma inv_step h st l : inv h st -> In l h -> inv h (fst (step st l)).
Proof.
  intros H Hl. pose proof H as [Hc Hm]. destruct l as [c f|c f|c|c|]; cbn [Auth.step].
  - (* LArrive: f joins the queue of c *)
    destruct (c_closed (get st c)); [exact H|].
    destruct (type_ok (f_type f)) eqn:Ety; cbn [negb fst]; [|apply inv_setc; [exact H|exact (Hc c)]].
    destruct (filter_pass (f_type f)) eqn:Efi; cbn [negb]; [|exact H]. destruct (Nat.leb _ _); [|exact H].
    apply inv_setc; [exact H|]. destruct (Hc c) as [Ha Hq]. split; [exact Ha|].
    intros g [I|[<-|[]]]%in_app_or; [now apply Hq|]. repeat split; assumption.
  - (* LDropFull *) destruct (_ || _); [exact H|]. destruct (Nat.leb _ _); exact H.
  - (* LGarbage *) destruct (c_closed (get st c)); [exact H|]. apply inv_setc; [exact H|exact (Hc c)].
  - (* LConn: f leaves the queue of c, for service 0's mailbox or for good *)
    destruct (c_dead (get st c)); [exact H|]. destruct (Hc c) as [Ha Hq].
    destruct (c_inq (get st c)) as [|f q]; [exact H|].
    assert (Hsub : conn_ok h c (c_authed (get st c)) q) by (split; [exact Ha|intros g I; apply Hq; now right]).
    destruct (negb _ && negb _); [now apply inv_setc|].
    destruct (f_svc f =? 0) eqn:Es; [|now apply inv_setc]. destruct (f_obj f =? 0) eqn:Eo; [|now apply inv_setc].
    destruct (Nat.leb _ _); [|exact H]. apply inv_set_mbox; [now apply inv_setc|].
    intros c' g [I|[[= <- <-]|[]]]%in_app_or; [now apply Hm|].
    destruct (Hq f) as [I F]; [now left|]. apply N.eqb_eq in Es, Eo. auto.
  - (* LMbox: the only place where a flag is raised *)
    destruct (s_mbox st) as [|[c f] q]; [exact H|].
    assert (Hk : inv h (set_mbox st q)) by (apply inv_set_mbox; [exact H|]; intros c' g I; apply Hm; now right).
    destruct (f_act f =? AuthenticateActionID) eqn:Ea; cbn [negb]; [|exact Hk].
    destruct (dec_capmap skip_other (f_payload f)) as [m rest| |] eqn:Ed; try exact Hk.
    destruct (creds m) as [[u t]|] eqn:Ecr; [|exact Hk]. destruct (auth u t) eqn:Eau; [|exact Hk].
    apply inv_setc; [exact Hk|]. destruct (Hm c f) as (I & [Ft Ff] & Fs & Fo); [now left|].
    split; [|exact (proj2 (Hc c))]. intros _. exists f. split; [exact I|].
    unfold accepted, Auth.accepted_b, is_auth_req, frame_creds. rewrite Ft, Ff, Fs, Fo, Ea, Ed, Ecr. exact Eau.
Qed.

Lemma exec_inv h st ls : inv h st -> incl ls h -> inv h (exec st ls).
Proof.
  revert st. induction ls as [|l r IH]; intros st H Hi; cbn [Auth.exec]; [exact H|].
  apply IH; [apply inv_step; [exact H|apply Hi; now left]|intros x Hx; apply Hi; now right].
Qed.

Lemma send_In x c ty f b o : In o (send x c ty f b) ->
  c_closed x = false /\ o = OFrame c ty (f_svc f) (f_obj f) (f_act f) (f_id f) b.
Proof. unfold send. destruct (c_closed x); [intros []|intros [<-|[]]; auto]. Qed.

Lemma close_In x c o : In o (close_outs x c) -> c_closed x = false /\ o = OClose c.
Proof. unfold close_outs. destruct (c_closed x); [intros []|intros [<-|[]]; auto]. Qed.

Definition out_ok (st : state) (o : out) : Prop :=
  match o with
  | OFrame c _ _ _ _ _ _ | OClose c => c_closed (get st c) = false
  | ODeliver c f => c_authed (get st c) = true /\ f_svc f <> 0 /\ c_dead (get st c) = false
  | OAuthCall _ _ _ => True
  end.

Lemma step_out st l o : In o (snd (step st l)) -> out_ok st o.
Proof.
  assert (S : forall c ty f b, In o (send (get st c) c ty f b) -> out_ok st o) by (intros c ty f b [E ->]%send_In; exact E).
  destruct l as [c g|c g|c|c|]; cbn [Auth.step].
  - (* LArrive *) destruct (c_closed (get st c)) eqn:Ecl; [intros []|].
    destruct (type_ok _); cbn [negb snd]; [|intros [<-|[]]; exact Ecl].
    destruct (filter_pass _); cbn [negb snd]; [|intros []]. destruct (Nat.leb _ _); cbn [snd]; [intros []|].
    destruct (_ =? _); [apply S|intros []].
  - (* LDropFull *) destruct (_ || _); [intros []|]. destruct (Nat.leb _ _); cbn [snd]; [|intros []]. destruct (_ =? _); [apply S|intros []].
  - (* LGarbage *) destruct (c_closed (get st c)) eqn:Ecl; cbn [snd]; [intros []|intros [<-|[]]; exact Ecl].
  - (* LConn *) destruct (c_dead (get st c)) eqn:Ed; [intros []|]. destruct (c_inq (get st c)) as [|g q]; [intros []|].
    destruct (f_svc g =? 0) eqn:Es.
    + rewrite andb_false_r. destruct (f_obj g =? 0); [destruct (Nat.leb _ _); intros []|apply S].
    + rewrite andb_true_r. destruct (c_authed (get st c)) eqn:Ea; cbn [negb snd].
      * intros [<-|I]; [apply N.eqb_neq in Es; cbn; auto|].
        destruct (exists_obj _ _) as [[|]|]; [destruct I|now apply S in I..].
      * intros [I|[E ->]%close_In]%in_app_or; [now apply S in I|exact E].
  - (* LMbox *) destruct (s_mbox st) as [|[c g] q]; [intros []|]. destruct (negb _); [apply S|].
    destruct (dec_capmap _ _) as [m r| |]; try apply S. destruct (creds m) as [[u t]|]; [|apply S].
    destruct (auth u t); cbn [snd]; (intros [<-|I]; [exact I|now apply S in I]).
Qed.

Lemma trace_cons st l r : trace st (l :: r) = (l, snd (step st l)) :: trace (fst (step st l)) r.
Proof. cbn [Auth.trace]. now destruct (step st l). Qed.

Lemma trace_nth st ls i l o :
  nth_error (trace st ls) i = Some (l, o) -> o = snd (step (exec st (firstn i ls)) l).
Proof.
  revert st i. induction ls as [|l0 r IH]; intros st [|i]; try discriminate; rewrite trace_cons; cbn.
  - now intros [= -> ->].
  - apply IH.
Qed.

Lemma in_firstn_nth {A} (x : A) l i : In x (firstn i l) -> exists j, (j < i)%nat /\ nth_error l j = Some x.
Proof.
  revert i; induction l as [|a l IH]; intros [|i]; cbn; try tauto.
  intros [->|I].
  - exists 0%nat; split; [lia|reflexivity].
  - destruct (IH i I) as [j [Hj E]]. exists (S j); split; [lia|exact E].
Qed.

(* the authentication flag of c after a run: the only way to obtain it *)
Theorem authed_only_by_own_accepted_request : forall ls c,
  c_authed (get (exec init ls) c) = true -> exists fa, In (LArrive c fa) ls /\ accepted fa.
Proof. intros ls c. exact (proj1 (proj1 (exec_inv ls init ls (inv_init ls) (incl_refl ls)) c)). Qed.

Definition silent (st : state) (c : nat) : Prop :=
  c_closed (get st c) = true /\ c_dead (get st c) = true.

Lemma silent_setc st c c0 x : silent st c -> (c0 = c -> c_closed x = true /\ c_dead x = true) -> silent (setc st c0 x) c.
Proof.
  intros H Hx. unfold silent. destruct (Nat.eq_dec c c0) as [->|N]; [rewrite get_setc_same; auto|now rewrite get_setc_other].
Qed.

Lemma silent_step st l c : silent st c ->
  silent (fst (step st l)) c /\ forall o, In o (snd (step st l)) -> out_conn o <> Some c.
Proof.
  intros H. pose proof H as [Hcl Hde]. split.
  2: { (* out_ok: a frame or a close on c needs c_closed = false, a delivery c_dead = false (its last conjunct);
          OAuthCall names no connection *)
       intros o Ho%step_out E. destruct o; cbn in E, Ho; try discriminate; injection E as ->; [| |destruct Ho as (_ & _ & Ho)]; congruence. }
  destruct l as [c0 g|c0 g|c0|c0|]; cbn [Auth.step].
  - (* LArrive *) destruct (c_closed (get st c0)) eqn:E0; [exact H|].
    destruct (type_ok _); cbn [negb fst]; [|apply silent_setc; [exact H|intros ->; congruence]].
    destruct (filter_pass _); cbn [negb]; [|exact H]. destruct (Nat.leb _ _); [|exact H].
    apply silent_setc; [exact H|intros ->; congruence].
  - (* LDropFull *) destruct (_ || _); [exact H|]. destruct (Nat.leb _ _); exact H.
  - (* LGarbage *) destruct (c_closed (get st c0)) eqn:E0; [exact H|]. apply silent_setc; [exact H|intros ->; congruence].
  - (* LConn *) destruct (c_dead (get st c0)) eqn:E0; [exact H|]. destruct (c_inq (get st c0)) as [|g q]; [exact H|].
    assert (S : forall x, silent (setc st c0 x) c) by (intro; apply silent_setc; [exact H|intros ->; congruence]).
    destruct (negb _ && negb _); [apply S|]. destruct (f_svc g =? 0); [|apply S]. destruct (f_obj g =? 0); [|apply S].
    destruct (Nat.leb _ _); [apply S|exact H].
  - (* LMbox *) destruct (s_mbox st) as [|[c1 g] q]; [exact H|]. destruct (negb _); [exact H|].
    destruct (dec_capmap _ _) as [m r| |]; try exact H. destruct (creds m) as [[u t]|]; [|exact H].
    destruct (auth u t); [|exact H]. apply silent_setc; [exact H|intros ->; auto].
Qed.

Lemma silent_forever st c ls : silent st c ->
  forall l o, In (l, o) (trace st ls) -> forall e, In e o -> out_conn e <> Some c.
Proof.
  revert st. induction ls as [|l0 r IH]; intros st Hs l o; [intros []|]. rewrite trace_cons.
  destruct (silent_step st l0 c Hs) as [Hs' Ho]. intros [[= <- <-]|I]; [exact Ho|exact (IH _ Hs' l o I)].
Qed.

(* the consumer goroutine of c is about to handle a frame for a service other than 0 while
   the connection is not authenticated *)
Definition refusal_due (st : state) (c : nat) (f : frame) : Prop :=
  c_dead (get st c) = false /\ c_authed (get st c) = false /\
  (exists q, c_inq (get st c) = f :: q) /\ f_svc f <> 0.

Theorem unauthenticated_is_refused_and_closed : forall pre post c f,
  let st := exec init pre in
  refusal_due st c f ->
  exists rest,
    trace st (LConn c :: post) =
      (LConn c, if c_closed (get st c) then []
                else [OFrame c T_Error (f_svc f) (f_obj f) (f_act f) (f_id f) (BErr ENotAuth); OClose c]) :: rest /\
    forall l o, In (l, o) rest -> forall e, In e o -> out_conn e <> Some c.
Proof.
  intros pre post c f st (Hd & Ha & [q Hq] & Hs%N.eqb_neq). rewrite trace_cons.
  cbn [Auth.step]. rewrite Hd, Hq, Ha, Hs. cbn [negb andb fst snd]. eexists; split.
  - unfold send_err, send, close_outs. destruct (c_closed (get st c)); reflexivity.
  - apply silent_forever. split; rewrite get_setc_same; reflexivity.
Qed.

(* two requests whose maps give the same user/token lookups are indistinguishable: a forged
   __qi_auth_state entry, or any other entry, has no influence *)
Theorem only_credentials_matter : forall st c f f' q,
  s_mbox st = (c, f) :: q ->
  f_type f' = f_type f -> f_svc f' = f_svc f -> f_obj f' = f_obj f -> f_act f' = f_act f -> f_id f' = f_id f ->
  (exists m r m' r', dec_capmap skip_other (f_payload f) = DOk m r /\
                     dec_capmap skip_other (f_payload f') = DOk m' r' /\ creds m = creds m') ->
  step (set_mbox st ((c, f') :: q)) LMbox = (let '(s, o) := step st LMbox in (s, o)).
Proof.
  intros st c f f' q Hm Et Es Eo Ea Ei [m [r [m' [r' [D [D' Ec]]]]]].
  cbn [Auth.step]. rewrite Hm, mbox_set_mbox, Ea, D, D', Ec.
  unfold send_err, send_reply, send. rewrite Es, Eo, Ea, Ei. rewrite !get_set_mbox.
  destruct (f_act f =? AuthenticateActionID); cbn [negb]; [|reflexivity].
  destruct (creds m') as [[u t]|]; [|reflexivity].
  destruct (auth u t); reflexivity.
Qed.

(* wrongly typed credentials are refused without consulting the authenticator *)
Theorem wrongly_typed_credentials_refused : forall st c f q m r,
  s_mbox st = (c, f) :: q -> f_act f = AuthenticateActionID ->
  dec_capmap skip_other (f_payload f) = DOk m r -> creds m = None ->
  step st LMbox = (set_mbox st q, send_reply (get st c) c f BAuthRefused).
Proof.
  intros st c f q m r Hm Ea D Ec. cbn [Auth.step]. rewrite Hm, Ea, D, Ec. reflexivity.
Qed.

End Proofs.

Lemma read_string_spec b :
  match read_string b with DOk _ r => (List.length r + 4 <= List.length b)%nat | DErr => True | DFuel => False end.
Proof.
  unfold read_string, read_u32. destruct (Nat.ltb_spec (List.length b) 4) as [H|H]; [exact I|].
  pose proof (skipn_length 4 b) as L. destruct (_ =? 0); [lia|].
  destruct (_ <? _); [exact I|]. destruct (_ <? _); [exact I|]. rewrite skipn_length. lia.
Qed.

Lemma read_fixed_nofuel k v b : read_fixed k v b <> DFuel.
Proof. unfold read_fixed. now destruct (_ <? _)%nat. Qed.

Lemma if_ne {A} (c : bool) (a b d : A) : a <> d -> b <> d -> (if c then a else b) <> d.
Proof. now destruct c. Qed.

(* the model's fuel never runs out: each nested "m" consumes at least its 4-byte length *)
Lemma dec_value_fuel skip fuel b : (List.length b < fuel)%nat -> dec_value skip fuel b <> DFuel.
Proof.
  revert b. induction fuel as [|n IH]; intros b Hl; [lia|]. cbn [dec_value].
  pose proof (read_string_spec b) as E. destruct (read_string b) as [s r| |]; [|discriminate|destruct E].
  repeat (apply if_ne; [apply read_fixed_nofuel|]).   (* the signatures of fixed size *)
  apply if_ne; [pose proof (read_string_spec r); now destruct (read_string r)|].
  apply if_ne; [discriminate|]. apply if_ne; [apply IH; lia|]. now destruct (skip s r).
Qed.

Definition enc_string (s : bytes) : bytes := le 4 (N.of_nat (List.length s)) ++ s.
Definition enc_cval (v : cval) : bytes :=
  match v with
  | VStr s => enc_string (bs "s"%string) ++ enc_string s
  | VUint n => enc_string (bs "I"%string) ++ le 4 n
  | VInt n => enc_string (bs "i"%string) ++ le 4 n
  | VOther => enc_string (bs "v"%string)
  end.
Definition enc_capmap (m : capmap) : bytes :=
  le 4 (N.of_nat (List.length m)) ++ flat_map (fun e => enc_string (fst e) ++ enc_cval (snd e)) m.

Definition ex_skip (_ _ : bytes) : option bytes := None.
Definition ex_auth (u t : bytes) : bool := eqb_bytes u (bs "nao"%string) && eqb_bytes t (bs "secret"%string).
Definition ex_exists (s o : N) : option bool := if s =? 1 then Some (o =? 1) else None.
Definition ex_good : frame :=
  {| f_type := T_Call; f_svc := 0; f_obj := 0; f_act := 8; f_id := 2;
     f_payload := enc_capmap [(KeyUser, VStr (bs "nao"%string)); (KeyToken, VStr (bs "secret"%string))] |}.
(* no acceptable credentials, but a forged state entry (uint 3) and an int 3 under another key *)
Definition ex_forged : frame :=
  {| f_type := T_Call; f_svc := 0; f_obj := 0; f_act := 8; f_id := 2;
     f_payload := enc_capmap [(KeyState, VUint 3); (KeyUser, VStr (bs "nao"%string)); (KeyToken, VStr (bs "wrong"%string));
                              (bs "x", VInt 3)] |}.
Definition ex_probe : frame :=
  {| f_type := T_Post; f_svc := 1; f_obj := 1; f_act := 100; f_id := 4; f_payload := [] |}.

Lemma ex_good_accepted : accepted ex_skip pinned_filter_pass ex_auth ex_good.
Proof. vm_compute. reflexivity. Qed.

Lemma ex_run_good :
  Auth.trace ex_skip pinned_filter_pass ex_auth ex_exists init [LArrive 0 ex_good; LConn 0; LMbox; LArrive 0 ex_probe; LConn 0] =
  [(LArrive 0 ex_good, []); (LConn 0, []);
   (LMbox, [OAuthCall (bs "nao"%string) (bs "secret"%string) true; OFrame 0 T_Reply 0 0 8 2 BAuthDone]);
   (LArrive 0 ex_probe, []); (LConn 0, [ODeliver 0 ex_probe])].
Proof. vm_compute. reflexivity. Qed.

(* connection 1 authenticates; connection 0 forges the state entry: 0 is refused and closed, and
   its later frames produce nothing *)
Lemma ex_run_forged :
  map snd (Auth.trace ex_skip pinned_filter_pass ex_auth ex_exists init
     [LArrive 1 ex_good; LConn 1; LMbox; LArrive 0 ex_forged; LConn 0; LMbox; LArrive 0 ex_probe; LConn 0;
      LArrive 0 ex_good; LConn 0; LMbox]) =
  [[]; []; [OAuthCall (bs "nao"%string) (bs "secret"%string) true; OFrame 1 T_Reply 0 0 8 2 BAuthDone];
   []; []; [OAuthCall (bs "nao"%string) (bs "wrong"%string) false; OFrame 0 T_Reply 0 0 8 2 BAuthRefused];
   []; [OFrame 0 T_Error 1 1 100 4 (BErr ENotAuth); OClose 0]; []; []; []].
Proof. vm_compute. reflexivity. Qed.
