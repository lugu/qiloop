(* PegProofs.v — lemmas about the combinators of Peg.v, over any node type, in this order.
   String lemmas (append, span, skip_ws, strip_prefix; character classes against single characters; a match on a
   literal character as a test).  About every input: the equations for the result of a
   combinator as a match on its child's result, with their conditional forms; inversion of a successful And or Or;
   termination ([answers], with [words] for terminals and [measures] for what a bound and an order must satisfy;
   good / goodS are the case of the length); parsers that answer alike ([upto], [feq]); the equations for the step
   count.  About one input: runs, result and steps together; the loops by the chain of their iterations (many_run
   with the steps; many_ok, kleene_chain, sep_ok without). *)
From Coq Require Import String Ascii List NArith Arith Lia.
From QV Require Export ListFacts.
From QV Require Import Peg.
Import ListNotations.
Local Open Scope string_scope.

Lemma sapp_assoc (a b c : string) : (a ++ b) ++ c = a ++ (b ++ c).
Proof. induction a as [|x a IH]; cbn; [reflexivity|now rewrite IH]. Qed.

Lemma sapp_nil_r (a : string) : a ++ "" = a.
Proof. induction a as [|x a IH]; cbn; [reflexivity|now rewrite IH]. Qed.

Lemma slen_app (a b : string) : String.length (a ++ b) = String.length a + String.length b.
Proof. induction a as [|x a IH]; cbn; [reflexivity|now rewrite IH]. Qed.

Lemma sconcat_cons (x : string) (xs : list string) : String.concat "" (x :: xs) = x ++ String.concat "" xs.
Proof. destruct xs as [|y ys]; cbn; [now rewrite sapp_nil_r|reflexivity]. Qed.

(* [autorewrite with sapp] brings both sides of an equation between strings into the form
   c1 :: c2 :: .. (a ++ (b ++ ..)) *)
Lemma sapp_cons c a b : String c a ++ b = String c (a ++ b).
Proof. reflexivity. Qed.
Lemma sapp_nil_l b : "" ++ b = b.
Proof. reflexivity. Qed.
#[export] Hint Rewrite sapp_assoc sapp_cons sapp_nil_l : sapp.

Fixpoint all_chars_p (p : ascii -> bool) (s : string) : bool :=
  match s with EmptyString => true | String c r => p c && all_chars_p p r end.

Lemma span_app p a c x : all_chars_p p a = true -> p c = false -> span p (a ++ String c x) = (a, String c x).
Proof.
  induction a as [|y a IH]; cbn; intros Ha Hc.
  - now rewrite Hc.
  - apply andb_prop in Ha as [Hy Ha]. rewrite Hy, IH by assumption. reflexivity.
Qed.

Lemma span_app_nil p a : all_chars_p p a = true -> span p a = (a, "").
Proof.
  induction a as [|y a IH]; cbn; intro Ha; [reflexivity|].
  apply andb_prop in Ha as [Hy Ha]. now rewrite Hy, IH.
Qed.

Lemma span_app_follow p a rest : all_chars_p p a = true ->
  match rest with EmptyString => True | String c _ => p c = false end -> span p (a ++ rest) = (a, rest).
Proof. destruct rest as [|c x]; intros Ha Hc; [rewrite sapp_nil_r; now apply span_app_nil|now apply span_app]. Qed.

Lemma span_spec p s a b : span p s = (a, b) ->
  s = a ++ b /\ all_chars_p p a = true /\ match b with String c _ => p c = false | EmptyString => True end.
Proof.
  revert a b; induction s as [|c s IH]; cbn; intros a b H.
  - inversion H; subst. cbn. auto.
  - destruct (p c) eqn:Hc.
    + destruct (span p s) as [a' b'] eqn:E. inversion H; subst.
      destruct (IH a' b eq_refl) as (H1 & H2 & H3). subst s. cbn. rewrite Hc, H2. auto.
    + inversion H; subst. cbn. auto.
Qed.

Lemma skip_ws_len s : String.length (skip_ws s) <= String.length s.
Proof. induction s as [|c s IH]; cbn; [lia|]. destruct (is_ws c); cbn; lia. Qed.

Lemma length_opens (c : ascii) s r : skip_ws s = String c r -> String.length r < String.length s.
Proof. intro E. pose proof (skip_ws_len s) as H. rewrite E in H. cbn in H. lia. Qed.

Lemma strip_prefix_spec m s r : strip_prefix m s = Some r -> s = m ++ r.
Proof.
  revert s; induction m as [|a m IH]; cbn; intros s H; [now inversion H|].
  destruct s as [|b s]; [discriminate|]. destruct (Ascii.eqb a b) eqn:E; [|discriminate].
  apply Ascii.eqb_eq in E. subst b. now rewrite (IH s H).
Qed.

(* white space and '<' are single characters that the classes reject: no class member equals them *)
Lemma class_neq (p : ascii -> bool) k c : p k = false -> p c = true -> Ascii.eqb c k = false.
Proof. intros Hk Hc. destruct (Ascii.eqb_spec c k); [congruence|reflexivity]. Qed.

Lemma class_not_ws (p : ascii -> bool) c :
  p " "%char = false -> p "009"%char = false -> p "013"%char = false -> p "010"%char = false ->
  p c = true -> @is_ws c = false.
Proof. intros H1 H2 H3 H4 Hc. unfold is_ws. now rewrite !(class_neq p _ c) by assumption. Qed.

(* a match on a literal character, as an equality test (struct_name matches on '<' and '>').
   The bits are split in the order in which the match tests them: a wrong bit decides both sides. *)
Ltac bit b := destruct b; try reflexivity.
Lemma match_lt {A} (x : ascii) (f g : A) :
  match x with "<"%char => f | _ => g end = if Ascii.eqb x "<" then f else g.
Proof. destruct x as [b0 b1 b2 b3 b4 b5 b6 b7]. bit b0. bit b1. bit b2. bit b3. bit b4. bit b5. bit b6. bit b7. Qed.
Lemma match_gt {A} (x : ascii) (f g : A) :
  match x with ">"%char => f | _ => g end = if Ascii.eqb x ">" then f else g.
Proof. destruct x as [b0 b1 b2 b3 b4 b5 b6 b7]. bit b0. bit b1. bit b2. bit b3. bit b4. bit b5. bit b6. bit b7. Qed.

Section PegProofs.
Context {V : Type}.
Notation node := (node V).
Notation parser := (parser V).
Notation callback := (callback V).

Definition lift {A B} (f : A -> B) (r : res A) : res B :=
  match r with Ok a s => Ok (f a) s | Fail => Fail | NoFuel => NoFuel | Hang => Hang end.

Lemma lift_ok {A B} (f : A -> B) x b r : lift f x = Ok b r -> exists a, x = Ok a r /\ b = f a.
Proof. destruct x; inversion 1. eauto. Qed.

(* both sides compute in each case of the outcome of the parser or loop [x] *)
Ltac res_cases x := destruct x as [[? ?| | |] ?]; reflexivity.

(* Equations: the result of a combinator on any input, as a match on the result of its child, and the conditional
   forms for a child that answered Ok or Fail.  Inversion, [answers], [upto] and the chains go through them; the
   runs unfold the combinators themselves. *)
Lemma and_loop_nil s : fst (@and_loop V [] s) = Ok [] s.
Proof. reflexivity. Qed.

Lemma and_loop_fst_cons (p : parser) ps s :
  fst (and_loop (p :: ps) s) =
  match fst (p s) with
  | Ok n r => lift (cons n) (fst (and_loop ps r))
  | Fail => Fail | NoFuel => NoFuel | Hang => Hang
  end.
Proof.
  cbn [and_loop]. destruct (p s) as [[n r| | |] k]; cbn [fst]; try reflexivity. res_cases (and_loop ps r).
Qed.

Lemma and_loop_cons_ok (p : parser) ps s n r : fst (p s) = Ok n r ->
  fst (and_loop (p :: ps) s) = lift (cons n) (fst (and_loop ps r)).
Proof. intro H. now rewrite and_loop_fst_cons, H. Qed.

Lemma and_loop_cons_fail (p : parser) ps s : fst (p s) = Fail -> fst (and_loop (p :: ps) s) = Fail.
Proof. intro H. now rewrite and_loop_fst_cons, H. Qed.

Lemma and_loop_app (ps qs : list parser) s :
  fst (and_loop (ps ++ qs) s) =
  match fst (and_loop ps s) with
  | Ok ns r => lift (app ns) (fst (and_loop qs r))
  | Fail => Fail | NoFuel => NoFuel | Hang => Hang
  end.
Proof.
  revert s; induction ps as [|p ps IH]; intro s; cbn [app]; [cbn [and_loop fst]; now destruct (fst (and_loop qs s))|].
  rewrite !and_loop_fst_cons. destruct (fst (p s)) as [n r| | |]; try reflexivity. rewrite IH.
  destruct (fst (and_loop ps r)) as [ns r'| | |]; try reflexivity. cbn [lift]. now destruct (fst (and_loop qs r')).
Qed.

Lemma pand_fst cb (ps : list parser) s : fst (pand cb ps s) = lift (docb cb) (fst (and_loop ps s)).
Proof. unfold pand. res_cases (and_loop ps s). Qed.

Lemma por_nil cb s : fst (@por V cb [] s) = Fail.
Proof. reflexivity. Qed.

Lemma por_fst_cons cb (p : parser) ps s :
  fst (por cb (p :: ps) s) =
  match fst (p s) with
  | Ok n r => Ok (docb cb [n]) r
  | Fail => fst (por cb ps s)
  | NoFuel => NoFuel | Hang => Hang
  end.
Proof.
  cbn [por]. destruct (p s) as [[n r| | |] k]; cbn [fst]; try reflexivity.
  destruct (por cb ps s) as [y k']. reflexivity.
Qed.

Lemma por_cons_ok cb (p : parser) ps s n r : fst (p s) = Ok n r -> fst (por cb (p :: ps) s) = Ok (docb cb [n]) r.
Proof. intro H. now rewrite por_fst_cons, H. Qed.

Lemma por_cons_fail cb (p : parser) ps s : fst (p s) = Fail -> fst (por cb (p :: ps) s) = fst (por cb ps s).
Proof. intro H. now rewrite por_fst_cons, H. Qed.

Lemma kleene_loop_fst_S n (p : parser) s :
  fst (kleene_loop (S n) p s) =
  match fst (p s) with
  | Ok x r => if Nat.ltb (String.length r) (String.length s)
              then lift (cons x) (fst (kleene_loop n p r)) else Hang
  | Fail => Ok [] s
  | NoFuel => NoFuel | Hang => Hang
  end.
Proof.
  cbn [kleene_loop]. destruct (p s) as [[x r| | |] k]; cbn [fst]; try reflexivity.
  destruct (Nat.ltb _ _); [|reflexivity]. res_cases (kleene_loop n p r).
Qed.

Lemma kleene_loop_ok n (p : parser) s x r : fst (p s) = Ok x r -> String.length r < String.length s ->
  fst (kleene_loop (S n) p s) = lift (cons x) (fst (kleene_loop n p r)).
Proof. intros H Hl. apply Nat.ltb_lt in Hl. now rewrite kleene_loop_fst_S, H, Hl. Qed.

Lemma kleene_loop_fail n (p : parser) s : fst (p s) = Fail -> fst (kleene_loop (S n) p s) = Ok [] s.
Proof. intro H. now rewrite kleene_loop_fst_S, H. Qed.

Lemma kleene_fst cb (p : parser) s :
  fst (kleene cb p s) = lift (docb cb) (fst (kleene_loop (S (String.length s)) p s)).
Proof. unfold kleene. res_cases (kleene_loop (S (String.length s)) p s). Qed.

Lemma maybe_fst cb (p : parser) s :
  fst (maybe cb p s) =
  match fst (p s) with
  | Ok n r => Ok (docb cb [n]) r
  | Fail => Ok NNone s
  | NoFuel => NoFuel | Hang => Hang
  end.
Proof. unfold maybe. res_cases (p s). Qed.

Lemma maybe_ok cb (p : parser) s n r : fst (p s) = Ok n r -> fst (maybe cb p s) = Ok (docb cb [n]) r.
Proof. intro H. now rewrite maybe_fst, H. Qed.

Lemma maybe_fail cb (p : parser) s : fst (p s) = Fail -> fst (maybe cb p s) = Ok NNone s.
Proof. intro H. now rewrite maybe_fst, H. Qed.

Lemma sep_loop_fst_S n (p sep : parser) s :
  fst (sep_loop (S n) p sep s) =
  match fst (p s) with
  | Ok x r =>
      match fst (sep r) with
      | Ok _ r2 => if Nat.ltb (String.length r2) (String.length s)
                   then lift (cons x) (fst (sep_loop n p sep r2)) else Hang
      | Fail => Ok [x] r
      | NoFuel => NoFuel | Hang => Hang
      end
  | Fail => Ok [] s
  | NoFuel => NoFuel | Hang => Hang
  end.
Proof.
  cbn [sep_loop]. destruct (p s) as [[x r| | |] k]; cbn [fst]; try reflexivity.
  destruct (sep r) as [[y r2| | |] k2]; cbn [fst]; try reflexivity.
  destruct (Nat.ltb _ _); [|reflexivity]. res_cases (sep_loop n p sep r2).
Qed.

Lemma sep_loop_none n (p sep : parser) s : fst (p s) = Fail -> fst (sep_loop (S n) p sep s) = Ok [] s.
Proof. intro H. now rewrite sep_loop_fst_S, H. Qed.

Lemma sep_loop_last n (p sep : parser) s x r : fst (p s) = Ok x r -> fst (sep r) = Fail ->
  fst (sep_loop (S n) p sep s) = Ok [x] r.
Proof. intros H H2. now rewrite sep_loop_fst_S, H, H2. Qed.

Lemma sep_loop_more n (p sep : parser) s x r y r2 : fst (p s) = Ok x r -> fst (sep r) = Ok y r2 ->
  String.length r2 < String.length s ->
  fst (sep_loop (S n) p sep s) = lift (cons x) (fst (sep_loop n p sep r2)).
Proof. intros H H2 Hl. apply Nat.ltb_lt in Hl. now rewrite sep_loop_fst_S, H, H2, Hl. Qed.

Lemma many_sep_fst cb (p sep : parser) s :
  fst (many_sep cb p sep s) =
  match fst (sep_loop (S (String.length s)) p sep s) with
  | Ok [] _ => Fail
  | Ok ns r => Ok (docb cb ns) r
  | Fail => Fail
  | NoFuel => NoFuel
  | Hang => Hang
  end.
Proof. unfold many_sep. destruct (sep_loop _ p sep s) as [[[|x ns] r| | |] k]; reflexivity. Qed.

(* what a successful And says about its children.  [and_inv ps s k] unfolds, for a literal list
   of children, into one node, one rest and one equation per child, with [k] applied to the nodes
   and the last rest: a single intro pattern takes a whole And apart. *)
Fixpoint and_inv (ps : list parser) (s : string) (k : list node -> string -> Prop) : Prop :=
  match ps with
  | [] => k [] s
  | p :: ps' => exists n s1, fst (p s) = Ok n s1 /\ and_inv ps' s1 (fun ns => k (n :: ns))
  end.

Lemma and_loop_ok ps : forall s ns r (k : list node -> string -> Prop),
  fst (and_loop ps s) = Ok ns r -> k ns r -> and_inv ps s k.
Proof.
  induction ps as [|p ps IH]; intros s ns r k H Hk.
  - inversion H; subst. exact Hk.
  - rewrite and_loop_fst_cons in H. destruct (fst (p s)) as [n s1| | |] eqn:Ep; try discriminate.
    apply lift_ok in H as (ns' & E & ->). exists n, s1. split; [exact Ep|]. exact (IH s1 ns' r _ E Hk).
Qed.

Lemma pand_ok cb ps s n r : fst (pand cb ps s) = Ok n r ->
  and_inv ps s (fun ns r' => n = docb cb ns /\ r' = r).
Proof.
  rewrite pand_fst. intro H. apply lift_ok in H as (ns & E & ->). apply (and_loop_ok ps s ns r); auto.
Qed.

Lemma por_inv cb ps s n r : fst (por cb ps s) = Ok n r ->
  exists (p : parser) m, In p ps /\ fst (p s) = Ok m r /\ n = docb cb [m].
Proof.
  induction ps as [|p ps IH]; [discriminate|]. rewrite por_fst_cons.
  destruct (fst (p s)) as [m s1| | |] eqn:E; try discriminate; intro H.
  - inversion H; subst. exists p, m. cbn. auto.
  - destruct (IH H) as (q & m & Hin & Hq & Hn). exists q, m. cbn. auto.
Qed.

(* Termination, for the totality of the grammars (signature, IDL) and for the recursion depth of the signature
   parser.  [answers P R p]: on the inputs that satisfy P the parser answers Ok or Fail, and what an Ok leaves stands
   in R to the input *)
Definition answers {A} (P : string -> Prop) (R : string -> string -> Prop) (p : string -> res A * N) : Prop :=
  forall s, P s -> match fst (p s) with Ok _ r => R s r | Fail => True | _ => False end.

Lemma answers_imp {A} (P : string -> Prop) (R R' : string -> string -> Prop) (p : string -> res A * N) :
  (forall s r, R s r -> R' s r) -> answers P R p -> answers P R' p.
Proof. intros HR H s Hs. specialize (H s Hs). destruct (fst (p s)); auto. Qed.

Lemma por_answers cb (ps : list parser) P R : Forall (answers P R) ps -> answers P R (por cb ps).
Proof.
  induction 1 as [|p ps Hp HF IH]; intros s Hs; [exact I|]. rewrite por_fst_cons.
  specialize (Hp s Hs). destruct (fst (p s)); try exact Hp. exact (IH s Hs).
Qed.

(* a terminal: an Ok leaves what follows white space and a word that is not empty *)
Definition words (p : parser) : Prop :=
  forall s, match fst (p s) with Ok _ r => exists v, v <> "" /\ skip_ws s = v ++ r | Fail => True | _ => False end.

Lemma atom_words m : m <> "" -> words (@atom V m).
Proof.
  intros Hm s. unfold atom. destruct (strip_prefix m (skip_ws s)) as [r|] eqn:E; cbn [fst]; [|exact I].
  exists m. split; [exact Hm|now apply strip_prefix_spec].
Qed.

Lemma token1_words p1 p2 : words (@token1 V p1 p2).
Proof.
  intro s. unfold token1. destruct (skip_ws s) as [|c r]; [exact I|]. destruct (p1 c); [|exact I].
  destruct (span p2 r) as [a b] eqn:E. apply span_spec in E as (-> & _). exists (String c a). now split.
Qed.

(* What the family asks of a bound m on the inputs and an order R between an input and what is left of it: R is a
   preorder, holds between a text and what follows white space and a word, and the rest is no larger than the
   input in m and in length (the loops of Peg.v watch the length).  The length with <=, and the number of opening
   brackets with "is an end of", are such pairs. *)
Definition measures (m : string -> nat) (R : string -> string -> Prop) : Prop :=
  (forall s, R s s) /\ (forall a b c, R a b -> R b c -> R a c) /\
  (forall s v r, skip_ws s = v ++ r -> R s r) /\
  (forall s r, R s r -> m r <= m s /\ String.length r <= String.length s).

Section Answers.
Variable m : string -> nat.
Variable R : string -> string -> Prop.
Hypothesis HmR : measures m R.
Notation below L := (fun s => m s <= L).
Notation strict := (fun s r => R s r /\ String.length r < String.length s).

Lemma words_answers (p : parser) P : words p -> answers P strict p.
Proof.
  destruct HmR as (_ & _ & Hw & _). intros Hp s _. specialize (Hp s). destruct (fst (p s)) as [n r| | |]; try exact Hp.
  destruct Hp as (v & Hv & E). split; [exact (Hw s v r E)|].
  pose proof (skip_ws_len s) as Hl. rewrite E, slen_app in Hl. destruct v; [congruence|]. cbn in Hl. lia.
Qed.

Lemma and_loop_answers (ps : list parser) L : Forall (answers (below L) R) ps -> answers (below L) R (and_loop ps).
Proof.
  destruct HmR as (Hr & Ht & _ & Hle).
  induction 1 as [|p ps Hp HF IH]; intros s Hs; [apply Hr|]. rewrite and_loop_fst_cons.
  specialize (Hp s Hs). destruct (fst (p s)) as [n s1| | |]; try exact Hp.
  specialize (IH s1 ltac:(cbn beta; destruct (Hle s s1 Hp); lia)).
  destruct (fst (and_loop ps s1)); cbn [lift]; try exact IH. exact (Ht _ _ _ Hp IH).
Qed.

Lemma pand_answers cb (ps : list parser) L : Forall (answers (below L) R) ps -> answers (below L) R (pand cb ps).
Proof.
  intros HF s Hs. rewrite pand_fst. pose proof (and_loop_answers ps L HF s Hs) as H.
  destruct (fst (and_loop ps s)); exact H.
Qed.

(* an And whose first child lowers the bound: the others are only asked below it *)
Lemma pand_answers_lower cb (p : parser) ps L :
  answers (below L) (fun s r => strict s r /\ m r < m s) p -> (forall L', L' < L -> Forall (answers (below L') R) ps) ->
  answers (below L) strict (pand cb (p :: ps)).
Proof.
  destruct HmR as (_ & Ht & _ & Hle).
  intros Hp HF s Hs. rewrite pand_fst, and_loop_fst_cons.
  specialize (Hp s Hs). destruct (fst (p s)) as [n s1| | |]; try exact Hp. destruct Hp as [[HR Hl] Hlow].
  pose proof (and_loop_answers ps _ (HF (m s1) ltac:(cbn beta in Hs; lia)) s1 (le_n _)) as H.
  destruct (fst (and_loop ps s1)) as [ns r| | |]; cbn [lift]; try exact H.
  split; [exact (Ht _ _ _ HR H)|]. destruct (Hle _ _ H). lia.
Qed.

Lemma pand_answers_strict cb (p : parser) ps L : answers (below L) strict p -> Forall (answers (below L) R) ps ->
  answers (below L) strict (pand cb (p :: ps)).
Proof.
  destruct HmR as (_ & Ht & _ & Hle).
  intros Hp HF s Hs. rewrite pand_fst, and_loop_fst_cons.
  specialize (Hp s Hs). destruct (fst (p s)) as [n s1| | |]; try exact Hp. destruct Hp as [HR Hl].
  pose proof (and_loop_answers ps L HF s1 ltac:(cbn beta in *; destruct (Hle _ _ HR); lia)) as H.
  destruct (fst (and_loop ps s1)) as [ns r| | |]; cbn [lift]; try exact H.
  split; [exact (Ht _ _ _ HR H)|]. destruct (Hle _ _ H). lia.
Qed.

Lemma kleene_loop_answers n (p : parser) L : answers (below L) strict p ->
  forall s, m s <= L -> String.length s < n ->
    match fst (kleene_loop n p s) with Ok _ r => R s r | _ => False end.
Proof.
  destruct HmR as (Hr & Ht & _ & Hle).
  intro Hp. induction n as [|n IH]; intros s Hs Hn; [lia|]. rewrite kleene_loop_fst_S.
  pose proof (Hp s Hs) as H. destruct (fst (p s)) as [x s1| | |]; try exact H; [|apply Hr].
  destruct H as [HR Hlt]. apply Nat.ltb_lt in Hlt as Hb. rewrite Hb.
  specialize (IH s1 ltac:(destruct (Hle _ _ HR); lia) ltac:(lia)).
  destruct (fst (kleene_loop n p s1)); cbn [lift]; try exact IH. exact (Ht _ _ _ HR IH).
Qed.

Lemma kleene_answers cb (p : parser) L : answers (below L) strict p -> answers (below L) R (kleene cb p).
Proof.
  intros Hp s Hs. rewrite kleene_fst.
  pose proof (kleene_loop_answers (S (String.length s)) p L Hp s Hs (Nat.lt_succ_diag_r _)) as H.
  destruct (fst (kleene_loop _ p s)); cbn [lift]; auto.
Qed.

Lemma maybe_answers cb (p : parser) P : answers P R p -> answers P R (maybe cb p).
Proof.
  destruct HmR as (Hr & _). intros Hp s Hs. specialize (Hp s Hs). rewrite maybe_fst. destruct (fst (p s)); auto.
Qed.

Lemma sep_loop_answers n (p sep : parser) L : answers (below L) strict p -> answers (below L) R sep ->
  forall s, m s <= L -> String.length s < n ->
    match fst (sep_loop n p sep s) with Ok _ r => R s r | _ => False end.
Proof.
  destruct HmR as (Hr & Ht & _ & Hle).
  intros Hp Hsep. induction n as [|n IH]; intros s Hs Hn; [lia|]. rewrite sep_loop_fst_S.
  pose proof (Hp s Hs) as H. destruct (fst (p s)) as [x s1| | |]; try exact H; [|apply Hr]. destruct H as [HR Hlt].
  destruct (Hle _ _ HR) as [Hm1 _].
  pose proof (Hsep s1 ltac:(cbn beta; lia)) as H2. destruct (fst (sep s1)) as [y s2| | |]; try exact H2; [|exact HR].
  destruct (Hle _ _ H2) as [Hm2 Hl2].
  assert (Hlt2 : String.length s2 < String.length s) by lia. apply Nat.ltb_lt in Hlt2 as Hb. rewrite Hb.
  specialize (IH s2 ltac:(lia) ltac:(lia)).
  destruct (fst (sep_loop n p sep s2)); cbn [lift]; try exact IH. exact (Ht _ _ _ (Ht _ _ _ HR H2) IH).
Qed.

Lemma many_sep_answers cb (p sep : parser) L : answers (below L) strict p -> answers (below L) R sep ->
  answers (below L) R (many_sep cb p sep).
Proof.
  intros Hp Hsep s Hs. rewrite many_sep_fst.
  pose proof (sep_loop_answers (S (String.length s)) p sep L Hp Hsep s Hs (Nat.lt_succ_diag_r _)) as H.
  destruct (fst (sep_loop _ p sep s)) as [[|x ns] r| | |]; cbn; auto.
Qed.

End Answers.

(* the length as bound, "no longer" as order: on inputs of length <= L the parser answers Ok or Fail, and an Ok
   rest is no longer than the input (good) / strictly shorter (goodS) *)
Definition good (p : parser) (L : nat) : Prop :=
  forall s, String.length s <= L ->
    match fst (p s) with Ok _ r => String.length r <= String.length s | Fail => True | _ => False end.
Definition goodS (p : parser) (L : nat) : Prop :=
  forall s, String.length s <= L ->
    match fst (p s) with Ok _ r => String.length r < String.length s | Fail => True | _ => False end.

Notation no_longer := (fun s r : string => String.length r <= String.length s).

Lemma length_measures : measures String.length no_longer.
Proof.
  repeat split; try lia. intros s v r E. pose proof (skip_ws_len s) as H. rewrite E, slen_app in H. lia.
Qed.

(* goodS p L is the strict form of [answers] at the length *)
Lemma goodS_strict p L : goodS p L ->
  answers (fun s => String.length s <= L) (fun s r => no_longer s r /\ String.length r < String.length s) p.
Proof. apply answers_imp; lia. Qed.
Lemma strict_goodS p L :
  answers (fun s => String.length s <= L) (fun s r => no_longer s r /\ String.length r < String.length s) p -> goodS p L.
Proof. apply answers_imp; lia. Qed.

Lemma goodS_good p L : goodS p L -> good p L.
Proof. apply answers_imp; lia. Qed.

Lemma good_le p L L' : good p L -> L' <= L -> good p L'.
Proof. intros H Hle s Hs. apply H; lia. Qed.

Lemma atom_goodS m L : m <> "" -> goodS (@atom V m) L.
Proof. intro Hm. now apply strict_goodS, (words_answers _ _ length_measures), atom_words. Qed.

Lemma token1_goodS p1 p2 L : goodS (@token1 V p1 p2) L.
Proof. apply strict_goodS, (words_answers _ _ length_measures), token1_words. Qed.

Lemma pand_good cb ps L : Forall (fun p => good p L) ps -> good (pand cb ps) L.
Proof. exact (pand_answers _ _ length_measures cb ps L). Qed.

(* an And whose first child always consumes: the others only see strictly shorter inputs *)
Lemma pand_goodS cb (p : parser) ps L :
  goodS p L -> (forall L', L' < L -> Forall (fun q => good q L') ps) -> goodS (pand cb (p :: ps)) L.
Proof.
  intros Hp HF. apply goodS_strict in Hp. apply strict_goodS, (pand_answers_lower _ _ length_measures); [|exact HF].
  revert Hp. apply answers_imp; lia.
Qed.

Lemma por_good cb ps L : Forall (fun p => good p L) ps -> good (por cb ps) L.
Proof. exact (por_answers cb ps _ _). Qed.

Lemma por_goodS cb ps L : Forall (fun p => goodS p L) ps -> goodS (por cb ps) L.
Proof. exact (por_answers cb ps _ _). Qed.

Lemma kleene_good cb (p : parser) L : goodS p L -> good (kleene cb p) L.
Proof. intro Hp. now apply (kleene_answers _ _ length_measures), goodS_strict. Qed.

Lemma maybe_good cb (p : parser) L : good p L -> good (maybe cb p) L.
Proof. exact (maybe_answers _ _ length_measures cb p _). Qed.

Lemma many_sep_good cb (p sep : parser) L : goodS p L -> good sep L -> good (many_sep cb p sep) L.
Proof. intros Hp Hsep. apply (many_sep_answers _ _ length_measures); [now apply goodS_strict|exact Hsep]. Qed.

(* [upto X p q]: q answers as p does on every input on which p has an answer.  With X := True nothing is asked of
   p: [upto True p q] is [feq q p] unfolded (SigParseMerged.decl_m_decl passes from one to the other by hand); with
   X := False p must not have run out of fuel (more fuel changes no answer: DepthCostProofs.decl_m_more).  And, Or
   and Kleene respect it; nothing is proved for Maybe and the separator loops, which no user needs. *)
Section Upto.
Variable X : Prop.

Definition upto (p q : parser) : Prop := forall s, (fst (p s) = NoFuel -> X) -> fst (q s) = fst (p s).

Lemma upto_refl p : upto p p.
Proof. intros s _. reflexivity. Qed.

Lemma lift_nofuel {A B} (f : A -> B) (r : res A) : (lift f r = NoFuel -> X) -> r = NoFuel -> X.
Proof. intros H E. apply H. now rewrite E. Qed.

Lemma and_loop_upto (ps qs : list parser) : Forall2 upto ps qs ->
  forall s, (fst (and_loop ps s) = NoFuel -> X) -> fst (and_loop qs s) = fst (and_loop ps s).
Proof.
  induction 1 as [|p q ps qs Hpq _ IH]; intros s Hs; [reflexivity|].
  rewrite and_loop_fst_cons in Hs. rewrite !and_loop_fst_cons. specialize (Hpq s).
  destruct (fst (p s)) as [n r| | |]; rewrite Hpq by (try discriminate; intros _; exact (Hs eq_refl)); [|reflexivity ..].
  f_equal. apply IH. exact (lift_nofuel _ _ Hs).
Qed.

Lemma pand_upto cb (ps qs : list parser) : Forall2 upto ps qs -> upto (pand cb ps) (pand cb qs).
Proof.
  intros HF s Hs. rewrite pand_fst in Hs. rewrite !pand_fst. f_equal.
  apply and_loop_upto; [exact HF|]. exact (lift_nofuel _ _ Hs).
Qed.

Lemma por_upto cb (ps qs : list parser) : Forall2 upto ps qs -> upto (por cb ps) (por cb qs).
Proof.
  induction 1 as [|p q ps qs Hpq _ IH]; intros s Hs; [reflexivity|].
  rewrite por_fst_cons in Hs. rewrite !por_fst_cons. specialize (Hpq s).
  destruct (fst (p s)) as [n r| | |]; rewrite Hpq by (try discriminate; intros _; exact (Hs eq_refl));
    [reflexivity| |reflexivity ..].
  apply IH. exact Hs.
Qed.

Lemma kleene_upto cb (p q : parser) : upto p q -> upto (kleene cb p) (kleene cb q).
Proof.
  intros Hpq s Hs. rewrite kleene_fst in Hs. rewrite !kleene_fst. f_equal.
  pose proof (lift_nofuel _ _ Hs) as Hn. clear Hs. revert Hn. generalize (S (String.length s)) as n. intro n. revert s.
  induction n as [|n IH]; intros s Hs; [reflexivity|].
  rewrite kleene_loop_fst_S in Hs. rewrite !kleene_loop_fst_S. specialize (Hpq s).
  destruct (fst (p s)) as [x r| | |]; rewrite Hpq by (try discriminate; intros _; exact (Hs eq_refl)); [|reflexivity ..].
  destruct (Nat.ltb (String.length r) (String.length s)); [|reflexivity].
  f_equal. apply IH. exact (lift_nofuel _ _ Hs).
Qed.

End Upto.

Definition feq (p q : parser) : Prop := forall s, fst (p s) = fst (q s).

Lemma answers_feq P R (p q : parser) : feq p q -> answers P R p -> answers P R q.
Proof. intros Hpq H s Hs. rewrite <- (Hpq s). exact (H s Hs). Qed.

Local Open Scope N_scope.

(* Equations for the step count, by the same case splits; for bounds on the steps of every input (SigParseMerged) *)
Lemma atom_snd m s : snd (@atom V m s) = 1.
Proof. unfold atom. destruct (strip_prefix m (skip_ws s)); reflexivity. Qed.

Lemma and_loop_snd_nil s : snd (@and_loop V [] s) = 0.
Proof. reflexivity. Qed.

Lemma and_loop_snd_cons (p : parser) ps s :
  snd (and_loop (p :: ps) s) =
  snd (p s) + match fst (p s) with Ok _ r => snd (and_loop ps r) | _ => 0 end.
Proof.
  cbn [and_loop]. destruct (p s) as [[n r| | |] k]; cbn [fst snd]; try lia. res_cases (and_loop ps r).
Qed.

Lemma pand_snd cb (ps : list parser) s : snd (pand cb ps s) = 1 + snd (and_loop ps s).
Proof. unfold pand. res_cases (and_loop ps s). Qed.

Lemma por_snd_nil cb s : snd (@por V cb [] s) = 1.
Proof. reflexivity. Qed.

Lemma por_snd_cons cb (p : parser) ps s :
  snd (por cb (p :: ps) s) =
  match fst (p s) with
  | Ok _ _ => 1 + snd (p s)
  | Fail => snd (p s) + snd (por cb ps s)
  | _ => snd (p s)
  end.
Proof.
  cbn [por]. destruct (p s) as [[n r| | |] k]; cbn [fst snd]; try reflexivity.
  destruct (por cb ps s) as [y k']. reflexivity.
Qed.

Lemma por_snd_le cb (ps : list parser) s k : Forall (fun p => snd (p s) <= k) ps ->
  snd (por cb ps s) <= 1 + k * N.of_nat (List.length ps).
Proof.
  induction 1 as [|p ps Hp _ IH]; [cbn [por snd List.length N.of_nat]; lia|]. rewrite por_snd_cons. cbn [List.length].
  rewrite Nat2N.inj_succ, N.mul_succ_r. set (m := k * _) in *. destruct (fst (p s)); lia.
Qed.

Lemma kleene_loop_snd_S n (p : parser) s :
  snd (kleene_loop (S n) p s) =
  snd (p s) + match fst (p s) with
              | Ok _ r => if Nat.ltb (String.length r) (String.length s) then snd (kleene_loop n p r) else 0
              | _ => 0
              end.
Proof.
  cbn [kleene_loop]. destruct (p s) as [[x r| | |] k]; cbn [fst snd]; try lia.
  destruct (Nat.ltb _ _); cbn [snd]; [|lia]. res_cases (kleene_loop n p r).
Qed.

Lemma kleene_snd cb (p : parser) s : snd (kleene cb p s) = 1 + snd (kleene_loop (S (String.length s)) p s).
Proof. unfold kleene. res_cases (kleene_loop (S (String.length s)) p s). Qed.

Lemma maybe_snd cb (p : parser) s : snd (maybe cb p s) = 1 + snd (p s).
Proof. unfold maybe. res_cases (p s). Qed.

(* Runs, result and steps together: what a combinator does once its next child has answered; for following a parser
   along one known input (the round trip and the step count of SigParseProofs).
   [after k f x]: the run x, k steps later, its nodes passed through f *)
Definition after {A B} (k : N) (f : A -> B) (x : res A * N) : res B * N := (lift f (fst x), k + snd x).

Lemma and_loop_run (p : parser) ps s n r k : p s = (Ok n r, k) ->
  and_loop (p :: ps) s = after k (cons n) (and_loop ps r).
Proof. intro H. cbn [and_loop]. rewrite H. res_cases (and_loop ps r). Qed.

Lemma and_loop_stop (p : parser) ps s k : p s = (Fail, k) -> and_loop (p :: ps) s = (Fail, k).
Proof. intro H. cbn [and_loop]. now rewrite H. Qed.

Lemma pand_run cb (ps : list parser) s : pand cb ps s = after 1 (docb cb) (and_loop ps s).
Proof. unfold pand. res_cases (and_loop ps s). Qed.

Lemma run_of_fst {A} (x : res A * N) r : fst x = r -> x = (r, snd x).
Proof. intros <-. apply surjective_pairing. Qed.

Lemma por_run cb (p : parser) ps s n r k : p s = (Ok n r, k) -> por cb (p :: ps) s = (Ok (docb cb [n]) r, 1 + k).
Proof. intro H. cbn [por]. now rewrite H. Qed.

Lemma por_skip cb (p : parser) ps s k : p s = (Fail, k) -> por cb (p :: ps) s = after k (fun n => n) (por cb ps s).
Proof. intro H. cbn [por]. rewrite H. res_cases (por cb ps s). Qed.

(* an ordered choice whose alternatives all miss in e steps; all but one: it answers as that one does *)
Lemma por_all_miss cb (ps : list parser) s e : Forall (fun p => p s = (Fail, e)) ps ->
  por cb ps s = (Fail, N.of_nat (List.length ps) * e + 1).
Proof.
  induction 1 as [|p ps Hp _ IH]; [reflexivity|]. cbn [por]. rewrite Hp, IH. f_equal. cbn [List.length]. lia.
Qed.

Lemma por_one cb (pre : list parser) (q : parser) (post : list parser) s e :
  Forall (fun p => p s = (Fail, e)) pre -> Forall (fun p => p s = (Fail, e)) post ->
  fst (por cb (pre ++ q :: post) s) = match fst (q s) with Ok n r => Ok (docb cb [n]) r | x => x end /\
  snd (por cb (pre ++ q :: post) s) <= N.of_nat (List.length pre + List.length post) * e + snd (q s) + 1.
Proof.
  intros Hpre Hpost. induction Hpre as [|p pre Hp _ [IH1 IH2]]; cbn [app List.length Nat.add].
  - rewrite por_fst_cons, por_snd_cons, (por_all_miss cb post s e Hpost).
    pose proof (N.le_0_l (N.of_nat (List.length post) * e)). destruct (fst (q s)); cbn [fst snd]; split; try reflexivity; lia.
  - rewrite por_fst_cons, por_snd_cons, Hp. cbn [fst snd]. split; [exact IH1|]. rewrite Nat2N.inj_succ, N.mul_succ_l. lia.
Qed.

Lemma atom_head c s :
  @atom V (String c "") s =
  match skip_ws s with
  | String b r => if Ascii.eqb c b then (Ok (NTerm (String c "")) r, 1) else (Fail, 1)
  | EmptyString => (Fail, 1)
  end.
Proof.
  unfold atom. destruct (skip_ws s) as [|b r]; [reflexivity|]. cbn [strip_prefix].
  destruct (Ascii.eqb c b); reflexivity.
Qed.

Lemma atom_cases c s :
  (exists r, skip_ws s = String c r /\ @atom V (String c "") s = (Ok (NTerm (String c "")) r, 1)) \/
  @atom V (String c "") s = (Fail, 1).
Proof.
  rewrite atom_head. destruct (skip_ws s) as [|b r]; [now right|].
  destruct (Ascii.eqb_spec c b) as [<-|]; [left; eauto|now right].
Qed.

Lemma token1_run p1 p2 c r rest : p1 c = true -> is_ws c = false -> all_chars_p p2 r = true ->
  match rest with EmptyString => True | String d _ => p2 d = false end ->
  @token1 V p1 p2 (String c r ++ rest) = (Ok (NTerm (String c r)) rest, 1).
Proof.
  intros Hc Hw Hr Hd. unfold token1. cbn [append skip_ws]. rewrite Hw, Hc, span_app_follow by assumption. reflexivity.
Qed.

Lemma token1_ok p1 p2 c r rest : p1 c = true -> is_ws c = false -> all_chars_p p2 r = true ->
  match rest with EmptyString => True | String d _ => p2 d = false end ->
  fst (@token1 V p1 p2 (String c r ++ rest)) = Ok (NTerm (String c r)) rest.
Proof. intros. now rewrite token1_run. Qed.

(* The loops by the chain of their iterations: a chain gives the result whatever the fuel (to read a printed list
   back: SigParseProofs, IdlProofs, IdlFile), and a result comes from a chain (to take an accepted list apart).
   [many_run]: the iterations of a Kleene loop that succeed, with their steps *)
Inductive many_run (p : parser) : string -> list node -> string -> N -> Prop :=
| many_run_nil s : many_run p s [] s 0
| many_run_cons s x s1 k xs r k' : p s = (Ok x s1, k) -> (String.length s1 < String.length s)%nat ->
    many_run p s1 xs r k' -> many_run p s (x :: xs) r (k + k').

(* every iteration shortens the input, so the fuel of [kleene] is never the limit *)
Lemma kleene_loop_run n (p : parser) s xs r k kf : many_run p s xs r k -> p r = (Fail, kf) ->
  (String.length s < n)%nat -> kleene_loop n p s = (Ok xs r, k + kf).
Proof.
  intros H Hf. revert n. induction H as [s|s x s1 k xs r k' Hx Hl _ IH]; intros [|n] Hn; try lia; cbn [kleene_loop].
  - now rewrite Hf.
  - apply Nat.ltb_lt in Hl as Hb. rewrite Hx, Hb, IH by (assumption || lia). now rewrite N.add_assoc.
Qed.

Lemma kleene_run cb (p : parser) s xs r k kf : many_run p s xs r k -> p r = (Fail, kf) ->
  kleene cb p s = (Ok (docb cb xs) r, 1 + (k + kf)).
Proof. intros H Hf. unfold kleene. now rewrite (kleene_loop_run _ p s xs r k kf H Hf (Nat.lt_succ_diag_r _)). Qed.

(* the same without the steps *)
Definition many_ok (p : parser) (s : string) (xs : list node) (r : string) : Prop := exists k, many_run p s xs r k.

Lemma many_ok_nil (p : parser) s : many_ok p s [] s.
Proof. exists 0. constructor. Qed.

Lemma many_ok_cons (p : parser) s x s1 xs r : fst (p s) = Ok x s1 -> (String.length s1 < String.length s)%nat ->
  many_ok p s1 xs r -> many_ok p s (x :: xs) r.
Proof. intros Hx Hl [k H]. eexists. exact (many_run_cons p s x s1 _ xs r k (run_of_fst _ _ Hx) Hl H). Qed.

Lemma kleene_many cb (p : parser) s xs r : many_ok p s xs r -> fst (p r) = Fail ->
  fst (kleene cb p s) = Ok (docb cb xs) r.
Proof. intros [k H] Hf. now rewrite (kleene_run cb p s xs r k _ H (run_of_fst _ _ Hf)). Qed.

(* and back: a Kleene loop that answers Ok went through such a chain *)
Lemma kleene_loop_chain n (p : parser) s xs r : fst (kleene_loop n p s) = Ok xs r -> many_ok p s xs r.
Proof.
  revert s xs r; induction n as [|n IH]; intros s xs r H; [discriminate|].
  rewrite kleene_loop_fst_S in H. destruct (fst (p s)) as [x s1| | |] eqn:E; try discriminate.
  - destruct (Nat.ltb_spec (String.length s1) (String.length s)) as [Hl|]; [|discriminate].
    apply lift_ok in H as (xs' & E2 & ->). apply (many_ok_cons p s x s1); auto.
  - inversion H; subst. apply many_ok_nil.
Qed.

Lemma kleene_chain cb (p : parser) s n r : fst (kleene cb p s) = Ok n r -> exists xs, n = docb cb xs /\ many_ok p s xs r.
Proof.
  rewrite kleene_fst. intro H. apply lift_ok in H as (xs & E & ->). exists xs. split; [reflexivity|].
  now apply kleene_loop_chain in E.
Qed.

(* a separator loop that answers Ok with its last element in front of a separator that fails *)
Inductive sep_ok (p sep : parser) : string -> list node -> string -> Prop :=
| sep_ok_last s x r : fst (p s) = Ok x r -> fst (sep r) = Fail -> sep_ok p sep s [x] r
| sep_ok_more s x r y r2 xs r' : fst (p s) = Ok x r -> fst (sep r) = Ok y r2 ->
    (String.length r2 < String.length s)%nat -> sep_ok p sep r2 xs r' -> sep_ok p sep s (x :: xs) r'.

Lemma sep_loop_many n (p sep : parser) s xs r : sep_ok p sep s xs r -> (String.length s < n)%nat ->
  fst (sep_loop n p sep s) = Ok xs r.
Proof.
  intro H. revert n. induction H as [s x r Hp Hs|s x r y r2 xs r' Hp Hs Hl _ IH]; intros [|n] Hn; try lia.
  - now apply sep_loop_last.
  - rewrite (sep_loop_more n p sep s x r y r2 Hp Hs Hl), IH by lia. reflexivity.
Qed.

Lemma many_sep_many cb (p sep : parser) s x xs r : sep_ok p sep s (x :: xs) r ->
  fst (many_sep cb p sep s) = Ok (docb cb (x :: xs)) r.
Proof. intro H. now rewrite many_sep_fst, (sep_loop_many _ p sep s _ r H (Nat.lt_succ_diag_r _)). Qed.

End PegProofs.

(* when all children of an And have answered ([and_loop_run]): the node by computation, the sum of the steps by lia *)
Ltac run_done := unfold after; cbn [and_loop fst snd lift]; apply (f_equal2 pair); [reflexivity|lia].
