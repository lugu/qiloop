(* SignalsInv5.v — the delivery invariant: for every live subscriber, what it has read, what is
   queued at its handler and what is on its way to its connection is exactly the sequence of
   emissions taken for its connection since the handler was installed; the emissions of its
   window are a contiguous part of that sequence.  [dinv] says it of one subscriber; a step changes
   one subscriber ([Deliv_set]) or none ([Deliv_same_subs]), and [inflight] only at the emitter's
   snapshot (together with s_all) and at the dispatch of an event (into the queues). *)
From QV Require Import Signals SignalsLemmas SignalsStep SignalsInv1 SignalsInv3.
Local Open Scope N_scope.

Lemma evs_app sig a b : evs sig (a ++ b) = evs sig a ++ evs sig b.
Proof. apply flat_map_app. Qed.
Lemma evs_reply sig f : dreply f <> None -> evs sig [f] = [].
Proof. destruct f; cbn; try reflexivity. intro H; now contradiction H. Qed.

Definition dinv (st : state) (x : sub) : Prop :=
  (live (s_pc x) = true -> s_got x ++ s_queue x ++ inflight st (s_conn x) (s_sig x) = s_skip x ++ s_all x) /\
  (live (s_pc x) = false -> exists rest, s_got x ++ rest = s_skip x ++ s_all x) /\
  (s_pc x = PAcked -> s_ackd x = true) /\
  (s_ackd x = true -> exists post, s_all x = s_pre x ++ s_win x ++ post /\ (s_pc x = PAcked -> post = [])).
Definition Deliv (st : state) : Prop := forall x, In x (subs st) -> dinv st x.

Lemma Deliv_init : Deliv init.
Proof. intros x []. Qed.

Lemma dinv_inflight_same st st' x :
  (forall c sig, inflight st' c sig = inflight st c sig) -> dinv st x -> dinv st' x.
Proof. intros H (D1 & D2 & D3 & D4). repeat split; auto. intro L. rewrite H. auto. Qed.

Lemma dinv_with_pc st x p : live (s_pc x) = true -> p <> PAcked -> dinv st x -> dinv st (with_pc x p).
Proof.
  intros Lx Np (D1 & D2 & D3 & D4). repeat split; cbn [with_pc s_pc s_got s_queue s_conn s_sig s_skip s_all s_ackd s_pre s_win].
  - intros _. auto.
  - intros _. eexists. apply D1. exact Lx.
  - intro; contradiction.
  - intro A. destruct (D4 A) as (post & E & _). exists post. split; [exact E|]. intro; contradiction.
Qed.
Lemma dinv_acked st x : live (s_pc x) = true -> dinv st x -> dinv st (acked x).
Proof.
  intros Lx (D1 & D2 & D3 & D4). repeat split; cbn [acked s_pc s_got s_queue s_conn s_sig s_skip s_all s_ackd s_pre s_win live].
  - intros _. auto.
  - discriminate.
  - exists []. split; [now rewrite app_nil_r|reflexivity].
Qed.
Lemma Deliv_set st st' s x x' :
  nth_error (subs st) s = Some x -> subs st' = set_nth (subs st) s x' ->
  (forall c sig, inflight st' c sig = inflight st c sig) ->
  (dinv st x -> dinv st x') -> Deliv st -> Deliv st'.
Proof.
  intros Hx Es Hi Hd D y Hy. rewrite Es in Hy. apply (dinv_inflight_same st); [exact Hi|].
  apply In_set_nth in Hy as [->|Hy]; [|now apply D]. apply Hd, D. eapply nth_error_In; exact Hx.
Qed.
Lemma Deliv_same_subs st st' :
  subs st' = subs st -> (forall c sig, inflight st' c sig = inflight st c sig) -> Deliv st -> Deliv st'.
Proof. intros Es Hi D x Hx. rewrite Es in Hx. apply (dinv_inflight_same st); [exact Hi|]. now apply D. Qed.

Lemma pending_for_mk_emit sig p us c sig0 :
  pending_for (mk_emit sig p us) c sig0 =
  if sig =? sig0 then map (fun _ => p) (filter (fun u => Nat.eqb (u_conn u) c) us) else [].
Proof. destruct us as [|u us]; cbn; [now destruct (sig =? sig0)|reflexivity]. Qed.

Lemma filter_filter_ents t c sig :
  filter (fun u => Nat.eqb (u_conn u) c) (filter (fun u => u_sig u =? sig) t) = ents t c sig.
Proof.
  induction t as [|u t IH]; [reflexivity|]. cbn [filter ents]. unfold ekey.
  destruct (u_sig u =? sig) eqn:E1; cbn [filter]; destruct (Nat.eqb (u_conn u) c) eqn:E2; cbn [andb];
    fold (ents t c sig); now rewrite IH.
Qed.
Lemma registered_ents st c sig : registered st c sig = negb (match ents (table st) c sig with [] => true | _ => false end).
Proof.
  unfold registered, ents. induction (table st) as [|u t IH]; [reflexivity|]. cbn [existsb filter]. unfold ekey at 1.
  destruct (Nat.eqb (u_conn u) c && (u_sig u =? sig)); [reflexivity|]. cbn [orb]. exact IH.
Qed.


(* one send of the emitter: from "pending" to "written" *)
Lemma inflight_emit_send st sig p u us c sig0 :
  emit st = Some (sig, p, u :: us) ->
  inflight (st_emit_send st sig p u us) c sig0 = inflight st c sig0.
Proof.
  intro He. unfold inflight. psimpl. rewrite He, pending_for_mk_emit. cbn [pending_for filter].
  destruct (Nat.eq_dec c (u_conn u)) as [->|Ne].
  - rewrite fset_eq, evs_app, Nat.eqb_refl. cbn [evs flat_map]. destruct (sig =? sig0); cbn [map app]; rewrite ?app_nil_r; [|reflexivity].
    now rewrite <- app_assoc.
  - rewrite fset_neq by exact Ne. rewrite (proj2 (Nat.eqb_neq (u_conn u) c)) by congruence. reflexivity.
Qed.


Lemma overflow_mono g st l st' : CStep g st l st' -> overflow st' = false -> overflow st = false.
Proof.
  intro HS. destruct HS; psimpl; intro H; try exact H.
  now apply orb_false_iff in H as [H _].
Qed.

Lemma inflight_same_core st st' :
  down st' = down st -> emit st' = emit st -> forall c sig, inflight st' c sig = inflight st c sig.
Proof. intros Ed Ee c sig. unfold inflight. now rewrite Ed, Ee. Qed.

Lemma inflight_pop_reply st c f rest st' :
  down st c = f :: rest -> dreply f <> None -> down st' = fupd (down st) c rest -> emit st' = emit st ->
  forall c0 sig, inflight st' c0 sig = inflight st c0 sig.
Proof.
  intros Hd Hr Ed Ee c0 sig. unfold inflight. rewrite Ed, Ee. destruct (Nat.eq_dec c0 c) as [->|Ne].
  - rewrite fset_eq, Hd. destruct f; cbn [evs flat_map app]; try reflexivity. now contradiction Hr.
  - now rewrite fset_neq by exact Ne.
Qed.

Theorem Deliv_step g st l st' :
  Proto st -> Deliv st -> CStep g st l st' -> overflow st' = false -> Deliv st'.
Proof.
  intros HP D HS. destruct HS; intro Ho.
  - (* CInstall *)
    intros y Hy. psimpl. apply in_app_or in Hy as [Hy|[<-|[]]].
    + apply (dinv_inflight_same st); [reflexivity|]. now apply D.
    + repeat split; cbn [new_sub s_pc s_got s_queue s_conn s_sig s_skip s_all s_ackd s_pre s_win live]; try discriminate.
      intros _. unfold inflight. psimpl. now rewrite app_nil_r.
  - (* CCountFirst *) eapply (Deliv_set st _ s x (with_pc x PNeedReg)); try eassumption; try reflexivity.
    apply dinv_with_pc; [now rewrite Hpc|discriminate].
  - (* CCountMore *) eapply (Deliv_set st _ s x (acked x)); try eassumption; try reflexivity.
    apply dinv_acked. now rewrite Hpc.
  - (* CSendReg *) eapply (Deliv_set st _ s x (with_pc x (PWaitReg _))); try eassumption; try reflexivity.
    apply dinv_with_pc; [now rewrite Hpc|discriminate].
  - (* CMboxReg *) apply (Deliv_same_subs st); [reflexivity|reflexivity|exact D].
  - (* CMboxUnreg *) apply (Deliv_same_subs st); [reflexivity|reflexivity|exact D].
  - (* CReply *)
    apply (Deliv_same_subs st); [reflexivity| |exact D]. intros c0 sig0. unfold inflight. psimpl.
    destruct (Nat.eq_dec c0 c) as [->|Ne]; [|now rewrite fset_neq by exact Ne].
    rewrite fset_eq, evs_app. destruct f; try contradiction. cbn [evs flat_map app]. now rewrite app_nil_r.
  - (* CEmitSnap: one copy per registered connection *)
    destruct HP as [PK _ _]. intros y Hy. psimpl. apply in_map_iff in Hy as (x & <- & Hx).
    destruct (D x Hx) as (D1 & D2 & D3 & D4).
    assert (Hinf : forall c sig0, inflight (st_emit_snap st sig p) c sig0 =
              inflight st c sig0 ++ (if sig =? sig0 then map (fun _ => p) (ents (table st) c sig) else [])).
    { intros c sig0. unfold inflight. psimpl. rewrite Hemit. cbn [pending_for]. rewrite app_nil_r, pending_for_mk_emit.
      now rewrite filter_filter_ents. }
    unfold note_emit. destruct ((s_sig x =? sig) && live (s_pc x)) eqn:Eg.
    + apply andb_prop in Eg as [E1 E2]. apply N.eqb_eq in E1.
      pose proof (keyinv_ents_le1 _ _ _ (PK (s_conn x) (s_sig x))) as Le.
      repeat split; cbn [s_pc s_got s_queue s_conn s_sig s_skip s_all s_ackd s_pre s_win].
      * intros _. rewrite Hinf, <- E1, N.eqb_refl, registered_ents.
        destruct (ents (table st) (s_conn x) (s_sig x)) as [|u [|u' r]]; cbn [negb map List.length] in *; try lia.
        -- rewrite app_nil_r. auto.
        -- rewrite !app_assoc. f_equal. rewrite <- !app_assoc. auto.
      * intro L. congruence.
      * exact D3.
      * intro A. destruct (D4 A) as (post & E & Ep).
        destruct (s_pc x) eqn:Epc; try (exists (if registered st (s_conn x) sig then post ++ [p] else post);
          split; [destruct (registered st (s_conn x) sig); rewrite E, <- ?app_assoc; reflexivity|discriminate]).
        (* PAcked: the connection is registered *)
        specialize (Ep eq_refl). subst post.
        apply In_nth_error in Hx as [s Hx].
        assert (HA : (nP isAck st (s_conn x) (s_sig x) >= 1)%nat) by (apply (nP_ge1 isAck st s x Hx); now rewrite Epc).
        pose proof (keyinv_acked_registered _ _ _ (PK (s_conn x) (s_sig x)) HA) as L1.
        rewrite <- E1, registered_ents. destruct (ents (table st) (s_conn x) (s_sig x)); [discriminate|]. cbn [negb].
        exists []. split; [|reflexivity]. rewrite E, !app_nil_r, <- app_assoc. reflexivity.
    + repeat split; auto. intros L. rewrite Hinf.
      apply andb_false_iff in Eg as [Eg|Eg]; [|congruence].
      rewrite N.eqb_sym, Eg, app_nil_r. auto.
  - (* CEmitSend *) apply (Deliv_same_subs st); [reflexivity| |exact D]. intros. now apply inflight_emit_send.
  - (* CRecvEvent *)
    intros y Hy. psimpl. unfold dispatch_event in *. cbn [fst snd] in *. apply in_map_iff in Hy as (x & <- & Hx).
    destruct (D x Hx) as (D1 & D2 & D3 & D4).
    apply orb_false_iff in Ho as [_ Ho].
    assert (Hov : snd (enqueue c sig p x) = false).
    { apply not_true_is_false. intro E. rewrite (proj2 (existsb_exists _ _)) in Ho; [discriminate|]. now exists x. }
    assert (Hinf : forall c0 sig0, inflight (st_recv_event st c rest sig p) c0 sig0 =
              if Nat.eqb c0 c && (sig =? sig0) then tl (inflight st c0 sig0) else inflight st c0 sig0).
    { intros c0 sig0. unfold inflight. psimpl. destruct (Nat.eq_dec c0 c) as [->|Ne].
      + rewrite fset_eq, Nat.eqb_refl, Hdown. cbn [andb evs flat_map]. destruct (sig =? sig0); reflexivity.
      + rewrite fset_neq by exact Ne. now rewrite (proj2 (Nat.eqb_neq c0 c)) by exact Ne. }
    assert (Hhd : inflight st c sig = p :: tl (inflight st c sig)).
    { unfold inflight. rewrite Hdown. cbn [evs flat_map]. now rewrite N.eqb_refl. }
    unfold enqueue in *. destruct (Nat.eqb (s_conn x) c && (s_sig x =? sig) && live (s_pc x)) eqn:Eg.
    + apply andb_prop in Eg as [Eg E3]. apply andb_prop in Eg as [E1 E2]. apply Nat.eqb_eq in E1. apply N.eqb_eq in E2.
      destruct (Nat.ltb (List.length (s_queue x)) QueueCap); [|discriminate]. cbn [fst].
      repeat split; cbn [s_pc s_got s_queue s_conn s_sig s_skip s_all s_ackd s_pre s_win]; auto.
      intros _. rewrite Hinf, E1, E2, Nat.eqb_refl, N.eqb_refl. cbn [andb].
      rewrite <- (D1 E3), E1, E2, Hhd. cbn [tl]. rewrite <- !app_assoc. reflexivity.
    + cbn [fst]. repeat split; auto. intro L. rewrite Hinf.
      destruct (Nat.eqb (s_conn x) c && (sig =? s_sig x)) eqn:E; [|auto].
      apply andb_prop in E as [E1 E2]. rewrite E1, (N.eqb_sym (s_sig x) sig), E2, L in Eg. discriminate.
  - (* CRecvAnswer *)
    assert (Lx : live (s_pc x) = true).
    { destruct (waits_inv _ _ _ _ Hw) as [_ [[_ E]|[_ E]]]; now rewrite E. }
    eapply (Deliv_set st _ s x (answer_sub x f)); try eassumption; try reflexivity.
    + eapply inflight_pop_reply; try eassumption; try reflexivity. congruence.
    + unfold answer_sub. destruct (s_pc x) eqn:Ep; destruct f; try (apply dinv_with_pc; [now rewrite Ep|discriminate]);
        apply dinv_acked; now rewrite Ep.
  - (* CCancelLast *) eapply (Deliv_set st _ s x (with_pc x PNeedUnreg)); try eassumption; try reflexivity.
    apply dinv_with_pc; [now rewrite Hpc|discriminate].
  - (* CCancelMore *) eapply (Deliv_set st _ s x (with_pc x PAborting)); try eassumption; try reflexivity.
    apply dinv_with_pc; [now rewrite Hpc|discriminate].
  - (* CSendUnreg *) eapply (Deliv_set st _ s x (with_pc x (PWaitUnreg _))); try eassumption; try reflexivity.
    apply dinv_with_pc; [now rewrite Hpc|discriminate].
  - (* CDeliver *)
    eapply (Deliv_set st _ s x (sub_deliver x p q)); try eassumption; try reflexivity.
    intros (D1 & D2 & D3 & D4). repeat split; cbn [sub_deliver s_pc s_got s_queue s_conn s_sig s_skip s_all s_ackd s_pre s_win]; auto.
    + intros L. rewrite <- (D1 L), Hq, <- !app_assoc. reflexivity.
    + intro L. congruence.
  - (* CFanClose *)
    eapply (Deliv_set st _ s x (sub_close x)); try eassumption; try reflexivity.
    intros (D1 & D2 & D3 & D4). repeat split; cbn [sub_close s_pc s_got s_queue s_conn s_sig s_skip s_all s_ackd s_pre s_win live]; try discriminate.
    + intros _. eexists. apply D1. now rewrite Hpc.
    + intro A. destruct (D4 A) as (post & E & _). exists post. split; [exact E|discriminate].
Qed.
