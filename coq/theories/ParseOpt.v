(* ParseOpt.v — signature.Parse as the wire models use it: a type or nothing. *)
From QV Require Import SigParse SigParseProofs.
Definition parse_opt (s : string) : option ty := match parse s with POk t => Some t | _ => None end.
Lemma parse_opt_print t : wf_ty t = true -> parse_opt (print t) = Some t.
Proof. intro H. unfold parse_opt. now rewrite (parse_print t H). Qed.
Lemma parse_opt_wf s t : parse_opt s = Some t -> wf_ty t = true.
Proof. unfold parse_opt. destruct (parse s) eqn:E; intro H; inversion H; subst. eapply parse_wf; eauto. Qed.
