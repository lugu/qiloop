(* SignalsFwdProofs.v — invariants of SignalsFwd.v over every run, and the replay is a run; two replays
   evaluated: [fwd_ops_ex] (a cancel with an undelivered event, read off in props/C13.v) and
   [fwd_ex_reuse] (a freed slot is taken by the next subscription). *)
From QV Require Import Signals SignalsLemmas SignalsFwd.
Local Open Scope N_scope.

Lemma nth_error_imap {A B} (f : nat -> A -> B) l : forall i s,
  nth_error (imap f i l) s = option_map (f (i + s)%nat) (nth_error l s).
Proof.
  induction l as [|a l IH]; intros i [|s]; cbn; auto.
  - now rewrite Nat.add_0_r.
  - now rewrite IH, Nat.add_succ_r.
Qed.

Lemma existsb_imap_false {A} (g : nat -> A -> bool) l : forall i,
  existsb (fun b => b) (imap g i l) = false ->
  forall s x, nth_error l s = Some x -> g (i + s)%nat x = false.
Proof.
  induction l as [|a l IH]; intros i H [|s] x; cbn; try discriminate;
    cbn in H; apply orb_false_iff in H as [H0 H].
  - intros [= <-]. now rewrite Nat.add_0_r.
  - rewrite Nat.add_succ_r. exact (IH _ H s x).
Qed.

Lemma nth_set {A} (l : list A) s x y s' : nth_error l s = Some y ->
  nth_error (set_nth l s x) s' = if Nat.eqb s' s then Some x else nth_error l s'.
Proof.
  intros H. destruct (Nat.eqb_spec s' s) as [->|Hn].
  - exact (nth_error_set_nth_eq _ _ _ _ H).
  - apply nth_error_set_nth_neq. auto.
Qed.

Lemma nth_error_app_cases {A} (l : list A) x y : forall s, nth_error (l ++ [x]) s = Some y ->
  nth_error l s = Some y \/ (s = List.length l /\ y = x).
Proof.
  induction l as [|z l IH]; intros [|s]; cbn; auto.
  - intros [= <-]. auto.
  - destruct s; discriminate.
  - intros H. destruct (IH _ H) as [|[-> ->]]; auto.
Qed.

(* What holds of subscription s in every reachable state, given the slot table, "some queue overflowed" and
   "the connection has ended": while its queue is open its handler sits in its slot and its forwarder runs (so
   the forwarder returns only once the queue is closed); the queue is closed only by its own forwarder's
   RemoveHandler (which then returns) or by the connection's end; received ++ held ++ queued = dispatched, within
   the capacity. *)
Definition sub_ok (sl : nat -> option nat) (ov dn : bool) (s : nat) (x : fsub) : Prop :=
  (f_qclosed x = false -> sl (f_slot x) = Some s /\ f_done x = false) /\
  (f_qclosed x = true -> (f_abort x = true /\ f_done x = true) \/ dn = true) /\
  (ov = false -> f_got x ++ oh (f_hold x) ++ f_queue x = f_all x).

(* an occupied slot holds the handler of a subscription with an open queue that knows the slot as its id;
   closeWith leaves no slot occupied *)
Definition Inv (st : fstate) : Prop :=
  (forall i s, slots st i = Some s ->
     exists x, nth_error (fsubs st) s = Some x /\ f_slot x = i /\ f_qclosed x = false) /\
  (fdown st = true -> forall i, slots st i = None) /\
  forall s x, nth_error (fsubs st) s = Some x -> sub_ok (slots st) (fover st) (fdown st) s x.

Lemma inv_init : Inv finit.
Proof.
  split; [|split].
  - intros i s H; discriminate.
  - intros _ i; reflexivity.
  - intros s x H. destruct s; discriminate.
Qed.

Lemma sub_ok_fupd sl ov dn s x i v : sub_ok sl ov dn s x -> sl i <> Some s -> sub_ok (fupd sl i v) ov dn s x.
Proof.
  intros (C1 & C) N. split; [|exact C]. intros Hq. destruct (C1 Hq) as [A B]. split; [|exact B].
  rewrite fset_neq; congruence.
Qed.

(* x' may stand for x in any state: same slot, same state of the queue, sub_ok kept *)
Definition keeps (x x' : fsub) : Prop :=
  f_slot x' = f_slot x /\ f_qclosed x' = f_qclosed x /\
  forall sl ov dn s, sub_ok sl ov dn s x -> sub_ok sl ov dn s x'.

Lemma keeps_take x p q : f_hold x = None -> f_queue x = p :: q -> keeps x (fs_take x p q).
Proof.
  intros Eh Eq. split; [|split]; [reflexivity..|]. intros sl ov dn s (C1 & C2 & C4).
  rewrite Eh, Eq in C4. exact (conj C1 (conj C2 C4)).
Qed.

Lemma keeps_read x p : f_hold x = Some p -> keeps x (fs_read x p).
Proof.
  intros Eh. split; [|split]; [reflexivity..|]. intros sl ov dn s (C1 & C2 & C4).
  rewrite Eh in C4. refine (conj C1 (conj C2 _)). intros Hov. cbn. rewrite <- app_assoc. exact (C4 Hov).
Qed.

Lemma keeps_abort x : keeps x (fs_abort x).
Proof.
  split; [|split]; [reflexivity..|]. intros sl ov dn s (C1 & C2 & C4).
  refine (conj C1 (conj _ C4)). intros Hq. destruct (C2 Hq) as [[_ D]|D]; auto.
Qed.

Lemma keeps_done x : f_qclosed x = true -> keeps x (fs_done x).
Proof.
  intros Eq. split; [|split]; [reflexivity..|]. intros sl ov dn s (C1 & C2 & C4).
  refine (conj _ (conj _ C4)).
  - cbn. congruence.
  - intros Hq. destruct (C2 Hq) as [[A _]|A]; auto.
Qed.

Lemma inv_fset st s x x' : Inv st -> nth_error (fsubs st) s = Some x -> keeps x x' -> Inv (fset st s x').
Proof.
  intros (Hs & Hd & Ho) Hx (Esl & Eq & K). split; [|split; [exact Hd|]]; cbn [fset slots fsubs fover fdown].
  - intros i s0 Hi. destruct (Hs i s0 Hi) as (x0 & H0 & H1 & H2).
    rewrite (nth_set _ _ _ _ s0 Hx). destruct (Nat.eqb_spec s0 s) as [->|Hn]; [|eauto].
    exists x'. rewrite Esl, Eq. replace x with x0 by congruence. auto.
  - intros s0 x0. rewrite (nth_set _ _ _ _ s0 Hx). destruct (Nat.eqb_spec s0 s) as [->|Hn].
    + intros [= <-]. apply K, Ho, Hx.
    + apply Ho.
Qed.

Lemma fstep_own st l st' : fstep st l = Some st' ->
  match l with
  | FTake s | FRead s | FCancel s | FQClosed s =>
      exists x x', nth_error (fsubs st) s = Some x /\ keeps x x' /\ st' = fset st s x'
  | _ => True
  end.
Proof.
  destruct l as [| |s|s|s|s|s|]; try exact (fun _ => I); cbn [fstep];
    (destruct (nth_error (fsubs st) s) as [x|]; [|discriminate]).
  - destruct (f_done x); [discriminate|]. destruct (f_hold x) eqn:Eh; [discriminate|].
    destruct (f_queue x) as [|p q] eqn:Eq; [discriminate|].
    intros [= <-]. exists x, (fs_take x p q). auto using keeps_take.
  - destruct (f_hold x) as [p|] eqn:Eh; [|discriminate].
    intros [= <-]. exists x, (fs_read x p). auto using keeps_read.
  - destruct (f_abort x); [discriminate|].
    intros [= <-]. exists x, (fs_abort x). auto using keeps_abort.
  - destruct (f_done x); [discriminate|]. destruct (f_hold x); [discriminate|].
    destruct (f_queue x); [|discriminate]. destruct (f_qclosed x) eqn:Eq; [|discriminate].
    intros [= <-]. exists x, (fs_done x). auto using keeps_done.
Qed.

Lemma owns_iff st s x : Inv st -> nth_error (fsubs st) s = Some x ->
  owns st s x = negb (f_done x) && negb (fdown st).
Proof.
  intros (Hs & Hd & Ho) Hx. destruct (Ho s x Hx) as (C1 & C2 & _). unfold owns.
  destruct (f_qclosed x) eqn:Eq.
  - (* closed: the forwarder has returned or the connection has ended, and the slot is not ours any more *)
    replace (negb (f_done x) && negb (fdown st)) with false
      by (destruct (C2 eq_refl) as [[_ ->]| ->]; [reflexivity|symmetry; apply andb_false_r]).
    destruct (slots st (f_slot x)) as [o|] eqn:Es; [|reflexivity].
    destruct (Nat.eqb_spec o s) as [->|]; [|reflexivity].
    destruct (Hs _ _ Es) as (y & Hy & _ & Hq). congruence.
  - destruct (C1 eq_refl) as [Hsl ->]. rewrite Hsl, Nat.eqb_refl.
    destruct (fdown st); [|reflexivity]. now rewrite (Hd eq_refl) in Hsl.
Qed.

Lemma on_event_ok st sig p s x : Inv st -> nth_error (fsubs st) s = Some x ->
  exists q a, fst (on_event st sig p s x) = fs_qa x q a /\
    (fover st = false -> snd (on_event st sig p s x) = false -> f_got x ++ oh (f_hold x) ++ q = a).
Proof.
  intros HI Hx. pose proof (owns_iff _ _ _ HI Hx) as E. destruct HI as (_ & _ & Ho).
  destruct (Ho _ _ Hx) as (_ & _ & C4). unfold on_event. rewrite E.
  destruct (f_sig x =? sig); [|exists (f_queue x), (f_all x); split; [now destruct x|auto]].
  destruct (negb (f_done x) && negb (fdown st)); [destruct (Nat.ltb _ _)|]; cbn [fst snd];
    eexists _, _; (split; [reflexivity|]); try discriminate; auto.
  intros Hov _. rewrite <- (C4 Hov). now rewrite !app_assoc.
Qed.

(* RemoveHandler by a forwarder that has not returned: either the connection's end has removed its
   handler already, or its own handler is still in its slot *)
Lemma fstep_abort st s st' : Inv st -> fstep st (FAbort s) = Some st' ->
  exists x, nth_error (fsubs st) s = Some x /\ f_abort x = true /\
    ((f_qclosed x = true /\ st' = fset st s (fs_done x)) \/
     (slots st (f_slot x) = Some s /\
      st' = {| slots := fupd (slots st) (f_slot x) None; fsubs := set_nth (fsubs st) s (fs_done (fs_qclose x));
               fover := fover st; fdown := fdown st |})).
Proof.
  intros (_ & Hd & Ho). cbn [fstep]. destruct (nth_error (fsubs st) s) as [x|] eqn:Hx; [|discriminate].
  destruct (f_done x) eqn:Edn; [discriminate|]. destruct (f_hold x); [discriminate|].
  destruct (f_abort x) eqn:Ea; [|discriminate]. destruct (Ho _ _ Hx) as (C1 & C2 & _).
  unfold remove_handler. destruct (f_qclosed x) eqn:Eq.
  - assert (Hsl : slots st (f_slot x) = None) by (destruct (C2 eq_refl) as [[_ A]|A]; [congruence|exact (Hd A _)]).
    rewrite Hsl, Hx. intros [= <-]. exists x. auto.
  - destruct (C1 eq_refl) as [Hsl _]. rewrite Hsl. cbn [fsubs]. rewrite Hx, (nth_error_set_nth_eq _ _ _ _ Hx). intros [= <-].
    unfold fset; cbn [slots fsubs fover fdown]. rewrite set_nth_twice.
    exists x. split; [reflexivity|split; [exact Ea|right; split; [exact Hsl|reflexivity]]].
Qed.

Lemma inv_step st l st' : Inv st -> fstep st l = Some st' -> Inv st'.
Proof.
  intros HI Hst. pose proof (fstep_own _ _ _ Hst) as L. pose proof HI as (Hs & Hd & Ho).
  destruct l as [sig i|sig p|s|s|s|s|s|];
    try (destruct L as (x & x' & Hx & K & ->); exact (inv_fset _ _ _ _ HI Hx K)).
  - (* FSub *)
    cbn [fstep] in Hst. destruct (slots st i) eqn:Ei; [discriminate|]. destruct (fdown st); [discriminate|].
    injection Hst as <-. split; [|split; [discriminate|]]; cbn [slots fsubs fover fdown].
    + intros i0 s0. destruct (Nat.eq_dec i0 i) as [->|Hn]; [rewrite fset_eq|rewrite fset_neq by exact Hn].
      * intros [= <-]. exists (new_fsub sig i). rewrite nth_error_app_last. auto.
      * intros H0. destruct (Hs _ _ H0) as (x0 & A & B). exists x0. split; [now apply nth_error_app_old|exact B].
    + intros s0 x0 H0. apply nth_error_app_cases in H0 as [H0|[-> ->]].
      * apply sub_ok_fupd; [apply Ho, H0|congruence].
      * split; [split; [apply fset_eq|reflexivity]|]. repeat split; discriminate.
  - (* FEvent *)
    injection Hst as <-. split; [|split; [exact Hd|]]; cbn [slots fsubs fover fdown].
    + intros i s0 H0. destruct (Hs _ _ H0) as (x0 & A & B). rewrite nth_error_imap, A.
      destruct (on_event_ok st sig p s0 x0 HI A) as (q & a & E & _).
      eexists. split; [reflexivity|]. cbn [Nat.add]. rewrite E. exact B.
    + intros s0 x0. rewrite nth_error_imap. destruct (nth_error (fsubs st) s0) as [y|] eqn:Ey; [|discriminate].
      intros [= <-]. cbn [Nat.add]. destruct (on_event_ok st sig p s0 y HI Ey) as (q & a & -> & D).
      destruct (Ho _ _ Ey) as (C1 & C2 & _). refine (conj C1 (conj C2 _)).
      intros Hov. apply orb_false_iff in Hov as [Hov Hex]. apply D; [exact Hov|].
      exact (existsb_imap_false _ _ 0%nat Hex s0 y Ey).
  - (* FAbort *)
    destruct (fstep_abort _ _ _ HI Hst) as (x & Hx & Ea & [[Eq ->]|[Hsl ->]]).
    + exact (inv_fset _ _ _ _ HI Hx (keeps_done _ Eq)).
    + split; [|split]; cbn [slots fsubs fover fdown].
      * intros i s0. unfold fupd. destruct (Nat.eqb_spec i (f_slot x)) as [->|Hn]; [discriminate|]. intros H0.
        destruct (Hs _ _ H0) as (x0 & A & B & C). exists x0. rewrite nth_error_set_nth_neq; [auto|].
        intros <-. congruence.
      * intros A i. unfold fupd. rewrite (Hd A). now destruct (Nat.eqb _ _).
      * intros s0 x0. rewrite (nth_set _ _ _ _ s0 Hx). destruct (Nat.eqb_spec s0 s) as [->|Hn].
        -- intros [= <-]. destruct (Ho _ _ Hx) as (_ & _ & C4).
           split; [discriminate|split; [auto|exact C4]].
        -- intros H0. apply sub_ok_fupd; [apply Ho, H0|congruence].
  - (* FDown *)
    cbn [fstep] in Hst. destruct (fdown st); [discriminate|]. injection Hst as <-.
    split; [|split]; cbn [slots fsubs fover fdown]; [discriminate|reflexivity|].
    intros s0 x0. rewrite nth_error_map. destruct (nth_error (fsubs st) s0) as [y|] eqn:Ey; [|discriminate].
    intros [= <-]. destruct (Ho _ _ Ey) as (_ & _ & C4).
    split; [discriminate|split; [auto|exact C4]].
Qed.

Lemma inv_run tr : forall st st', Inv st -> frun st tr = Some st' -> Inv st'.
Proof.
  induction tr as [|l tr IH]; cbn [frun]; intros st st' HI H.
  - now injection H as <-.
  - destruct (fstep st l) eqn:E; [|discriminate]. exact (IH _ _ (inv_step _ _ _ HI E) H).
Qed.

Lemma reach_inv tr st : frun finit tr = Some st -> Inv st.
Proof. apply inv_run, inv_init. Qed.

Lemma abort_removes_own st s st' : Inv st -> fstep st (FAbort s) = Some st' ->
  forall s', s' <> s ->
    nth_error (fsubs st') s' = nth_error (fsubs st) s' /\
    (forall i, slots st i = Some s' -> slots st' i = Some s').
Proof.
  intros HI Hst s' Hn. destruct (fstep_abort _ _ _ HI Hst) as (x & Hx & _ & [[_ ->]|[Hsl ->]]);
    cbn [fset slots fsubs]; (split; [apply nth_error_set_nth_neq; auto|]); [auto|].
  intros i Hi. rewrite fset_neq; congruence.
Qed.

Lemma slot_kept st l st' i s : Inv st -> fstep st l = Some st' -> slots st i = Some s ->
  l <> FAbort s -> l <> FDown -> slots st' i = Some s.
Proof.
  intros HI Hst Hi N1 N2. pose proof (fstep_own _ _ _ Hst) as L.
  destruct l as [sig i0|sig p|s0|s0|s0|s0|s0|]; try (destruct L as (? & ? & _ & _ & ->); exact Hi).
  - cbn [fstep] in Hst. destruct (slots st i0) eqn:E; [discriminate|]. destruct (fdown st); [discriminate|].
    injection Hst as <-. cbn [slots]. rewrite fset_neq; congruence.
  - injection Hst as <-. exact Hi.
  - apply (abort_removes_own _ _ _ HI Hst s); congruence.
  - congruence.
Qed.

(* the replay of an observed operation sequence is a run of the transition system: each operation is its label
   (XGot of a queued event: FTake then FRead) followed by the forwarders' forced steps, all of them fstep's *)
Definition reach (st st' : fstate) : Prop := exists tr, frun st tr = Some st'.

Lemma reach_refl st : reach st st.
Proof. now exists []. Qed.

Lemma reach_step st l st1 st' : fstep st l = Some st1 -> reach st1 st' -> reach st st'.
Proof. intros H [tr Htr]. exists (l :: tr). cbn [frun]. now rewrite H. Qed.

Lemma reach_trans st st1 st' : reach st st1 -> reach st1 st' -> reach st st'.
Proof.
  intros [tr1 H1] [tr2 H2]. exists (tr1 ++ tr2). revert st H1.
  induction tr1 as [|l tr1 IH]; cbn [frun app]; intros st H1.
  - now injection H1 as ->.
  - destruct (fstep st l); [auto|discriminate].
Qed.

Lemma ffirst_step st ls st' : ffirst st ls = Some st' -> exists l, fstep st l = Some st'.
Proof.
  induction ls as [|l ls IH]; cbn [ffirst]; [discriminate|].
  destruct (fstep st l) eqn:E; [|exact IH]. intros [= <-]. eauto.
Qed.

Lemma fsettle_run fuel : forall st, reach st (fsettle fuel st).
Proof.
  induction fuel as [|f IH]; intros st; cbn [fsettle]; [apply reach_refl|].
  destruct (ffirst st _) as [st1|] eqn:E; [|apply reach_refl].
  destruct (ffirst_step _ _ _ E) as [l Hl]. exact (reach_step _ _ _ _ Hl (IH st1)).
Qed.

Lemma settle_after st l st' : option_map settle (fstep st l) = Some st' -> reach st st'.
Proof.
  destruct (fstep st l) as [st1|] eqn:E; [|discriminate]. intros [= <-].
  exact (reach_step _ _ _ _ E (fsettle_run _ st1)).
Qed.

Lemma fexec_run st o st' : fexec st o = Some st' -> reach st st'.
Proof.
  destruct o as [sig|sig p|s|s p|s|s|]; cbn [fexec]; try apply settle_after;
    (destruct (nth_error (fsubs st) s) as [x|]; [|discriminate]).
  - destruct (f_hold x) as [p'|]; [|destruct (f_queue x) as [|p' q]; [discriminate|]];
      (destruct (p' =? p); [|discriminate]); [apply settle_after|].
    destruct (fstep st (FTake s)) as [st1|] eqn:E1; [|discriminate]. cbn [bind]. intros H.
    exact (reach_step _ _ _ _ E1 (settle_after _ _ _ H)).
  - destruct (f_done x); [|apply settle_after]. intros [= <-]. apply reach_refl.
  - destruct (f_done x); [discriminate|]. destruct (f_hold x); [discriminate|].
    destruct (f_queue x); [|discriminate]. destruct (f_abort x); [discriminate|].
    destruct (f_qclosed x); [discriminate|]. intros [= <-]. apply reach_refl.
Qed.

Lemma freplay_run os : forall st st', freplay st os = Some st' -> reach st st'.
Proof.
  induction os as [|o os IH]; cbn [freplay]; intros st st' H.
  - injection H as <-. apply reach_refl.
  - destruct (fexec st o) as [st1|] eqn:E; [|discriminate].
    exact (reach_trans _ _ _ (fexec_run _ _ _ E) (IH _ _ H)).
Qed.

Lemma fwd_holds : forall tr st s x,
  frun finit tr = Some st -> nth_error (fsubs st) s = Some x ->
  (fover st = false -> f_got x ++ oh (f_hold x) ++ f_queue x = f_all x) /\
  (f_abort x = false -> fdown st = false ->
     f_qclosed x = false /\ f_done x = false /\ slots st (f_slot x) = Some s).
Proof.
  intros tr st s x Hr Hx. destruct (reach_inv _ _ Hr) as (_ & _ & Ho).
  destruct (Ho _ _ Hx) as (C1 & C2 & C4). split; auto.
  intros Ha Hd. destruct (f_qclosed x) eqn:Eq.
  - destruct (C2 eq_refl) as [[A _]|A]; congruence.
  - destruct (C1 eq_refl). auto.
Qed.

Lemma fwd_closed_by : forall tr st l st' s x,
  frun finit tr = Some st -> fstep st l = Some st' ->
  nth_error (fsubs st) s = Some x -> f_qclosed x = false ->
  l <> FAbort s -> l <> FDown ->
  exists x', nth_error (fsubs st') s = Some x' /\ f_qclosed x' = false.
Proof.
  intros tr st l st' s x Hr Hst Hx Hq N1 N2. pose proof (reach_inv _ _ Hr) as HI.
  (* the slot still holds the handler, so by the invariant after the step the queue is open *)
  destruct (inv_step _ _ _ HI Hst) as (Hs' & _). destruct (Hs' (f_slot x) s) as (x' & A & _ & B); [|eauto].
  apply (slot_kept _ _ _ _ _ HI Hst); [|exact N1|exact N2]. destruct HI as (_ & _ & Ho). now apply (Ho _ _ Hx).
Qed.

(* A leaves while event 1 is undelivered for it (its forwarder is blocked in the send), B subscribes on the
   same client before A reads on, A reads to the end, event 2 is B's alone: B's handler sits in another
   slot (A's is still occupied when B arrives), A's forwarder removes slot 0, B receives 2 and stays open *)
Definition fwd_ops_ex : list fop :=
  [XSub 200; XEvent 200 1; XCancel 0; XSub 200; XGot 0 1; XClosed 0; XEvent 200 2; XGot 1 2; XNone 1].

(* a forwarder that is parked when its subscriber cancels frees its slot at once: the next subscription takes it *)
Lemma fwd_ex_reuse : exists st, freplay finit [XSub 200; XCancel 0; XSub 201; XEvent 201 7; XGot 1 7] = Some st /\
  map (fun x => (f_slot x, f_done x, f_got x)) (fsubs st) = [(0%nat, true, []); (0%nat, false, [7])].
Proof. eexists. split; vm_compute; reflexivity. Qed.
