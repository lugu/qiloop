(* ConnLossProofs.v — invariants and theorems about the LTS of ConnLoss.v (property C11).
   The handler table changes by [Add] of one owner; what dispatch does is [disp_spec] (exactly, on a table without
   duplicates) and [disp_fold] (it preserves what enqueue and closeWith(nil) preserve); the channel operations
   write four fields only ([ctl_eq]).  [Step] lists what a step can do, guard by guard ([step_Step]), for the
   facts about every step: the invariant [Inv] (a lemma for each operation of the model, assembled in
   [inv_step]), the preorder [mono], [can_ok_back], [reply_kept] and the decrease of [measure] ([measure_step]).
   Lemmas about one given label compute that label themselves: the [terminal_*] lemmas (in a quiescent state, [terminal], every goroutine is at its end; [quietb] tests it), [early_reply_lands], [call_own_steps],
   [dispatch_enabled].  The properties: [calls_fail], [early_handler_closed] with [subs_closed] and [cb_once],
   [reply_delivered], [lost_run_bounded]; [ex_*] is a run that meets their hypotheses. *)
From QV Require Import ListFacts ConnLoss.
From Coq Require Import List Arith Bool Lia.
Import ListNotations.

Lemma owner_eqb_eq : forall a b, owner_eqb a b = true <-> a = b.
Proof.
  destruct a, b; simpl; split; intro H; try discriminate; try (apply Nat.eqb_eq in H; subst; reflexivity);
    inversion H; subst; apply Nat.eqb_refl.
Qed.
Lemma owner_eqb_refl : forall a, owner_eqb a a = true.
Proof. intro; apply owner_eqb_eq; reflexivity. Qed.
Lemma owner_eqb_neq : forall a b, owner_eqb a b = false <-> a <> b.
Proof. intros; rewrite <- owner_eqb_eq; destruct (owner_eqb a b); split; congruence. Qed.
Lemma owner_dec : forall a b : owner, {a = b} + {a <> b}.
Proof. decide equality; apply Nat.eq_dec. Qed.
Local Arguments owner_eqb !a !b.
Lemma mtype_eqb_eq : forall a b, mtype_eqb a b = true -> a = b.
Proof. destruct a, b; simpl; intros; congruence. Qed.

Lemma upd_same : forall A (f : nat -> A) k v, upd f k v k = v.
Proof. intros; unfold upd; rewrite Nat.eqb_refl; reflexivity. Qed.
Lemma upd_other : forall A (f : nat -> A) k v x, x <> k -> upd f k v x = f x.
Proof. intros; unfold upd; destruct (Nat.eqb_spec x k); auto; contradiction. Qed.
Lemma updo_same : forall A (f : owner -> A) k v, updo f k v k = v.
Proof. intros; unfold updo; rewrite owner_eqb_refl; reflexivity. Qed.
Lemma updo_other : forall A (f : owner -> A) k v x, x <> k -> updo f k v x = f x.
Proof. intros A f k v x H; unfold updo; apply owner_eqb_neq in H; rewrite H; reflexivity. Qed.

(* case split on whether index x is the one updated *)
Ltac upd_case x k :=
  destruct (Nat.eq_dec x k) as [->|?]; [rewrite ?upd_same in *|rewrite ?upd_other in * by assumption].

Lemma Add_app_l : forall A (a : A) p l l', Add a l l' -> Add a (p ++ l) (p ++ l').
Proof. induction p; simpl; auto using Add_cons. Qed.

Definition owners (tb : list (option owner)) : list owner :=
  flat_map (fun x => match x with Some o => [o] | None => [] end) tb.
Definition cowners (cl : list (owner * bool * nat)) : list owner := map (fun x => fst (fst x)) cl.
Definition ALL (s : state) : list owner := cowners (closers s) ++ owners (table s).

Lemma owners_cons_none : forall r, owners (None :: r) = owners r.
Proof. reflexivity. Qed.
Lemma owners_cons_some : forall o r, owners (Some o :: r) = o :: owners r.
Proof. reflexivity. Qed.

Lemma in_owners : forall tb o, In o (owners tb) <-> In (Some o) tb.
Proof.
  induction tb as [|[x|] r IH]; intro o; simpl; rewrite ?IH; [tauto| |intuition discriminate].
  split; (intros [H|H]; [left; congruence|auto]).
Qed.

(* MakeHandler, RemoveHandler and the clearing of a slot by dispatch each add or remove one occurrence *)
Lemma alloc_Add : forall tb o, Add o (owners tb) (owners (fst (alloc tb o))).
Proof.
  induction tb as [|[x|] r IH]; intro o; simpl; try apply Add_head.
  specialize (IH o). destruct (alloc r o); apply Add_cons, IH.
Qed.
Lemma alloc_slot : forall tb o, nth_error (fst (alloc tb o)) (snd (alloc tb o)) = Some (Some o).
Proof.
  induction tb as [|[x|] r IH]; intro o; simpl; auto.
  specialize (IH o). destruct (alloc r o); auto.
Qed.
Lemma setnth_none_Add : forall tb k o, nth_error tb k = Some (Some o) -> Add o (owners (setnth k None tb)) (owners tb).
Proof.
  induction tb as [|x r IH]; intros [|k] o H; simpl in *; try discriminate.
  - inversion H; subst. apply Add_head.
  - destruct x; simpl; auto using Add_cons.
Qed.

Lemma owners_map_none : forall tb : list (option owner), owners (map (fun _ => None) tb) = [].
Proof. induction tb; simpl; auto. Qed.
Lemma spawned_owners : forall tb e, cowners (spawned tb e) = owners tb.
Proof. induction tb as [|[x|] r IH]; intro e; simpl; auto. f_equal. apply IH. Qed.
Lemma in_spawned : forall tb e x, In x (spawned tb e) <-> exists o, x = (o, e, 0) /\ In o (owners tb).
Proof.
  induction tb as [|[o'|] r IH]; intros e x; simpl; rewrite ?IH.
  - split; [tauto|intros (o & _ & [])].
  - split; [intros [<-|(o & E & Hin)]|intros (o & E & [->|Hin])]; eauto.
  - tauto.
Qed.

Lemma in_cowners : forall cl o, In o (cowners cl) <-> exists e ph, In (o, e, ph) cl.
Proof.
  intros; unfold cowners; rewrite in_map_iff; split.
  - intros ([[o' e] ph] & E & H); simpl in E; subst; eauto.
  - intros (e & ph & H); exists (o, e, ph); auto.
Qed.
Lemma cowners_setnth : forall cl k o e ph e' ph', nth_error cl k = Some (o, e, ph) ->
  cowners (setnth k (o, e', ph') cl) = cowners cl.
Proof.
  induction cl as [|x r IH]; intros [|k] o e ph e' ph' H; simpl in *; try discriminate.
  - inversion H; subst; reflexivity.
  - f_equal. eapply IH; eauto.
Qed.
Lemma closers_setnth : forall cl k o e ph v, NoDup (cowners cl) -> nth_error cl k = Some (o, e, ph) ->
  forall x, In x (setnth k v cl) <-> x = v \/ (In x cl /\ fst (fst x) <> o).
Proof.
  induction cl as [|y r IH]; intros [|k] o e ph v ND H x; simpl in *; try discriminate;
    inversion ND as [|? ? Hn ND']; subst.
  - inversion H; subst; simpl in *. split.
    + intros [<-|Hx]; auto. right. split; auto. intros E. apply Hn. rewrite <- E. exact (in_map (fun y => fst (fst y)) _ _ Hx).
    + intros [->|[[<-|Hx] Hne]]; auto. simpl in Hne. congruence.
  - rewrite (IH _ _ _ _ v ND' H x).
    assert (fst (fst y) <> o) by (intros E; apply Hn; rewrite E; apply in_cowners; eauto using nth_error_In).
    split; [intros [<-|[->|[Hx Hne]]]|intros [->|[[<-|Hx] Hne]]]; auto.
Qed.

Definition clearo (o : owner) (tb : list (option owner)) : list (option owner) :=
  map (fun x => match x with Some o' => if owner_eqb o' o then None else Some o' | None => None end) tb.

Lemma clearo_notin : forall o tb, ~ In o (owners tb) -> clearo o tb = tb.
Proof.
  induction tb as [|[o'|] r IH]; simpl; intro H; auto; rewrite IH by tauto; auto.
  destruct (owner_eqb o' o) eqn:E; auto. apply owner_eqb_eq in E; tauto.
Qed.
Lemma clearo_Add : forall o tb, NoDup (owners tb) -> In o (owners tb) -> Add o (owners (clearo o tb)) (owners tb).
Proof.
  induction tb as [|[o'|] r IH]; simpl; intros ND HIn; auto; [contradiction|].
  inversion ND as [|? ? Hni ND']; subst. fold (clearo o r). destruct (owner_eqb o' o) eqn:E.
  - apply owner_eqb_eq in E; subst. rewrite clearo_notin by assumption. apply Add_head.
  - apply owner_eqb_neq in E. destruct HIn as [->|HIn]; [contradiction|]. apply Add_cons; auto.
Qed.

Lemma matches_target : forall o' m, matches o' m = true -> exists t, m = MFor o' t.
Proof.
  intros o' [o t|] H; simpl in H; [|destruct o'; discriminate].
  destruct o'; try discriminate; apply owner_eqb_eq in H; subst; eauto.
Qed.
Local Arguments matches : simpl never.
Local Arguments keeps : simpl never.
Local Arguments enqueue : simpl never.
Local Arguments close_sync : simpl never.

Lemma disp_unfold : forall m o r s,
  disp m (Some o :: r) s =
    let s1 := if matches o m then match m with MFor _ t => enqueue s o t | MNone => s end else s in
    if keeps o m then let '(r', s') := disp m r s1 in (Some o :: r', s')
    else let '(r', s') := disp m r (close_sync s1 o) in (None :: r', s').
Proof. reflexivity. Qed.
Lemma disp_nomatch : forall m tb s, (forall o, In o (owners tb) -> matches o m = false) -> disp m tb s = (tb, s).
Proof.
  induction tb as [|[o|] r IH]; intros s H; simpl in *; auto; [|rewrite IH; auto].
  unfold keeps. rewrite (H o), IH; auto.
Qed.

(* dispatch is a sequence of enqueue and closeWith(nil) on handlers of the table: whatever those two preserve
   ([R] a preorder), dispatch preserves; and it only clears slots (second conjunct, which does not depend on R) *)
Lemma disp_fold : forall m (R : state -> state -> Prop),
  (forall s, R s s) -> (forall a b c, R a b -> R b c -> R a c) -> forall tb,
  (forall s o t, In o (owners tb) -> m = MFor o t -> R s (enqueue s o t)) ->
  (forall s o, In o (owners tb) -> R s (close_sync s o)) ->
  forall s, R s (snd (disp m tb s)) /\ forall x, In x (owners (fst (disp m tb s))) -> In x (owners tb).
Proof.
  intros m R Rr Rt. induction tb as [|[o|] r IH]; intros He Hc s; [split; auto| |].
  - rewrite disp_unfold.
    set (s1 := if matches o m then match m with MFor _ t => enqueue s o t | MNone => s end else s).
    assert (R1 : R s s1).
    { unfold s1. destruct (matches o m) eqn:M; auto. destruct (matches_target _ _ M) as [t E]. rewrite E. apply He; simpl; auto. }
    specialize (IH (fun s o t H => He s o t (or_intror H)) (fun s o H => Hc s o (or_intror H))).
    cbv zeta. destruct (keeps o m).
    + destruct (IH s1) as [C S]. destruct (disp m r s1); simpl in *. split; [eapply Rt; eauto|intuition].
    + destruct (IH (close_sync s1 o)) as [C S]. destruct (disp m r (close_sync s1 o)); simpl in *.
      split; [|auto]. apply (Rt _ _ _ R1), (Rt _ (close_sync s1 o)); [apply Hc; simpl; auto|exact C].
  - simpl. destruct (IH He Hc s) as [C S]. destruct (disp m r s); auto.
Qed.

Lemma disp_spec : forall m tb s, NoDup (owners tb) ->
  ((forall o, In o (owners tb) -> matches o m = false) /\ disp m tb s = (tb, s)) \/
  exists o t, m = MFor o t /\ In o (owners tb) /\ matches o m = true /\
    disp m tb s = if keeps o m then (tb, enqueue s o t) else (clearo o tb, close_sync (enqueue s o t) o).
Proof.
  induction tb as [|[o'|] r IH]; intros s ND; simpl in *; [left; split; [intros o []|auto]| |].
  - inversion ND as [|? ? Hni ND']; subst. destruct (matches o' m) eqn:M.
    + right. destruct (matches_target _ _ M) as [t ->]. exists o', t. rewrite owner_eqb_refl.
      assert (NM : forall o1, In o1 (owners r) -> matches o1 (MFor o' t) = false).
      { intros o1 H1. destruct (matches o1 (MFor o' t)) eqn:E; auto.
        destruct (matches_target _ _ E) as [t' Et]. inversion Et; subst. contradiction. }
      repeat split; auto. fold (clearo o' r). rewrite clearo_notin by assumption.
      destruct (keeps o' (MFor o' t)); rewrite disp_nomatch; auto.
    + assert (K : keeps o' m = true) by (unfold keeps; rewrite M; reflexivity). rewrite K.
      destruct (IH s ND') as [[Hno ->]|(o & t & -> & Hin & HM & ->)]; [left; split; auto; intros o [<-|Ho]; auto|].
      right. exists o, t. fold (clearo o r). assert (E : owner_eqb o' o = false) by (apply owner_eqb_neq; intros ->; contradiction).
      rewrite E. repeat split; auto. destruct (keeps o (MFor o t)); reflexivity.
  - destruct (IH s ND) as [[Hno ->]|(o & t & -> & Hin & HM & ->)]; auto.
    right. exists o, t. repeat split; auto. destruct (keeps o (MFor o t)); reflexivity.
Qed.

Definition reg (s : state) (o : owner) : Prop :=
  match o with
  | OCall c => cp s c <> CIdle
  | OSub i => sp s i <> SNone
  | OCb j => cbreg s j = true
  end.
(* a handler of o has been made and o has not yet returned *)
Definition act (s : state) (o : owner) : Prop :=
  match o with
  | OCall c => match cp s c with CMade _ | CWait | CFailed _ | CCancel => True | _ => False end
  | _ => reg s o
  end.
Definition pend (s : state) (o : owner) : Prop := exists e ph, In (o, e, ph) (closers s) /\ ph <= 1.
Definition intab (s : state) (o : owner) : Prop := In o (owners (table s)).

(* iA  no close of a closed channel, no send on one
   iB  a handler sits in one place: one slot of the table or one closer goroutine (go handler.closeWith)
   iC  ... and belongs to a call that has started, a subscription made, a callback registered
   iH  before that its channel is as created: empty and open
   iD  a handler in the table has an open channel (dispatch may send on it)
   iE  a closer goroutine has at most its two halves behind it; its channel is open until the second, close(consumer)
   iF  `errors` of call c holds a value only if a closer of c with err <> nil has run its first half
   iG  close(events) is done exactly when the goroutine of Subscribe has ended
   iK  a handler made for an owner that has not returned is in the table, or in the hands of a closer goroutine
       that has not yet closed the channel, or closed: nobody waits on a channel that nothing will close
   iN  a message waits in the reply channel of a call only once its handler has left table and closers
       (the filter of Call keeps the handler for one message only)
   iP  process past stream.Close(), and a user goroutine inside endpoint.Close(), have closed the stream
   iK2 a waiting call whose handler is in the table implies process has not finished closeWith
   iM  a callback runs once: its count is 1 exactly when its closer has run (first half done, or handler closed) *)
Record Inv (s : state) : Prop := {
  iA : panicked s = false;
  iB : NoDup (ALL s);
  iC : forall o, In o (ALL s) -> reg s o;
  iH : forall o, reg s o \/ ch s o = chan0;
  iD : forall o, intab s o -> qclosed (ch s o) = false;
  iE : forall o e ph, In (o, e, ph) (closers s) -> ph <= 2 /\ (ph <= 1 -> qclosed (ch s o) = false);
  iF : forall c, errs s c = true -> exists ph, In (OCall c, true, ph) (closers s) /\ 1 <= ph;
  iG : forall i, evclosed s i = true <-> sp s i = SDone;
  iK : forall o, act s o -> qclosed (ch s o) = true \/ pend s o \/ intab s o;
  iN : forall c, q (ch s (OCall c)) <> [] -> ~ In (OCall c) (ALL s);
  iP : (proc s = PClosing \/ proc s = PDone -> closed s = true) /\ (usr s <> UIdle -> closed s = true);
  iK2 : forall c, cp s c = CWait -> intab s (OCall c) -> proc s <> PDone;
  iM : forall j, cbcount s j <= 1 /\
         (cbcount s j = 1 <-> (qclosed (ch s (OCb j)) = true \/ exists e ph, In (OCb j, e, ph) (closers s) /\ 1 <= ph))
}.

Lemma inv_init : forall n m d, Inv (init n m d).
Proof.
  intros; constructor; unfold ALL, intab, pend, reg, act; simpl; auto.
  - (* iB *) constructor.
  - (* iC *) tauto.
  - (* iE *) tauto.
  - (* iF *) intros; discriminate.
  - (* iG *) intros; split; discriminate.
  - (* iK *) intros o H; destruct o; simpl in H; try congruence; contradiction.
  - (* iP *) split; intros H; [destruct H; discriminate|congruence].
  - (* iM *) intros; split; [lia|]. split; [discriminate|]. intros [H|(e & ph & [] & _)]; discriminate.
Qed.

Lemma inv_nodup : forall s, Inv s -> NoDup (cowners (closers s)) /\ NoDup (owners (table s)) /\
  forall o, In o (cowners (closers s)) -> ~ intab s o.
Proof. intros s I. exact (proj1 (NoDup_app_iff _ _) (iB s I)). Qed.

(* Each lemma below takes the invariant through one operation of the model.  It names the 13 clauses
   ([inv_split]), lets [assumption], or [simpl; auto] once the state predicates are unfolded ([unf]), close the
   clauses that do not read a field the operation writes; the bullets are the clauses that do. *)
Ltac inv_split I := destruct I as [jA jB jC jH jD jE jF jG jK jN jP jK2 jM].
Ltac unf := unfold ALL, intab, pend, reg, act in *.

Definition act_pc (v : cpc) : Prop := match v with CMade _ | CWait | CFailed _ | CCancel => True | _ => False end.

Lemma inv_cp : forall s c v, Inv s -> v <> CIdle -> (act_pc v -> act_pc (cp s c)) ->
  (v = CWait -> proc s <> PDone) -> Inv (set_cp s (upd (cp s) c v)).
Proof.
  intros s c v I Hv Hact Hw. inv_split I. constructor; try assumption; unf; simpl; auto.
  - (* iC *) intros o Ho. specialize (jC o Ho). destruct o as [c0| |]; auto. upd_case c0 c; auto.
  - (* iH *) intros o. destruct (jH o) as [Hr|Hc]; auto. left. destruct o as [c0| |]; auto. upd_case c0 c; auto.
  - (* iK *) intros o Ho. apply jK. destruct o as [c0| |]; simpl in *; auto. upd_case c0 c; auto. exact (Hact Ho).
  - (* iK2 *) intros c0 H0 Hin. upd_case c0 c; [apply Hw; assumption | eapply jK2; eauto].
Qed.

(* the first step of the goroutine of o, which registers its handler: Call reaches CMade k, the loop of
   Subscribe starts, OnDisconnect has registered *)
Definition reg_upd (s : state) (o : owner) (k : nat) : state :=
  set_cbreg (set_sp (set_cp s (fun c => if owner_eqb (OCall c) o then CMade k else cp s c))
                    (fun i => if owner_eqb (OSub i) o then SLoop else sp s i))
            (fun j => if owner_eqb (OCb j) o then true else cbreg s j).

(* MakeHandler for an owner that has no handler yet *)
Lemma inv_register : forall s o k, Inv s -> ~ reg s o -> Inv (reg_upd (set_table s (fst (alloc (table s) o))) o k).
Proof.
  intros s o k I Hnr. inv_split I. pose proof (alloc_Add (table s) o) as AT.
  pose proof (Add_app_l _ _ (cowners (closers s)) _ _ AT) as AA.
  assert (Hnew : ~ In o (ALL s)) by (intro Hin; apply Hnr; auto).
  set (s' := reg_upd _ o k).
  assert (Hreg : forall x, reg s x \/ x = o -> reg s' x).
  { unfold s'. intros x [Hx| ->]; [|destruct o; simpl; rewrite Nat.eqb_refl; auto; congruence].
    destruct x as [c|i|j]; simpl;
      [destruct (owner_eqb (OCall c) o)|destruct (owner_eqb (OSub i) o)|destruct (owner_eqb (OCb j) o)]; auto; congruence. }
  assert (Hact : forall x, act s' x -> act s x \/ x = o).
  { unfold s'. intros x. destruct (owner_dec x o) as [|Hne]; auto. apply owner_eqb_neq in Hne.
    destruct x; simpl; rewrite Hne; auto. }
  constructor; unfold ALL, intab, pend; simpl; auto.
  - (* iB *) apply (NoDup_Add AA). auto.
  - (* iC *) intros x Hx. apply Hreg. apply (Add_in AA) in Hx. destruct Hx as [<-|Hx]; auto.
  - (* iH *) intro x. destruct (jH x); auto.
  - (* iD *) intros x Hx. apply (Add_in AT) in Hx. destruct Hx as [<-|Hx]; [|apply jD; auto].
    destruct (jH o) as [Hr|Hc]; [contradiction|rewrite Hc; reflexivity].
  - (* iG *) intro i. destruct (owner_eqb (OSub i) o) eqn:E; [|apply jG]. apply owner_eqb_eq in E. subst o.
    split; [|discriminate]. intro Hev. apply jG in Hev. exfalso; apply Hnr; simpl; congruence.
  - (* iK *) intros x Hx. destruct (Hact x Hx) as [Ha| ->].
    + destruct (jK x Ha) as [H|[H|H]]; auto. right; right. apply (Add_in AT). right; auto.
    + right; right. apply (Add_in AT). left; auto.
  - (* iN *) intros c Hq Hin. apply (Add_in AA) in Hin. destruct Hin as [->|Hin]; [|eapply jN; eauto].
    destruct (jH (OCall c)) as [Hr|Hc]; [contradiction|]. rewrite Hc in Hq. simpl in Hq. congruence.
  - (* iK2 *) intros c Hc Hin. destruct (owner_eqb (OCall c) o) eqn:E; [discriminate|]. apply owner_eqb_neq in E.
    apply (Add_in AT) in Hin. destruct Hin as [->|Hin]; [congruence|]. eapply jK2; eauto.
Qed.

(* Handler.closeWith(nil) called synchronously, on a channel still open: the closer runs (a callback is
   counted), the channel is closed *)
Lemma close_sync_eq : forall s o, qclosed (ch s o) = false -> exists cb,
  close_sync s o = set_cbcount (set_ch s (updo (ch s) o {| q := q (ch s o); qclosed := true |})) cb /\
  forall j, cb j = if owner_eqb (OCb j) o then S (cbcount s j) else cbcount s j.
Proof.
  intros s o H. unfold close_sync, close_chan. destruct o as [c|i|j0]; simpl; rewrite H; eexists; (split; [reflexivity|]); auto.
  intro j. unfold upd. simpl. destruct (Nat.eqb_spec j j0); subst; reflexivity.
Qed.

(* ... on a handler that sits in the table, its slot cleared; h and cb are the channels and the
   callback counts afterwards *)
Lemma inv_sync_close_q : forall s o tb' h cb, Inv s -> Add o (owners tb') (owners (table s)) ->
  (forall x, x <> o -> h x = ch s x) -> qclosed (h o) = true ->
  (forall j, cb j = if owner_eqb (OCb j) o then S (cbcount s j) else cbcount s j) ->
  Inv (set_table (set_cbcount (set_ch s h) cb) tb').
Proof.
  intros s o tb' h cb I AT Hh Hc Hcb. inv_split I.
  pose proof (Add_app_l _ _ (cowners (closers s)) _ _ AT) as AA.
  destruct (proj1 (NoDup_Add AA) jB) as [ND Hni].
  assert (Hin : intab s o) by (apply (Add_in AT); left; auto).
  assert (Hsub : forall x, In x (cowners (closers s) ++ owners tb') -> In x (ALL s) /\ x <> o).
  { intros x Hx. split; [apply (Add_in AA); right; auto|intros ->; contradiction]. }
  assert (Hcl : forall e ph, ~ In (o, e, ph) (closers s)).
  { intros e ph Hx. apply Hni, in_app_iff. left. apply in_cowners; eauto. }
  constructor; try assumption; unf; simpl; auto.
  - (* iC *) intros x Hx. apply jC, Hsub, Hx.
  - (* iH *) intro x. destruct (owner_dec x o) as [->|Hx]; [left; apply jC, (Add_in AA); left; auto|].
    rewrite Hh by assumption. apply jH.
  - (* iD *) intros x Hx. rewrite Hh; [apply jD, (Add_in AT); right; auto|]. apply Hsub, in_app_iff; auto.
  - (* iE *) intros x e ph Hx. destruct (jE x e ph Hx) as [Hp Hq]. split; auto. intro Hle.
    rewrite Hh; auto. intros ->. eapply Hcl; eauto.
  - (* iK *) intros x Hx. destruct (owner_dec x o) as [->|Hxo]; auto. rewrite Hh by assumption.
    destruct (jK x Hx) as [H|[H|H]]; auto. right; right. apply (Add_in AT) in H. destruct H; [congruence|auto].
  - (* iN *) intros c Hq Hx. destruct (Hsub _ Hx) as [Ha Hne]. rewrite Hh in Hq by assumption. eapply jN; eauto.
  - (* iK2 *) intros c Hc' Hx. apply (jK2 c Hc'), (Add_in AT); right; auto.
  - (* iM *) intro j. rewrite Hcb. destruct (jM j) as [Hle Hiff]. destruct (owner_eqb (OCb j) o) eqn:Eo.
    + apply owner_eqb_eq in Eo. subst o. rewrite Hc.
      assert (cbcount s j <> 1).
      { intro H1. apply Hiff in H1. destruct H1 as [H1|(e & ph & H1 & _)]; [|eapply Hcl; eauto].
        rewrite jD in H1 by assumption; discriminate. }
      split; [lia|]. split; auto. intros _. lia.
    + apply owner_eqb_neq in Eo. rewrite Hh by assumption. split; auto.
Qed.
Lemma inv_sync_close : forall s o tb', Inv s -> Add o (owners tb') (owners (table s)) ->
  Inv (set_table (close_sync s o) tb').
Proof.
  intros s o tb' I AT.
  assert (Hop : qclosed (ch s o) = false) by (apply (iD s I), (Add_in AT); left; auto).
  destruct (close_sync_eq s o Hop) as (cb & -> & Hcb).
  apply (inv_sync_close_q s o); auto; intros; [apply updo_other; auto|rewrite updo_same; reflexivity].
Qed.
Lemma inv_remove_handler : forall s k, Inv s -> Inv (remove_handler s k).
Proof.
  intros s k I. unfold remove_handler. destruct (nth_error (table s) k) as [[o|]|] eqn:E; auto.
  apply inv_sync_close, setnth_none_Add; auto.
Qed.

(* a write of the queue of o's channel: an element taken (the select of Call, the goroutine of Subscribe) or added
   by dispatch; the queue of a call must not become non-empty (iN) *)
Lemma inv_setq : forall s o r, Inv s -> reg s o -> (forall c, o = OCall c -> r <> [] -> q (ch s o) <> []) ->
  Inv (set_ch s (updo (ch s) o {| q := r; qclosed := qclosed (ch s o) |})).
Proof.
  intros s o r I Hr Hq. inv_split I. set (h := updo _ _ _).
  assert (Hh : forall x, x <> o -> h x = ch s x) by (intros; apply updo_other; auto).
  assert (Hqc : forall x, qclosed (h x) = qclosed (ch s x))
    by (intro x; destruct (owner_dec x o) as [->|]; [unfold h; rewrite updo_same|rewrite Hh]; auto).
  constructor; try assumption; unf; simpl; auto.
  - (* iH *) intro x. destruct (owner_dec x o) as [->|Hx]; [left; auto|]. rewrite Hh by assumption. auto.
  - (* iD *) intros x Hx. rewrite Hqc; auto.
  - (* iE *) intros x e ph Hx. rewrite Hqc; eauto.
  - (* iK *) intros x Hx. rewrite Hqc; auto.
  - (* iN *) intros c Hc'. destruct (owner_dec (OCall c) o) as [<-|Hxo]; [unfold h in Hc'; rewrite updo_same in Hc'; apply jN; eauto|].
    rewrite Hh in Hc' by assumption. auto.
  - (* iM *) intro j. rewrite Hqc; auto.
Qed.

Lemma inv_errs_clear : forall s c, Inv s -> Inv (set_errs s (upd (errs s) c false)).
Proof.
  intros s c I. inv_split I. constructor; try assumption; unf; simpl; auto.
  (* iF *) intros c0 H0. upd_case c0 c; auto; discriminate.
Qed.

Lemma inv_proc : forall s p, Inv s -> p <> PClosing -> p <> PDone -> Inv (set_proc s p).
Proof.
  intros s p I H1 H2. inv_split I. constructor; try assumption; unf; simpl; auto.
  (* iP *) destruct jP as [P1 P2]. split; auto. intros [H|H]; congruence.
Qed.

(* no clause reads these three fields *)
Lemma inv_unread : forall s b f g, Inv s -> Inv (set_delivered (set_cancelled (set_dead s b) f) g).
Proof. intros s b f g I. inv_split I. constructor; assumption. Qed.

(* the Subscribe goroutine moves between SLoop and SSend, or ends with close(events) *)
Lemma inv_sp : forall s i v ev, Inv s -> sp s i <> SNone -> v <> SNone -> (ev i = true <-> v = SDone) ->
  (forall x, x <> i -> ev x = evclosed s x) -> Inv (set_sp (set_evclosed s ev) (upd (sp s) i v)).
Proof.
  intros s i v ev I H0 Hv Hb He. inv_split I. constructor; try assumption; unf; simpl; auto.
  - (* iC *) intros o Ho. specialize (jC o Ho). destruct o as [|i0|]; auto. upd_case i0 i; auto.
  - (* iH *) intro o. destruct (jH o); auto. left. destruct o as [|i0|]; auto. upd_case i0 i; auto.
  - (* iG *) intro i0. upd_case i0 i; auto. rewrite He by assumption. auto.
  - (* iK *) intros o Ho. apply jK. destruct o as [|i0|]; simpl in *; auto. upd_case i0 i; auto.
Qed.

(* A call's program counter only goes down this scale; [measure] below counts with it. *)
Definition callrank (p : cpc) : nat :=
  match p with CIdle => 9 | CMade _ => 5 | CWait => 4 | CFailed _ => 2 | CCancel => 1 | CDone _ => 0 end.

(* the labels of call c that change nothing but its program counter: label, the guards that [pc_move_spec] and
   [reply_kept] read, new pc *)
Inductive pc_move (s : state) (c : nat) : label -> cpc -> Prop :=
| mv_skip : c < nn s -> cp s c = CIdle -> pc_move s c (LCallMake c) (CDone false)
| mv_send : forall k, cp s c = CMade k -> closed s = false -> pc_move s c (LCallSend c) CWait
| mv_fail : forall k, cp s c = CMade k -> pc_move s c (LCallSendFail c) (CFailed k)
| mv_closed : cp s c = CWait -> q (ch s (OCall c)) = [] -> pc_move s c (LCallSel c BReply) (CDone false)
| mv_cancel : cp s c = CWait -> cancelled s c = true -> pc_move s c (LCallSel c BCancel) CCancel
| mv_cancelled : cp s c = CCancel -> pc_move s c (LCallCancelSend c) (CDone false).

(* what [mono] and the measure, [inv_cp] and [can_ok_cp] ask of such a move *)
Lemma pc_move_spec : forall s c l v, pc_move s c l v ->
  callrank v < callrank (cp s c) /\ (cp s c = CIdle -> c < nn s) /\ v <> CIdle /\ v <> CDone true /\
  (act_pc v -> act_pc (cp s c)) /\ (v = CWait -> closed s = false).
Proof.
  intros s c l v [Hc E|k E Hcl|k E|E _|E _|E]; rewrite E; simpl; repeat split; auto; try discriminate; lia.
Qed.

(* What each goroutine can do, label by label, under those of its guards that a fact about every step reads: the
   case analysis of [step], made once ([step_Step]).  A proof about every step takes a [Step] apart and finds the
   guards under the names given here. *)
Inductive Step (s : state) : label -> state -> Prop :=
| St_cancel c (Hc : c < nn s) (Ek : cancelled s c = false) : Step s (LCancel c) (set_cancelled s (upd (cancelled s) c true))
| St_move c l v (M : pc_move s c l v) : Step s l (set_cp s (upd (cp s) c v))
| St_make c (Hc : c < nn s) (Ep : cp s c = CIdle) :
    Step s (LCallMake c) (set_cp (set_table s (fst (alloc (table s) (OCall c))))
                                 (upd (cp s) c (CMade (snd (alloc (table s) (OCall c))))))
| St_remove c k (Ep : cp s c = CFailed k) :
    Step s (LCallRemove c) (set_cp (remove_handler s k) (upd (cp (remove_handler s k)) c (CDone false)))
| St_err c (Ep : cp s c = CWait) (Ee : errs s c = true) :
    Step s (LCallSel c BErr) (set_cp (set_errs s (upd (errs s) c false)) (upd (cp s) c (CDone false)))
| St_reply c t r (Ep : cp s c = CWait) (Eq : q (ch s (OCall c)) = t :: r) :
    Step s (LCallSel c BReply) (set_cp (set_ch s (updo (ch s) (OCall c) {| q := r; qclosed := qclosed (ch s (OCall c)) |}))
                                       (upd (cp s) c (CDone (mtype_eqb t TReply))))
| St_subscribe i (Hi : i < mm s) (Es : sp s i = SNone) :
    Step s (LSubscribe i) (set_sp (set_table s (fst (alloc (table s) (OSub i)))) (upd (sp s) i SLoop))
| St_take i t r (Es : sp s i = SLoop) (Eq : q (ch s (OSub i)) = t :: r) :
    Step s (LSubTake i) (set_sp (set_ch s (updo (ch s) (OSub i) {| q := r; qclosed := qclosed (ch s (OSub i)) |}))
                                (upd (sp s) i (if mtype_eqb t TEvent then SSend else SLoop)))
| St_twice i (Es : sp s i = SLoop) (Ev : evclosed s i = true) : Step s (LSubClosed i) (set_panicked s true)
| St_closed i (Es : sp s i = SLoop) :
    Step s (LSubClosed i) (set_sp (set_evclosed s (upd (evclosed s) i true)) (upd (sp s) i SDone))
| St_read i (Es : sp s i = SSend) :
    Step s (LSubRead i) (set_sp (set_delivered s (upd (delivered s) i (S (delivered s i)))) (upd (sp s) i SLoop))
| St_ondisc j (Hj : j < dd s) (Er : cbreg s j = false) :
    Step s (LOnDisc j) (set_cbreg (set_table s (fst (alloc (table s) (OCb j)))) (upd (cbreg s) j true))
| St_die (Ed : dead s = false) : Step s LConnDie (set_dead s true)
| St_msg m (El : lost s = false) : Step s (LPeerMsg m) (set_proc s (PHave m))
| St_fail (Ep : proc s = PRead) : Step s LReadFail (set_proc s PFail)
| St_dispatch m (Ep : proc s = PHave m) :
    Step s LDispatch (set_proc (set_table (snd (disp m (table s) s)) (fst (disp m (table s) s))) PRead)
| St_pclose1 (Ep : proc s = PFail) : Step s LProcClose1 (set_proc (set_closed s true) PClosing)
| St_pclose2 (Ep : proc s = PClosing) : Step s LProcClose2 (set_proc (spawn_all s true) PDone)
| St_uclose1 (Eu : usr s = UIdle) : Step s LUserClose1 (set_usr (set_closed s true) UMid)
| St_uclose2 (Eu : usr s = UMid) : Step s LUserClose2 (set_usr (spawn_all s false) UFin)
| St_closer0 k o e s1 (Ek : nth_error (closers s) k = Some (o, e, 0)) (Er : run_closer s o e = Some s1) :
    Step s (LCloserStep k) (set_closers s1 (setnth k (o, e, 1) (closers s1)))
| St_closer1 k o e (Ek : nth_error (closers s) k = Some (o, e, 1)) :
    Step s (LCloserStep k) (set_closers (close_chan s o) (setnth k (o, e, 2) (closers (close_chan s o)))).

Local Hint Constructors Step pc_move : core.

Lemma step_Step : forall s l s', step s l = Some s' -> Step s l s'.
Proof.
  intros s l s' H.
  unfold step in H. destruct (panicked s); [discriminate|].
  destruct l; simpl in H; try discriminate.
  - destruct (dead s) eqn:E in H; try discriminate. injection H as <-. auto.
  - destruct (c <? nn s) eqn:Ec; simpl in H; try discriminate. apply Nat.ltb_lt in Ec.
    destruct (cancelled s c) eqn:Ek; simpl in H; try discriminate. injection H as <-. auto.
  - destruct (c <? nn s) eqn:Ec; try discriminate. apply Nat.ltb_lt in Ec.
    destruct (cp s c) eqn:Ep; try discriminate. destruct (cancelled s c).
    + injection H as <-. eauto.
    + rewrite (surjective_pairing (alloc (table s) (OCall c))) in H. injection H as <-. auto.
  - destruct (cp s c) eqn:Ep; try discriminate. destruct (closed s) eqn:E in H; try discriminate. injection H as <-. eauto.
  - destruct (cp s c) eqn:Ep; try discriminate. destruct (lost s); try discriminate. injection H as <-. eauto.
  - destruct (cp s c) eqn:Ep; try discriminate. injection H as <-. eauto.
  - destruct (cp s c) eqn:Ep; try discriminate. destruct b.
    + destruct (errs s c) eqn:E; try discriminate. injection H as <-. auto.
    + destruct (q (ch s (OCall c))) eqn:Eq; [destruct (qclosed (ch s (OCall c))); try discriminate|];
        injection H as <-; eauto.
    + destruct (cancelled s c) eqn:E; try discriminate. injection H as <-. eauto.
  - destruct (cp s c) eqn:Ep; try discriminate. injection H as <-. eauto.
  - destruct (i <? mm s) eqn:Ei; try discriminate. apply Nat.ltb_lt in Ei. destruct (sp s i) eqn:Es; try discriminate.
    rewrite (surjective_pairing (alloc (table s) (OSub i))) in H. injection H as <-. auto.
  - destruct (sp s i) eqn:Es; try discriminate. destruct (q (ch s (OSub i))) eqn:Eq; try discriminate.
    injection H as <-. auto.
  - destruct (sp s i) eqn:Es; try discriminate. destruct (q (ch s (OSub i))); try discriminate.
    destruct (qclosed (ch s (OSub i))); try discriminate. destruct (evclosed s i) eqn:Ev; injection H as <-; auto.
  - destruct (sp s i) eqn:Es; try discriminate. injection H as <-. auto.
  - destruct (j <? dd s) eqn:Ej; simpl in H; try discriminate. apply Nat.ltb_lt in Ej.
    destruct (cbreg s j) eqn:Er; simpl in H; try discriminate.
    rewrite (surjective_pairing (alloc (table s) (OCb j))) in H. injection H as <-. auto.
  - destruct (proc s); try discriminate. destruct (lost s) eqn:E in H; try discriminate. injection H as <-. auto.
  - destruct (proc s) eqn:Ep in H; try discriminate. destruct (lost s); try discriminate. injection H as <-. auto.
  - destruct (proc s) eqn:Ep in H; try discriminate. rewrite (surjective_pairing (disp m (table s) s)) in H.
    injection H as <-. auto.
  - destruct (proc s) eqn:Ep in H; try discriminate. injection H as <-. auto.
  - destruct (proc s) eqn:Ep in H; try discriminate. injection H as <-. auto.
  - destruct (usr s) eqn:Eu in H; try discriminate. injection H as <-. auto.
  - destruct (usr s) eqn:Eu in H; try discriminate. injection H as <-. auto.
  - destruct (nth_error (closers s) k) as [[[o e] [|[|ph]]]|] eqn:Ek; try discriminate.
    + destruct (run_closer s o e) as [s1|] eqn:Er; try discriminate. injection H as <-. eauto.
    + injection H as <-. auto.
Qed.

(* closeWith, second half (after stream.Close()): every handler is handed to its own goroutine *)
Lemma inv_spawn : forall s e p u, Inv s -> closed s = true -> Inv (set_usr (set_proc (spawn_all s e) p) u).
Proof.
  intros s e p u I Hcl. inv_split I. unfold spawn_all.
  assert (EA : cowners (closers s ++ spawned (table s) e) ++ owners (map (fun _ => None) (table s)) = ALL s).
  { unfold ALL, cowners. rewrite map_app. fold (cowners (spawned (table s) e)).
    rewrite spawned_owners, owners_map_none, app_nil_r. reflexivity. }
  constructor; unf; simpl; rewrite ?EA, ?owners_map_none; auto.
  - (* iD *) intros o [].
  - (* iE *) intros o e0 ph Hx. apply in_app_iff in Hx. destruct Hx as [Hx|Hx]; [exact (jE _ _ _ Hx)|].
    apply in_spawned in Hx. destruct Hx as (o' & E & Hin). inversion E; subst. split; [lia|]. intros _. auto.
  - (* iF *) intros c Hc. destruct (jF c Hc) as (ph & Hin & Hle). exists ph. split; auto. apply in_app_iff; auto.
  - (* iK *) intros o Ho. destruct (jK o Ho) as [H|[(e0 & ph & Hin & Hle)|H]]; auto.
    + right; left. exists e0, ph. split; auto. apply in_app_iff; auto.
    + right; left. exists e, 0. split; [|lia]. apply in_app_iff. right. apply in_spawned. eauto.
  - (* iM *) intro j. destruct (jM j) as [Hle Hiff]. split; auto. rewrite Hiff. split.
    + intros [H|(e0 & ph & Hin & Hp)]; auto. right. exists e0, ph. split; auto. apply in_app_iff; auto.
    + intros [H|(e0 & ph & Hin & Hp)]; auto. apply in_app_iff in Hin. destruct Hin as [Hin|Hin]; eauto.
      apply in_spawned in Hin. destruct Hin as (o' & E & _). inversion E; subst. lia.
Qed.

(* go handler.closeWith(err), first half: closer(err); er and cb are `errors` and the callback counts
   afterwards *)
Lemma inv_phase0 : forall s k o e er cb, Inv s -> nth_error (closers s) k = Some (o, e, 0) ->
  (forall c, er c = true -> errs s c = true \/ (o = OCall c /\ e = true)) ->
  (forall j, cb j = if owner_eqb (OCb j) o then S (cbcount s j) else cbcount s j) ->
  Inv (set_closers (set_cbcount (set_errs s er) cb) (setnth k (o, e, 1) (closers s))).
Proof.
  intros s k o e er cb I Hk Her Hcb. destruct (inv_nodup s I) as (NDc & _ & _).
  pose proof (closers_setnth _ _ _ _ _ (o, e, 1) NDc Hk) as Hcl.
  pose proof (nth_error_In _ _ Hk) as Hk'.
  assert (Huniq : forall e' ph, In (o, e', ph) (closers s) -> (o, e', ph) = (o, e, 0))
    by (intros e' ph H; exact (NoDup_map_inj _ _ _ _ NDc H Hk' eq_refl)).
  inv_split I.
  constructor; unfold ALL, intab, pend in *; simpl; rewrite ?(cowners_setnth _ _ _ _ _ _ _ Hk); auto.
  - (* iE *) intros x e0 ph Hx. apply Hcl in Hx. destruct Hx as [E|[Hin _]]; [|eauto].
    inversion E; subst. split; [lia|]. intros _. apply (jE o e 0 Hk'). lia.
  - (* iF *) intros c Hc. destruct (Her c Hc) as [Hc'|[-> ->]]; [|exists 1; split; auto; apply Hcl; auto].
    destruct (jF c Hc') as (ph & Hin & Hle). destruct (owner_dec (OCall c) o) as [<-|Hne].
    + apply Huniq in Hin. inversion Hin; subst. lia.
    + exists ph. split; auto. apply Hcl. right; auto.
  - (* iK *) intros x Hx. destruct (jK x Hx) as [H|[(e0 & ph & Hin & Hle)|H]]; auto. right; left.
    destruct (owner_dec x o) as [->|Hne]; [exists e, 1; split; auto; apply Hcl; auto|].
    exists e0, ph. split; auto. apply Hcl; right; auto.
  - (* iM *) intro j. rewrite Hcb. destruct (jM j) as [Hle Hiff]. destruct (owner_eqb (OCb j) o) eqn:Eo.
    + apply owner_eqb_eq in Eo. subst o.
      assert (cbcount s j <> 1).
      { intro H1. apply Hiff in H1. destruct H1 as [H1|(e0 & ph & H1 & Hp)].
        - rewrite (proj2 (jE _ _ _ Hk')) in H1 by lia. discriminate.
        - apply Huniq in H1. inversion H1; subst. lia. }
      split; [lia|]. split; [|lia]. intros _. right. exists e, 1. split; auto. apply Hcl; auto.
    + apply owner_eqb_neq in Eo. split; auto. rewrite Hiff. split.
      * intros [H|(e0 & ph & Hin & Hp)]; auto. right. exists e0, ph. split; auto. apply Hcl; right; auto.
      * intros [H|(e0 & ph & Hin & Hp)]; auto. apply Hcl in Hin.
        destruct Hin as [E|[Hin' _]]; [inversion E; congruence|eauto].
Qed.

(* go handler.closeWith(err), second half: close(consumer) *)
Lemma inv_phase1 : forall s k o e, Inv s -> nth_error (closers s) k = Some (o, e, 1) ->
  Inv (set_closers (set_ch s (updo (ch s) o {| q := q (ch s o); qclosed := true |})) (setnth k (o, e, 2) (closers s))).
Proof.
  intros s k o e I Hk. destruct (inv_nodup s I) as (NDc & _ & Hnt0).
  pose proof (closers_setnth _ _ _ _ _ (o, e, 2) NDc Hk) as Hcl.
  pose proof (nth_error_In _ _ Hk) as Hk'.
  assert (Huniq : forall e' ph, In (o, e', ph) (closers s) -> (o, e', ph) = (o, e, 1))
    by (intros e' ph H; exact (NoDup_map_inj _ _ _ _ NDc H Hk' eq_refl)).
  assert (Hoc : In o (cowners (closers s))) by (apply in_cowners; eauto).
  assert (Hnt : ~ intab s o) by auto.
  inv_split I.
  constructor; unfold ALL, intab, pend in *; simpl; rewrite ?(cowners_setnth _ _ _ _ _ _ _ Hk); auto.
  - (* iH *) intro x. destruct (owner_dec x o) as [->|Hne]; [left; apply jC, in_app_iff; auto|].
    rewrite updo_other by assumption. apply jH.
  - (* iD *) intros x Hx. rewrite updo_other; auto. intros ->. contradiction.
  - (* iE *) intros x e0 ph Hx. apply Hcl in Hx. destruct Hx as [E|[Hin Hne]].
    + inversion E; subst. split; [lia|]. intro; lia.
    + simpl in Hne. rewrite updo_other by assumption. eauto.
  - (* iF *) intros c Hc. destruct (jF c Hc) as (ph & Hin & Hle). destruct (owner_dec (OCall c) o) as [<-|Hne].
    + apply Huniq in Hin. inversion Hin; subst. exists 2. split; auto. apply Hcl; auto.
    + exists ph. split; auto. apply Hcl; right; auto.
  - (* iK *) intros x Hx. destruct (owner_dec x o) as [->|Hne]; [left; rewrite updo_same; reflexivity|].
    rewrite updo_other by assumption.
    destruct (jK x Hx) as [H|[(e0 & ph & Hin & Hle)|H]]; auto. right; left. exists e0, ph. split; auto. apply Hcl; right; auto.
  - (* iN *) intros c Hc. apply jN. destruct (owner_dec (OCall c) o) as [<-|Hne].
    + rewrite updo_same in Hc. exact Hc.
    + rewrite updo_other in Hc by assumption. exact Hc.
  - (* iM *) intro j. destruct (jM j) as [Hle Hiff]. split; auto. destruct (owner_dec (OCb j) o) as [<-|Hne].
    + rewrite updo_same. simpl. split; auto. intros _. apply Hiff. right. exists e, 1. auto.
    + rewrite updo_other by assumption. rewrite Hiff. split.
      * intros [H|(e0 & ph & Hin & Hp)]; auto. right. exists e0, ph. split; auto. apply Hcl; right; auto.
      * intros [H|(e0 & ph & Hin & Hp)]; auto. apply Hcl in Hin.
        destruct Hin as [E|[Hin' _]]; [inversion E; congruence|eauto].
Qed.

Lemma enqueue_cases : forall s o t, qclosed (ch s o) = false ->
  enqueue s o t = s \/
  enqueue s o t = set_ch s (updo (ch s) o {| q := q (ch s o) ++ [t]; qclosed := qclosed (ch s o) |}).
Proof. intros s o t H. unfold enqueue. rewrite H. destruct (_ <? _); auto. Qed.

Lemma inv_dispatch : forall s m tb s', Inv s -> disp m (table s) s = (tb, s') -> Inv (set_proc (set_table s' tb) PRead).
Proof.
  intros s m tb s' I Hd. destruct (inv_nodup s I) as (_ & NDt & _).
  assert (P : forall s1, Inv s1 -> Inv (set_proc s1 PRead)) by (intros; apply inv_proc; auto; discriminate).
  destruct (disp_spec m (table s) s NDt) as [[_ E]|(o & t & -> & Hin & HM & E)]; rewrite E in Hd.
  - inversion Hd; subst. exact (P _ I).
  - assert (Hop : qclosed (ch s o) = false) by (apply (iD s I); exact Hin).
    assert (Hreg : reg s o) by (apply (iC s I), in_app_iff; auto).
    destruct (keeps o (MFor o t)) eqn:HK; inversion Hd; subst; clear Hd;
      destruct (enqueue_cases s o t Hop) as [->| ->].
    + exact (P _ I).
    + (* the handler stays: a subscription receives a message that is not an error *)
      apply (P (set_ch s _)), (inv_setq s o); auto.
      intros c ->. unfold keeps in HK. rewrite HM in HK. discriminate.
    + apply (P (set_table (close_sync s o) _)). apply inv_sync_close, clearo_Add; auto.
    + (* the handler goes: closeWith(nil) and the slot cleared, under the same mutex *)
      destruct (close_sync_eq (set_ch s (updo (ch s) o {| q := q (ch s o) ++ [t]; qclosed := qclosed (ch s o) |})) o)
        as (cb & -> & Hcb); [simpl; rewrite updo_same; auto|].
      apply (P (set_table (set_cbcount (set_ch s _) cb) _)). apply (inv_sync_close_q s o); auto using clearo_Add.
      * intros x Hx. simpl. rewrite !updo_other; auto.
      * simpl. rewrite updo_same. reflexivity.
Qed.

Lemma inv_step : forall s l s', Inv s -> step s l = Some s' -> Inv s'.
Proof.
  intros s l s' I H.
  assert (Hev : forall i, sp s i <> SDone -> evclosed s i = false).
  { intros i Hi. destruct (evclosed s i) eqn:E; auto. apply (iG s I) in E. contradiction. }
  destruct (step_Step _ _ _ H).
  - (* LCancel *) exact (inv_unread s (dead s) _ (delivered s) I).
  - (* pc_move *) destruct (pc_move_spec _ _ _ _ M) as (_ & _ & Hv & _ & Ha & Hw). apply inv_cp; auto.
    intros E Hp. rewrite (proj1 (iP s I)) in Hw by auto. discriminate (Hw E).
  - (* LCallMake *) apply (inv_register s (OCall c)); simpl; auto.
  - (* LCallRemove *) apply inv_cp; try discriminate; [apply inv_remove_handler; auto|simpl; tauto].
  - (* BErr *) apply (inv_cp (set_errs s _)); try discriminate; [apply inv_errs_clear; auto|simpl; tauto].
  - (* BReply *) apply (inv_cp (set_ch s _)); try discriminate; [|simpl; tauto].
    apply (inv_setq s (OCall c)); simpl; auto; congruence.
  - (* LSubscribe *) apply (inv_register s (OSub i) 0); simpl; auto.
  - (* LSubTake *) apply (inv_sp (set_ch s _) i _ (evclosed s)); simpl; auto; try congruence.
    + apply (inv_setq s (OSub i)); simpl; auto; congruence.
    + destruct (mtype_eqb t TEvent); discriminate.
    + rewrite Hev by congruence. destruct (mtype_eqb t TEvent); split; discriminate.
  - (* LSubClosed, panic *) rewrite Hev in Ev by congruence. discriminate.
  - (* LSubClosed *) apply inv_sp; auto using upd_other; try congruence. rewrite upd_same; tauto.
  - (* LSubRead *) apply (inv_sp (set_delivered s _) i SLoop (evclosed s)); simpl; auto; try congruence.
    + exact (inv_unread s (dead s) (cancelled s) _ I).
    + rewrite Hev by congruence. split; discriminate.
  - (* LOnDisc *) apply (inv_register s (OCb j) 0); simpl; auto. congruence.
  - (* LConnDie *) exact (inv_unread s true (cancelled s) (delivered s) I).
  - (* LPeerMsg *) apply inv_proc; auto; discriminate.
  - (* LReadFail *) apply inv_proc; auto; discriminate.
  - (* LDispatch *) apply (inv_dispatch s m); auto using surjective_pairing.
  - (* LProcClose1 *) inv_split I. constructor; try assumption; unf; simpl; auto. (* iK2 *) intros; discriminate.
  - (* LProcClose2 *) exact (inv_spawn s true PDone (usr s) I (proj1 (iP s I) (or_introl Ep))).
  - (* LUserClose1 *) inv_split I. constructor; try assumption. (* iP *) simpl; auto.
  - (* LUserClose2 *) apply (inv_spawn s false (proc s) UFin I). apply (iP s I). congruence.
  - (* closer 0 *) destruct o as [c|i|j]; simpl in Er.
    + destruct e; [destruct (errs s c) eqn:Ee; try discriminate|]; injection Er as <-.
      * apply (inv_phase0 s k (OCall c) true _ (cbcount s) I Ek); auto.
        intros c0 H0. unfold upd in H0. destruct (Nat.eqb_spec c0 c); subst; auto.
      * apply (inv_phase0 s k (OCall c) false (errs s) (cbcount s) I Ek); auto.
    + injection Er as <-. apply (inv_phase0 s k (OSub i) e (errs s) (cbcount s) I Ek); auto.
    + injection Er as <-. apply (inv_phase0 s k (OCb j) e (errs s) _ I Ek); auto.
      intro j0. unfold upd; simpl. destruct (Nat.eqb_spec j0 j); subst; auto.
  - (* closer 1 *)
    assert (Hop : qclosed (ch s o) = false) by (apply (iE s I o e 1 (nth_error_In _ _ Ek)); lia).
    unfold close_chan. rewrite Hop. simpl. apply inv_phase1; auto.
Qed.

Lemma run_inv : forall P : state -> Prop, (forall s l s', P s -> step s l = Some s' -> P s') ->
  forall tr s s', run tr s = Some s' -> P s -> P s'.
Proof.
  intros P HP. induction tr as [|l r IH]; simpl; intros s s' H Hs.
  - inversion H; subst; auto.
  - destruct (step s l) eqn:E; try discriminate. eauto.
Qed.

Lemma inv_run : forall tr s s', Inv s -> run tr s = Some s' -> Inv s'.
Proof. intros tr s s' I H. exact (run_inv Inv inv_step tr s s' H I). Qed.

Definition reachable (s : state) : Prop := exists n m d tr, run tr (init n m d) = Some s.
Lemma inv_reachable : forall s, reachable s -> Inv s.
Proof. intros s (n & m & d & tr & H). eapply inv_run; eauto using inv_init. Qed.

(* labels of goroutines that exist already: everything except the environment (a new message,
   the loss itself, a cancellation, the user's Close) and the start of a new call, subscription
   or callback registration.  Indices are those of the scenario. *)
Definition internal (l : label) (s : state) : Prop :=
  match l with
  | LConnDie | LCancel _ | LPeerMsg _ | LUserClose1 | LCallMake _ | LSubscribe _ | LOnDisc _ => False
  | LCallSend c | LCallSendFail c | LCallRemove c | LCallSel c _ | LCallCancelSend c => c < nn s
  | LSubTake i | LSubClosed i | LSubRead i => i < mm s
  | _ => True
  end.
(* Quiescent states: no internal label is enabled.  (The reader of every events channel is part of
   the system: LSubRead is its label, so "terminal" includes "readers keep reading".) *)
Definition terminal (s : state) : Prop := lost s = true /\ forall l, internal l s -> step s l = None.

Lemma terminal_stuck : forall s l, Inv s -> terminal s -> internal l s ->
  step_call s l = None /\ step_sub s l = None /\ step_ep s l = None.
Proof.
  intros s l I T Hl. pose proof (proj2 T l Hl) as H. unfold step in H. rewrite (iA s I) in H.
  destruct l; auto.
Qed.

Lemma terminal_proc : forall s, Inv s -> terminal s -> proc s = PDone.
Proof.
  intros s I T. assert (Hl : lost s = true) by apply T.
  assert (St : forall l, internal l s -> step_ep s l = None) by (intros; apply terminal_stuck; auto).
  destruct (proc s) eqn:Ep; auto; exfalso.
  - specialize (St LReadFail Logic.I). simpl in St. rewrite Ep, Hl in St. discriminate.
  - specialize (St LDispatch Logic.I). simpl in St. rewrite Ep in St. destruct (disp m (table s) s); discriminate.
  - specialize (St LProcClose1 Logic.I). simpl in St. rewrite Ep in St. discriminate.
  - specialize (St LProcClose2 Logic.I). simpl in St. rewrite Ep in St. discriminate.
Qed.

Lemma terminal_nopend : forall s, Inv s -> terminal s -> forall o, ~ pend s o.
Proof.
  intros s I T o (e & ph & Hin & Hle). destruct (In_nth_error _ _ Hin) as [k Hk].
  destruct (terminal_stuck s (LCloserStep k) I T Logic.I) as (_ & _ & St). simpl in St. rewrite Hk in St.
  destruct ph as [|[|ph]]; try lia; try discriminate.
  (* only `errors <- err` can block, on a buffer that an earlier closer of the same call has filled *)
  destruct o as [c|i|j]; simpl in St; try discriminate. destruct e; try discriminate.
  destruct (errs s c) eqn:Ee; try discriminate.
  destruct (iF s I c Ee) as (ph & Hin' & Hp). destruct (inv_nodup s I) as (NDc & _).
  pose proof (NoDup_map_inj _ _ _ _ NDc Hin Hin' eq_refl) as E. inversion E. lia.
Qed.

Lemma terminal_calls : forall s, Inv s -> terminal s -> forall c, c < nn s -> cp s c = CIdle \/ exists b, cp s c = CDone b.
Proof.
  intros s I T c Hlt. assert (Hl : lost s = true) by apply T.
  assert (St : forall l, internal l s -> step_call s l = None) by (intros; apply terminal_stuck; auto).
  destruct (cp s c) eqn:Ec; eauto; exfalso.
  - specialize (St (LCallSendFail c) Hlt). simpl in St. rewrite Ec, Hl in St. discriminate.
  - (* CWait: its handler was closed, or a closer will close it, or process will *)
    assert (Ha : act s (OCall c)) by (simpl; rewrite Ec; exact Logic.I).
    destruct (iK s I _ Ha) as [H|[H|H]].
    + specialize (St (LCallSel c BReply) Hlt). simpl in St. rewrite Ec, H in St.
      destruct (q (ch s (OCall c))); discriminate.
    + eapply terminal_nopend; eauto.
    + apply (iK2 s I c Ec H), terminal_proc; auto.
  - specialize (St (LCallRemove c) Hlt). simpl in St. rewrite Ec in St. discriminate.
  - specialize (St (LCallCancelSend c) Hlt). simpl in St. rewrite Ec in St. discriminate.
Qed.

(* the channel operations write these four fields only *)
Inductive ctl_eq (s : state) : state -> Prop :=
  ctl_intro : forall h er cb p, ctl_eq s (set_panicked (set_cbcount (set_errs (set_ch s h) er) cb) p).

Lemma ctl_refl : forall s, ctl_eq s s.
Proof. intros []. exact (ctl_intro _ _ _ _ _). Qed.
Lemma ctl_trans : forall a b c, ctl_eq a b -> ctl_eq b c -> ctl_eq a c.
Proof. intros a b c [] [h' er' cb' p']. exact (ctl_intro a h' er' cb' p'). Qed.
Lemma ctl_close_chan : forall s o, ctl_eq s (close_chan s o).
Proof. intros s o; unfold close_chan; destruct (qclosed (ch s o)); exact (ctl_intro _ _ _ _ _). Qed.
Lemma ctl_run_closer : forall s o e s1, run_closer s o e = Some s1 -> ctl_eq s s1 /\ ch s1 = ch s.
Proof.
  intros s [c|i|j] e s1 H; simpl in H; [destruct e; [destruct (errs s c); try discriminate|]| |];
    injection H as <-; split; auto using ctl_refl; exact (ctl_intro _ _ _ _ _).
Qed.
Lemma ctl_close_sync : forall s o, ctl_eq s (close_sync s o).
Proof.
  intros s o. unfold close_sync. destruct (run_closer s o false) eqn:E; [|apply ctl_refl].
  eapply ctl_trans; [eapply ctl_run_closer; eauto|apply ctl_close_chan].
Qed.
Lemma ctl_enqueue : forall s o t, ctl_eq s (enqueue s o t).
Proof.
  intros s o t. unfold enqueue. destruct (qclosed (ch s o)); [exact (ctl_intro _ _ _ _ _)|].
  destruct (_ <? _); [exact (ctl_intro _ _ _ _ _)|apply ctl_refl].
Qed.
Lemma ctl_disp : forall m tb s, ctl_eq s (snd (disp m tb s)) /\
  forall x, In x (owners (fst (disp m tb s))) -> In x (owners tb).
Proof. intros m tb. apply disp_fold; eauto using ctl_refl, ctl_trans, ctl_enqueue, ctl_close_sync. Qed.
Lemma ctl_remove_handler : forall s k, exists tb, ctl_eq (set_table s tb) (remove_handler s k) /\
  forall x, In x (owners tb) -> intab s x.
Proof.
  intros s k. unfold remove_handler, intab. destruct (nth_error (table s) k) as [[o|]|] eqn:E;
    try (exists (table s); split; [destruct s; exact (ctl_intro _ _ _ _ _)|auto]).
  exists (setnth k None (table s)). destruct (ctl_close_sync s o) as [h er cb p]. split; [exact (ctl_intro _ h er cb p)|].
  intros x Hx. apply (Add_in (setnth_none_Add _ _ _ E)). right; auto.
Qed.

Definition inrange (s : state) (o : owner) : Prop :=
  match o with OCall c => c < nn s | OSub i => i < mm s | OCb j => j < dd s end.

(* [mono s s']: from s to s' the scenario is the same, a lost connection stays lost, owners stay
   registered, new ones are those of the scenario, a returned call stays returned, and a registered
   owner does not get back into the table, nor does process end while it is there. *)
Record mono (s s' : state) : Prop := {
  m_sizes : nn s' = nn s /\ mm s' = mm s /\ dd s' = dd s;
  m_lost : lost s = true -> lost s' = true;
  m_reg : forall o, reg s o -> reg s' o;
  m_new : forall o, reg s' o -> reg s o \/ inrange s o;
  m_done : forall c b, cp s c = CDone b -> cp s' c = CDone b;
  m_tab : forall o, reg s o -> intab s' o -> intab s o /\ (proc s' = PDone -> proc s = PDone) }.

(* the fields [mono] reads *)
Definition skel (s : state) := (cp s, sp s, cbreg s, proc s, table s, (dead s, closed s), (nn s, mm s, dd s)).

Lemma mono_same : forall s s', skel s' = skel s -> mono s s'.
Proof.
  intros s s' E. injection E as E1 E2 E3 E4 E5 E6 E7 E8 E9 E10. constructor.
  - auto.
  - unfold lost; rewrite E6, E7; auto.
  - intros [c|i|j]; simpl; rewrite ?E1, ?E2, ?E3; auto.
  - intros [c|i|j]; simpl; rewrite ?E1, ?E2, ?E3; auto.
  - intros c b; rewrite E1; auto.
  - unfold intab; rewrite E5, E4; auto.
Qed.
Lemma mono_trans : forall a b c, mono a b -> mono b c -> mono a c.
Proof.
  intros a b c [(S1 & S2 & S3) L1 R1 N1 D1 T1] [(S4 & S5 & S6) L2 R2 N2 D2 T2]. constructor; auto.
  - repeat split; congruence.
  - intros o Ho. destruct (N2 o Ho) as [H|H]; auto. right. destruct o; simpl in *; congruence.
  - intros o Ho Hin. destruct (T2 o (R1 o Ho) Hin) as [H1 H2]. destruct (T1 o Ho H1). auto.
Qed.
Lemma mono_ctl : forall s s', ctl_eq s s' -> mono s s'.
Proof. intros s s' []. apply mono_same. reflexivity. Qed.

(* a goroutine's own step, after a change s1 of the data that is itself monotone *)
Lemma mono_cp : forall s s1 c v, mono s s1 -> callrank v < callrank (cp s1 c) -> (cp s1 c = CIdle -> c < nn s1) ->
  mono s (set_cp s1 (upd (cp s1) c v)).
Proof.
  intros s s1 c v M Hr Hn. apply (mono_trans _ _ _ M). constructor; simpl; auto.
  - intros [c0|i|j]; simpl; auto. upd_case c0 c; auto. intros _ E. rewrite E in Hr. destruct (cp s1 c); simpl in Hr; lia.
  - intros [c0|i|j]; simpl; auto. upd_case c0 c; auto. intros _. destruct (cp s1 c); auto; left; discriminate.
  - intros c0 b E. upd_case c0 c; auto. rewrite E in Hr. simpl in Hr. lia.
Qed.
Lemma mono_sp : forall s s1 i v, mono s s1 -> v <> SNone -> (sp s1 i = SNone -> i < mm s1) ->
  mono s (set_sp s1 (upd (sp s1) i v)).
Proof.
  intros s s1 i v M Hv Hn. apply (mono_trans _ _ _ M). constructor; simpl; auto.
  - intros [c|i0|j]; simpl; auto. upd_case i0 i; auto.
  - intros [c|i0|j]; simpl; auto. upd_case i0 i; auto. intros _. destruct (sp s1 i); auto; left; discriminate.
Qed.
Lemma mono_cbreg : forall s s1 j, mono s s1 -> j < dd s1 -> mono s (set_cbreg s1 (upd (cbreg s1) j true)).
Proof.
  intros s s1 j M Hj. apply (mono_trans _ _ _ M). constructor; simpl; auto.
  - intros [c|i|j0]; simpl; auto. upd_case j0 j; auto.
  - intros [c|i|j0]; simpl; auto. upd_case j0 j; auto.
Qed.

Lemma mono_alloc : forall s o, ~ reg s o -> mono s (set_table s (fst (alloc (table s) o))).
Proof.
  intros s o Hn. constructor; simpl; auto. unfold intab; simpl. intros x Hx Hin.
  apply (Add_in (alloc_Add _ _)) in Hin. destruct Hin as [<-|Hin]; [contradiction|auto].
Qed.
Lemma mono_shrink : forall s tb, (forall x, In x (owners tb) -> intab s x) -> mono s (set_table s tb).
Proof. intros s tb Hs. constructor; simpl; auto. Qed.
Lemma mono_remove_handler : forall s k, mono s (remove_handler s k).
Proof.
  intros s k. destruct (ctl_remove_handler s k) as (tb & C & S).
  exact (mono_trans _ _ _ (mono_shrink s tb S) (mono_ctl _ _ C)).
Qed.
Lemma mono_proc : forall s s1 p, mono s s1 -> p <> PDone -> mono s (set_proc s1 p).
Proof.
  intros s s1 p M Hp. apply (mono_trans _ _ _ M). constructor; simpl; auto. intros; split; auto. intro; contradiction.
Qed.
Lemma mono_spawn : forall s e p u, mono s (set_usr (set_proc (spawn_all s e) p) u).
Proof.
  intros. constructor; unfold intab, spawn_all; simpl; rewrite ?owners_map_none; auto. intros o _ [].
Qed.
Lemma mono_flags : forall s b b', mono s (set_closed (set_dead s (b || dead s)) (b' || closed s)).
Proof.
  intros. constructor; simpl; auto. unfold lost; simpl. destruct b, b', (dead s); simpl; auto.
Qed.

Lemma step_mono : forall s l s', step s l = Some s' -> mono s s'.
Proof.
  intros s l s' H. destruct (step_Step _ _ _ H).
  - (* LCancel *) apply mono_same; reflexivity.
  - (* pc_move *) destruct (pc_move_spec _ _ _ _ M) as (Hr & Hn & _). apply mono_cp; auto. apply mono_same; reflexivity.
  - (* LCallMake *)
    apply (mono_cp s (set_table s _)); simpl; [apply (mono_alloc s (OCall c)); simpl; congruence|rewrite Ep; simpl; lia|auto].
  - (* LCallRemove *) destruct (ctl_remove_handler s k) as (tb & C & _).
    apply mono_cp; [apply mono_remove_handler| |]; destruct C; simpl; rewrite Ep; [simpl; lia|discriminate].
  - (* BErr *)
    apply (mono_cp s (set_errs s _)); simpl; [apply mono_same; reflexivity|rewrite Ep; simpl; lia|rewrite Ep; discriminate].
  - (* BReply *)
    apply (mono_cp s (set_ch s _)); simpl; [apply mono_same; reflexivity|rewrite Ep; simpl; lia|rewrite Ep; discriminate].
  - (* LSubscribe *)
    apply (mono_sp s (set_table s _)); simpl; [apply (mono_alloc s (OSub i)); simpl; congruence|discriminate|auto].
  - (* LSubTake *)
    apply (mono_sp s (set_ch s _)); simpl; [apply mono_same; reflexivity|destruct (mtype_eqb _ _); discriminate|congruence].
  - (* LSubClosed, panic *) apply mono_same; reflexivity.
  - (* LSubClosed *) apply (mono_sp s (set_evclosed s _)); simpl; [apply mono_same; reflexivity|discriminate|congruence].
  - (* LSubRead *) apply (mono_sp s (set_delivered s _)); simpl; [apply mono_same; reflexivity|discriminate|congruence].
  - (* LOnDisc *) apply (mono_cbreg s (set_table s _)); simpl; [apply (mono_alloc s (OCb j)); simpl; congruence|auto].
  - (* LConnDie *) exact (mono_flags s true false).
  - (* LPeerMsg *) apply mono_proc; [apply mono_same; reflexivity|discriminate].
  - (* LReadFail *) apply mono_proc; [apply mono_same; reflexivity|discriminate].
  - (* LDispatch *) destruct (ctl_disp m (table s) s) as [C S].
    apply (mono_proc s (set_table (snd (disp m (table s) s)) _)); [|discriminate].
    apply (mono_trans _ _ _ (mono_ctl _ _ C)), mono_shrink. destruct C. exact S.
  - (* LProcClose1 *) apply (mono_proc s (set_closed s true)); [exact (mono_flags s false true)|discriminate].
  - (* LProcClose2 *) exact (mono_spawn s true PDone (usr s)).
  - (* LUserClose1 *) apply (mono_trans _ _ _ (mono_flags s false true)), mono_same; reflexivity.
  - (* LUserClose2 *) exact (mono_spawn s false (proc s) UFin).
  - (* closer 0 *) destruct (ctl_run_closer _ _ _ _ Er) as [C _].
    apply (mono_trans _ _ _ (mono_ctl _ _ C)), mono_same; reflexivity.
  - (* closer 1 *) apply (mono_trans _ _ _ (mono_ctl _ _ (ctl_close_chan s o))), mono_same; reflexivity.
Qed.

Lemma run_mono : forall tr s s', run tr s = Some s' -> mono s s'.
Proof.
  induction tr as [|l r IH]; simpl; intros s s' H; [injection H as <-; apply mono_same; reflexivity|].
  destruct (step s l) eqn:E; try discriminate. eapply mono_trans; eauto using step_mono.
Qed.

Lemma lost_run : forall tr s s', run tr s = Some s' -> lost s = true -> lost s' = true.
Proof. intros tr s s' H. exact (m_lost _ _ (run_mono _ _ _ H)). Qed.

(* [proc s0 <> PDone]: process has not yet finished closeWith, which hands the handlers of the table to their
   closer goroutines once (endpoint.go:232-246).  A handler registered by then is closed in every quiescent state:
   registered owners do not come back into the table, which process empties before it ends.  One registered
   later stays open, the endpoint keeps no closed flag. *)
Lemma early_handler_closed : forall s0 tr s o, Inv s0 -> proc s0 <> PDone -> reg s0 o -> (forall c, o <> OCall c) ->
  run tr s0 = Some s -> terminal s -> qclosed (ch s o) = true.
Proof.
  intros s0 tr s o I0 Hp0 Hr Hnc Hrun T. pose proof (run_mono _ _ _ Hrun) as M.
  assert (I : Inv s) by (eapply inv_run; eauto).
  assert (Ha : act s o) by (pose proof (m_reg _ _ M o Hr); destruct o; auto; exfalso; eapply Hnc; eauto).
  destruct (iK s I o Ha) as [H|[H|H]]; auto; exfalso.
  - eapply terminal_nopend; eauto.
  - destruct (m_tab _ _ M o Hr H) as [_ Hp]. exact (Hp0 (Hp (terminal_proc s I T))).
Qed.
Lemma subs_closed : forall s0 tr s i, Inv s0 -> proc s0 <> PDone -> sp s0 i <> SNone -> i < mm s0 ->
  run tr s0 = Some s -> terminal s -> evclosed s i = true.
Proof.
  intros s0 tr s i I0 Hl Hr Hlt0 Hrun T. pose proof (run_mono _ _ _ Hrun) as M.
  assert (Hlt : i < mm s) by (destruct (m_sizes _ _ M) as (_ & E & _); rewrite E; exact Hlt0).
  assert (I : Inv s) by (eapply inv_run; eauto).
  assert (Hc : qclosed (ch s (OSub i)) = true).
  { apply (early_handler_closed s0 tr s (OSub i) I0 Hl Hr); auto. intros c; discriminate. }
  pose proof (m_reg _ _ M (OSub i) Hr) as Hr'. simpl in Hr'.
  assert (St : forall l, internal l s -> step_sub s l = None) by (intros; apply terminal_stuck; auto).
  apply (iG s I). destruct (sp s i) eqn:Es; auto; exfalso; [congruence| |].
  - destruct (q (ch s (OSub i))) as [|t r] eqn:Eq.
    + specialize (St (LSubClosed i) Hlt). simpl in St. rewrite Es, Eq, Hc in St. destruct (evclosed s i); discriminate.
    + specialize (St (LSubTake i) Hlt). simpl in St. rewrite Es, Eq in St. discriminate.
  - specialize (St (LSubRead i) Hlt). simpl in St. rewrite Es in St. discriminate.
Qed.

Lemma cb_once : forall s0 tr s j, Inv s0 -> proc s0 <> PDone -> cbreg s0 j = true ->
  run tr s0 = Some s -> terminal s -> cbcount s j = 1.
Proof.
  intros s0 tr s j I0 Hl Hr Hrun T.
  assert (I : Inv s) by (eapply inv_run; eauto).
  apply (proj2 (iM s I j)). left. apply (early_handler_closed s0 tr s (OCb j) I0 Hl Hr); auto. intros c; discriminate.
Qed.

(* while the connection is up process has not finished closeWith, which closes the stream first (iP);
   props/C11.v gets [proc s0 <> PDone] from [lost s0 = false] by this *)
Lemma open_not_done : forall s, Inv s -> lost s = false -> proc s <> PDone.
Proof.
  intros s I Hl E. unfold lost in Hl. rewrite (proj1 (iP s I) (or_intror E)), orb_true_r in Hl. discriminate.
Qed.

Lemma cb_at_most_once : forall s j, reachable s -> cbcount s j <= 1.
Proof. intros s j R. apply (proj1 (iM s (inv_reachable s R) j)). Qed.

Lemma no_panic : forall s, reachable s -> panicked s = false.
Proof. intros s R. apply (iA s (inv_reachable s R)). Qed.

Lemma q_close_chan : forall s o x, q (ch (close_chan s o) x) = q (ch s x).
Proof.
  intros s o x. unfold close_chan. destruct (qclosed (ch s o)); simpl; auto.
  destruct (owner_dec x o) as [->|]; [rewrite updo_same|rewrite updo_other]; auto.
Qed.
Lemma q_close_sync : forall s o x, q (ch (close_sync s o) x) = q (ch s x).
Proof.
  intros s o x. unfold close_sync. destruct (run_closer s o false) eqn:E; auto.
  rewrite q_close_chan, (proj2 (ctl_run_closer _ _ _ _ E)). reflexivity.
Qed.
Lemma q_remove_handler : forall s k x, q (ch (remove_handler s k) x) = q (ch s x).
Proof.
  intros s k x. unfold remove_handler. destruct (nth_error (table s) k) as [[o|]|]; simpl; auto. apply q_close_sync.
Qed.
Lemma q_enqueue_other : forall s o t x, x <> o -> q (ch (enqueue s o t) x) = q (ch s x).
Proof.
  intros s o t x Hne. unfold enqueue. destruct (qclosed (ch s o)); simpl; auto.
  destruct (_ <? _); simpl; auto. rewrite updo_other; auto.
Qed.
Lemma q_enqueue : forall s o t x t', In t' (q (ch (enqueue s o t) x)) -> In t' (q (ch s x)) \/ (x = o /\ t' = t).
Proof.
  intros s o t x t' H. destruct (owner_dec x o) as [->|Hne]; [|rewrite q_enqueue_other in H; auto].
  unfold enqueue in H. destruct (qclosed (ch s o)); simpl in H; auto.
  destruct (_ <? _); simpl in H; auto. rewrite updo_same in H. simpl in H.
  apply in_app_iff in H. destruct H as [H|[H|[]]]; auto.
Qed.
Lemma q_disp : forall m tb s x t', In t' (q (ch (snd (disp m tb s)) x)) -> In t' (q (ch s x)) \/ m = MFor x t'.
Proof.
  intros m tb s x t'.
  refine (proj1 (disp_fold m (fun a b => In t' (q (ch b x)) -> In t' (q (ch a x)) \/ m = MFor x t') _ _ tb _ _ s)); auto.
  - intros a b c H1 H2 H. destruct (H2 H); auto.
  - intros a o t _ -> H. apply q_enqueue in H. destruct H as [|[-> ->]]; auto.
  - intros a o _. rewrite q_close_sync. auto.
Qed.
Lemma q_disp_notin : forall m tb s o, ~ In o (owners tb) -> q (ch (snd (disp m tb s)) o) = q (ch s o).
Proof.
  intros m tb s o Hn. refine (proj1 (disp_fold m (fun a b => q (ch b o) = q (ch a o)) _ _ tb _ _ s)); auto.
  - intros; congruence.
  - intros a o' t Hin _. apply q_enqueue_other. intros ->; auto.
  - intros a o' _. apply q_close_sync.
Qed.

Definition can_ok (s : state) (c : nat) : Prop :=
  cp s c = CDone true \/ In TReply (q (ch s (OCall c))) \/ proc s = PHave (MFor (OCall c) TReply).

Lemma can_ok_cp : forall s s1 c0 v c, cp s1 = cp s -> proc s1 = proc s -> (forall x, q (ch s1 x) = q (ch s x)) ->
  v <> CDone true -> can_ok (set_cp s1 (upd (cp s1) c0 v)) c -> can_ok s c.
Proof.
  intros s s1 c0 v c E1 E2 E3 Hv [H|[H|H]]; simpl in H; [left|right; left|right; right].
  - rewrite E1 in H. upd_case c c0; congruence.
  - rewrite <- E3; auto.
  - congruence.
Qed.

(* once the connection is lost no call can become answerable any more *)
Lemma can_ok_back : forall s l s' d, step s l = Some s' -> lost s = true -> can_ok s' d -> can_ok s d.
Proof.
  intros s l s' d H Hl. destruct (step_Step _ _ _ H); auto.
  - (* pc_move *) apply can_ok_cp; auto. apply (pc_move_spec _ _ _ _ M).
  - (* LCallMake *) apply (can_ok_cp s (set_table s _)); auto; discriminate.
  - (* LCallRemove *) destruct (ctl_remove_handler s k) as (tb & C & _).
    apply can_ok_cp; auto using q_remove_handler; try discriminate; destruct C; reflexivity.
  - (* BErr *) apply (can_ok_cp s (set_errs s _)); auto; discriminate.
  - (* BReply: the head of the reply channel decides *)
    unfold can_ok; simpl. destruct (Nat.eq_dec d c) as [->|Hne].
    + rewrite upd_same, updo_same, Eq. simpl. intros [E|[E|E]]; auto.
      injection E as E. apply mtype_eqb_eq in E. auto.
    + rewrite upd_other, updo_other by congruence. auto.
  - (* LPeerMsg: not after the loss *) rewrite Hl in El. discriminate.
  - (* LReadFail *) intros [E|[E|E]]; [left|right; left|discriminate]; auto.
  - (* LDispatch: only the message in hand can add a reply *)
    generalize (q_disp m (table s) s (OCall d) TReply). destruct (ctl_disp m (table s) s) as [[] _].
    unfold can_ok; simpl. intros Q [E|[E|E]]; auto; [|discriminate].
    destruct (Q E) as [ | -> ]; auto.
  - (* LProcClose1 *) intros [E|[E|E]]; [left|right; left|discriminate]; auto.
  - (* LProcClose2 *) intros [E|[E|E]]; [left|right; left|discriminate]; auto.
  - (* closer 0 *) destruct (ctl_run_closer _ _ _ _ Er) as [[] Ch].
    unfold can_ok; simpl in *. rewrite Ch. auto.
  - (* closer 1 *) unfold can_ok; simpl. rewrite q_close_chan. destruct (ctl_close_chan s o). auto.
Qed.

(* Every call that is in flight when the connection is lost, and every call made later,
   returns an error: after the loss, in every quiescent state reached by any schedule, a call
   for which no Reply had been read from the stream has returned and its result is an error
   (or it was never started). *)
Lemma calls_fail : forall s tr s' c, Inv s -> lost s = true -> ~ can_ok s c -> c < nn s ->
  run tr s = Some s' -> terminal s' ->
  (cp s c <> CIdle -> cp s' c = CDone false) /\ (cp s' c = CIdle \/ cp s' c = CDone false).
Proof.
  intros s tr s' c I Hl Hn Hlt0 Hrun T. pose proof (run_mono _ _ _ Hrun) as M.
  assert (Hlt : c < nn s') by (destruct (m_sizes _ _ M) as (E & _); rewrite E; exact Hlt0).
  assert (Hb : cp s' c <> CDone true).
  { intro Hd. refine (proj2 (run_inv (fun x => lost x = true /\ ~ can_ok x c) _ tr s s' Hrun (conj Hl Hn)) (or_introl Hd)).
    intros x l x' [Hx Hc] Hs. split; [exact (m_lost _ _ (step_mono _ _ _ Hs) Hx)|eauto using can_ok_back]. }
  destruct (terminal_calls s' (inv_run _ _ _ I Hrun) T c Hlt) as [H|[[|] H]]; try congruence; split; auto.
  intro Hs. exfalso. exact (m_reg _ _ M (OCall c) Hs H).
Qed.

Definition holds_reply (s : state) (c : nat) : Prop :=
  (exists r, q (ch s (OCall c)) = TReply :: r) /\ ((exists k, cp s c = CMade k) \/ cp s c = CWait) /\ cancelled s c = false.

(* Nobody but the call itself touches a reply that waits in its channel: the handler is gone from the
   table (iN), and of the call's own labels only Send, a failed Send, the select and a cancel are enabled. *)
Lemma reply_kept : forall s l s' d, Inv s -> holds_reply s d -> step s l = Some s' ->
  l <> LCallSendFail d -> l <> LCancel d -> holds_reply s' d \/ cp s' d = CDone true.
Proof.
  intros s l s' d I HR H N1 N2. pose proof HR as ((r0 & Hq) & Hpc & Hcan).
  assert (Hnin : ~ In (OCall d) (ALL s)) by (apply (iN s I); rewrite Hq; discriminate).
  assert (Hnt : ~ In (OCall d) (owners (table s))) by (intro; apply Hnin, in_app_iff; auto).
  assert (Herr : errs s d = false).
  { destruct (errs s d) eqn:E; auto. exfalso. destruct (iF s I d E) as (ph & Hin & _).
    apply Hnin, in_app_iff. left. apply in_cowners. eauto. }
  assert (Hpc' : forall p, cp s d = p -> (exists k, p = CMade k) \/ p = CWait) by (intros p <-; exact Hpc).
  assert (F : forall s1, q (ch s1 (OCall d)) = q (ch s (OCall d)) -> cp s1 d = cp s d -> cancelled s1 d = cancelled s d ->
              holds_reply s1 d \/ cp s1 d = CDone true).
  { intros s1 E1 E2 E3. left. unfold holds_reply. rewrite E1, E2, E3. exact HR. }
  destruct (step_Step _ _ _ H).
  (* the labels of subscriptions, callbacks, the loss, Read and the two Close: they write neither the pc or the
     cancel flag of a call nor a queue *)
  all: try (apply F; simpl; auto; fail).
  - (* LCancel *) apply F; simpl; auto. apply upd_other. congruence.
  - (* pc_move *) destruct (Nat.eq_dec d c) as [->|Hne]; [|apply F; simpl; auto using upd_other].
    destruct M as [_ E|k E _|k E|E Eq|E Ek|E]; try congruence.
    + destruct (Hpc' _ E) as [[? ?]|?]; discriminate.
    + left. unfold holds_reply; simpl. rewrite upd_same. eauto.
    + destruct (Hpc' _ E) as [[? ?]|?]; discriminate.
  - (* LCallMake *)
    assert (d <> c) by (intros ->; destruct (Hpc' _ Ep) as [[? ?]|?]; discriminate). apply F; simpl; auto using upd_other.
  - (* LCallRemove *)
    assert (d <> c) by (intros ->; destruct (Hpc' _ Ep) as [[? ?]|?]; discriminate).
    destruct (ctl_remove_handler s k) as (tb & C & _).
    apply F; simpl; rewrite ?upd_other by auto; [apply q_remove_handler| |]; destruct C; reflexivity.
  - (* BErr *) apply F; simpl; auto. apply upd_other; congruence.
  - (* BReply *) destruct (Nat.eq_dec d c) as [->|Hne].
    + right. simpl. rewrite upd_same. rewrite Hq in Eq. injection Eq as <- _. reflexivity.
    + apply F; simpl; [rewrite updo_other by congruence|apply upd_other|]; auto.
  - (* LDispatch: the call has no handler in the table any more *)
    pose proof (q_disp_notin m (table s) s (OCall d) Hnt) as Q. destruct (ctl_disp m (table s) s) as [C _].
    apply F; simpl; auto; destruct C; reflexivity.
  - (* closer 0 *) destruct (ctl_run_closer _ _ _ _ Er) as [C Ch].
    apply F; simpl; [rewrite Ch; auto| |]; destruct C; reflexivity.
  - (* closer 1 *) apply F; simpl; [apply q_close_chan| |]; destruct (ctl_close_chan s o); reflexivity.
Qed.

Lemma reply_delivered : forall tr s s' c, Inv s -> holds_reply s c -> c < nn s -> run tr s = Some s' ->
  ~ In (LCallSendFail c) tr -> ~ In (LCancel c) tr -> terminal s' -> cp s' c = CDone true.
Proof.
  assert (G : forall tr s s' c, Inv s -> holds_reply s c \/ cp s c = CDone true -> run tr s = Some s' ->
              ~ In (LCallSendFail c) tr -> ~ In (LCancel c) tr -> holds_reply s' c \/ cp s' c = CDone true).
  { induction tr as [|l r IH]; intros s s' c I H Hrun N1 N2; simpl in Hrun.
    - inversion Hrun; subst; auto.
    - destruct (step s l) as [s1|] eqn:E; try discriminate.
      apply (IH s1 s' c); simpl in *; auto; [eapply inv_step; eauto|].
      destruct H as [H|H]; [|right; exact (m_done _ _ (step_mono _ _ _ E) _ _ H)].
      eapply reply_kept; eauto; intros ->; auto. }
  intros tr s s' c I H Hlt0 Hrun N1 N2 T.
  assert (Hlt : c < nn s') by (destruct (m_sizes _ _ (run_mono _ _ _ Hrun)) as (E & _); rewrite E; exact Hlt0).
  destruct (G tr s s' c I (or_introl H) Hrun N1 N2) as [(_ & Hpc & _)|Hd]; auto.
  exfalso. destruct (terminal_calls s' (inv_run _ _ _ I Hrun) T c Hlt) as [Hc|[b Hc]]; destruct Hpc as [[k Hk]|Hw]; congruence.
Qed.

(* the early-reply schedule: the handler is in the table before Send is attempted, so a Reply
   read and dispatched while the call is still inside Send lands in its reply channel *)
Lemma early_reply_lands : forall s c k, Inv s -> cp s c = CMade k -> intab s (OCall c) -> cancelled s c = false ->
  proc s = PRead -> lost s = false ->
  exists s1, run [LPeerMsg (MFor (OCall c) TReply); LDispatch] s = Some s1 /\ holds_reply s1 c /\ cp s1 c = CMade k.
Proof.
  intros s c k I Hc Hin Hcan Hp Hl. destruct (inv_nodup s I) as (_ & NDt & _).
  assert (Hop : qclosed (ch s (OCall c)) = false) by (apply (iD s I); auto).
  assert (Hq : q (ch s (OCall c)) = []).
  { destruct (q (ch s (OCall c))) eqn:E; auto. exfalso. apply (iN s I c); [rewrite E; discriminate|].
    apply in_app_iff; auto. }
  simpl. unfold step. rewrite (iA s I). simpl. rewrite Hp, Hl. simpl.
  set (s0 := set_proc s (PHave (MFor (OCall c) TReply))).
  destruct (disp_spec (MFor (OCall c) TReply) (table s) s0 NDt) as [[Hno _]|(o & t & Em & _ & HM & E)].
  { specialize (Hno _ Hin). unfold matches in Hno. rewrite owner_eqb_refl in Hno. discriminate. }
  injection Em as <- <-. unfold keeps in E. rewrite HM in E. rewrite E, (iA s I). eexists. split; [reflexivity|].
  pose proof (ctl_trans _ _ _ (ctl_enqueue s0 (OCall c) TReply) (ctl_close_sync _ (OCall c))) as C.
  unfold holds_reply; simpl. rewrite q_close_sync. destruct C. simpl. rewrite Hc.
  split; [|reflexivity]. split; [|split; [eauto|exact Hcan]].
  unfold enqueue. simpl. rewrite Hop, Hq. simpl. rewrite updo_same. simpl. eauto.
Qed.

(* an executable test for [terminal] (the correspondence run has its own, [quiescent] in run/C11Run.v) *)
Definition quietb (s : state) : bool :=
  lost s && forallb (fun l => match step s l with None => true | Some _ => false end) (drain_labels s).

Lemma internal_in : forall l s, internal l s -> In l (drain_labels s) \/ step s l = None.
Proof.
  intros l s H. unfold drain_labels.
  assert (G : is_start l = false -> In l (all_labels s) -> In l (filter (fun l0 => negb (is_start l0)) (all_labels s))).
  { intros Hs Hin. apply filter_In. rewrite Hs. auto. }
  unfold all_labels.
  destruct l; simpl in H; try contradiction.
  1-5: left; apply G; auto; apply in_app_iff; left; apply in_flat_map; exists c; split; [apply in_seq; lia|simpl; auto 10].
  1: destruct b; simpl; auto 10.
  1-3: left; apply G; auto; apply in_app_iff; right; apply in_app_iff; left; apply in_flat_map; exists i;
       split; [apply in_seq; lia|simpl; auto 10].
  1-5: left; apply G; auto; apply in_app_iff; right; apply in_app_iff; right; apply in_app_iff; right; apply in_app_iff; left; simpl; auto 10.
  destruct (lt_dec k (length (closers s))) as [Hk|Hk].
  - left; apply G; auto. do 4 (apply in_app_iff; right). apply in_map. apply in_seq. lia.
  - right. unfold step. destruct (panicked s); auto. simpl.
    destruct (nth_error (closers s) k) eqn:E; auto. exfalso. apply Hk. apply nth_error_Some. congruence.
Qed.

Lemma quietb_terminal : forall s, quietb s = true -> terminal s.
Proof.
  intros s H. unfold quietb in H. apply andb_true_iff in H. destruct H as [Hl Hq]. split; auto.
  intros l Hi. destruct (internal_in l s Hi) as [Hin|]; auto.
  rewrite forallb_forall in Hq. specialize (Hq l Hin). destruct (step s l); auto; discriminate.
Qed.

Definition bounded (s : state) : Prop := forall o, reg s o -> inrange s o.

Lemma bounded_mono : forall s s', mono s s' -> bounded s -> bounded s'.
Proof.
  intros s s' M B o Ho. destruct (m_sizes _ _ M) as (E1 & E2 & E3).
  assert (inrange s o) by (destruct (m_new _ _ M o Ho); auto). destruct o; simpl in *; congruence.
Qed.
Lemma reachable_bounded : forall s, reachable s -> bounded s.
Proof.
  intros s (n & m & d & tr & H). apply (bounded_mono _ _ (run_mono _ _ _ H)).
  intros o Ho. destruct o; simpl in Ho; congruence.
Qed.

(* a concrete run meeting every hypothesis above *)
Definition ex_pre : list label :=
  [LOnDisc 0; LSubscribe 0; LCallMake 0; LCallMake 1; LPeerMsg (MFor (OCall 0) TReply); LDispatch;
   LCallSend 0; LCallSend 1; LPeerMsg (MFor (OSub 0) TEvent); LDispatch].
Definition ex_s0 : state := match run ex_pre (init 2 1 1) with Some s => s | None => init 0 0 0 end.
Definition ex_tr : list label := LConnDie :: fst (drain_tr 60 (match step ex_s0 LConnDie with Some s => s | None => ex_s0 end)).
Definition ex_s : state := match run ex_tr ex_s0 with Some s => s | None => init 0 0 0 end.

Lemma ex_reachable : reachable ex_s0.
Proof.
  exists 2, 1, 1, ex_pre. unfold ex_s0. destruct (run ex_pre (init 2 1 1)) eqn:E; [reflexivity|].
  exfalso. vm_compute in E. discriminate.
Qed.
Lemma ex_run : run ex_tr ex_s0 = Some ex_s.
Proof.
  unfold ex_s. destruct (run ex_tr ex_s0) eqn:E; [reflexivity|]. exfalso. vm_compute in E. discriminate.
Qed.
Lemma ex_terminal : terminal ex_s.
Proof. apply quietb_terminal. vm_compute. reflexivity. Qed.
Lemma ex_before : lost ex_s0 = false /\ sp ex_s0 0 <> SNone /\ cbreg ex_s0 0 = true /\ cp ex_s0 0 = CWait /\ cp ex_s0 1 = CWait.
Proof. split; [|split; [|split; [|split]]]; vm_compute; try reflexivity. discriminate. Qed.
Lemma ex_not_ok : ~ can_ok ex_s0 1.
Proof. intros [H|[H|H]]; vm_compute in H; try discriminate; tauto. Qed.
Lemma ex_holds : holds_reply ex_s0 0.
Proof. split; [exists []|split; [right|]]; vm_compute; reflexivity. Qed.
Lemma ex_after : cp ex_s 0 = CDone true /\ cp ex_s 1 = CDone false /\ evclosed ex_s 0 = true /\ delivered ex_s 0 = 1 /\ cbcount ex_s 0 = 1.
Proof. split; [|split; [|split; [|split]]]; vm_compute; reflexivity. Qed.

Fixpoint sumf (f : nat -> nat) (n : nat) : nat := match n with 0 => 0 | S k => sumf f k + f k end.
Lemma sumf_ext : forall f g n, (forall i, i < n -> g i = f i) -> sumf g n = sumf f n.
Proof. induction n; intros H; simpl; auto. rewrite IHn, H; auto. Qed.
Lemma sumf_change : forall f g k n, (forall i, i <> k -> g i = f i) -> k < n -> sumf g n + f k = sumf f n + g k.
Proof.
  induction n; intros H Hk; [lia|]. simpl. destruct (Nat.eq_dec k n) as [E|Hne].
  - subst k. assert (E : sumf g n = sumf f n) by (apply sumf_ext; intros i Hi; apply H; lia). lia.
  - assert (E : g n = f n) by (apply H; auto). assert (Hk' : k < n) by lia. specialize (IHn H Hk'). lia.
Qed.
Lemma sumf_upd : forall A (w : A -> nat -> nat) (f : nat -> A) k v n, k < n ->
  sumf (fun x => w (upd f k v x) x) n + w (f k) k = sumf (fun x => w (f x) x) n + w v k.
Proof.
  intros A w f k v n Hk. pose proof (sumf_change (fun x => w (f x) x) (fun x => w (upd f k v x) x) k n) as S.
  simpl in S. rewrite upd_same in S. apply S; auto. intros i Hi. rewrite upd_other; auto.
Qed.
Lemma sumf_const : forall k n, sumf (fun _ => k) n = n * k.
Proof. induction n; simpl; auto. rewrite IHn. lia. Qed.

Definition subrank (p : spc) : nat := match p with SNone => 5 | SLoop => 1 | SSend => 2 | SDone => 0 end.
Definition procrank (p : ppc) : nat := match p with PDone => 0 | PClosing => 1 | PFail => 2 | PRead => 3 | PHave _ => 7 end.
Definition usrrank (p : upc) : nat := match p with UIdle => 2 | UMid => 1 | UFin => 0 end.
Definition crank (cl : list (owner * bool * nat)) : nat := fold_right (fun x a => (2 - snd x) + a) 0 cl.
Definition callw (s : state) (c : nat) : nat := callrank (cp s c) + (if cancelled s c then 0 else 1).
Definition subw (s : state) (i : nat) : nat := subrank (sp s i) + 3 * length (q (ch s (OSub i))).
Definition cbw (s : state) (j : nat) : nat := if cbreg s j then 0 else 4.

(* the number of steps still possible once no new message can arrive *)
Definition measure (s : state) : nat :=
  sumf (callw s) (nn s) + sumf (subw s) (mm s) + sumf (cbw s) (dd s) + procrank (proc s) + usrrank (usr s) +
  3 * length (owners (table s)) + crank (closers s) + (if dead s then 0 else 1).

Lemma crank_app : forall a b, crank (a ++ b) = crank a + crank b.
Proof. induction a; intro b; simpl; auto. rewrite IHa. lia. Qed.
Lemma crank_spawned : forall tb e, crank (spawned tb e) = 2 * length (owners tb).
Proof. induction tb as [|[x|] r IH]; intro e; simpl; rewrite ?IH; lia. Qed.
Lemma crank_setnth : forall cl k o e ph, nth_error cl k = Some (o, e, ph) -> ph <= 1 ->
  crank (setnth k (o, e, S ph) cl) + 1 = crank cl.
Proof.
  induction cl as [|x r IH]; intros [|k] o e ph H Hle; simpl in *; try discriminate.
  - inversion H; subst. destruct ph as [|[|ph]]; simpl; lia.
  - rewrite <- (IH _ _ _ _ H Hle). lia.
Qed.

(* The measure is a sum over the state's fields, so the effect of a step is the sum of the effects of
   the field updates it is made of.  [measure_cp] and [measure_sp] are the own step of a call or a subscription
   after a change s1 of the data, in the shape of [mono_cp] and [mono_sp]: the rank it loses has to pay for what
   s1 added.  The other lemmas give the effect of one update as an equation (for enqueue and RemoveHandler, as a
   bound). *)
Ltac msimpl := unfold measure, callw, subw, cbw; simpl.
(* so that [simpl] leaves the factors 3 of the measure alone *)
Local Arguments Nat.mul : simpl never.

Lemma measure_cp : forall s s1 c v, c < nn s1 -> measure s1 + callrank v < measure s + callrank (cp s1 c) ->
  measure (set_cp s1 (upd (cp s1) c v)) < measure s.
Proof.
  intros s s1 c v Hc. generalize (measure s). msimpl.
  pose proof (sumf_upd _ (fun p x => callrank p + (if cancelled s1 x then 0 else 1)) (cp s1) c v _ Hc) as S.
  simpl in S. lia.
Qed.
Lemma measure_sp : forall s s1 i v, i < mm s1 -> measure s1 + subrank v < measure s + subrank (sp s1 i) ->
  measure (set_sp s1 (upd (sp s1) i v)) < measure s.
Proof.
  intros s s1 i v Hi. generalize (measure s). msimpl.
  pose proof (sumf_upd _ (fun p x => subrank p + 3 * length (q (ch s1 (OSub x)))) (sp s1) i v _ Hi) as S.
  simpl in S. lia.
Qed.
Lemma measure_table : forall s tb,
  measure (set_table s tb) + 3 * length (owners (table s)) = measure s + 3 * length (owners tb).
Proof. intros. msimpl. lia. Qed.
Lemma measure_chq : forall s i v, i < mm s ->
  measure (set_ch s (updo (ch s) (OSub i) v)) + 3 * length (q (ch s (OSub i))) = measure s + 3 * length (q v).
Proof.
  intros s i v Hi. msimpl.
  pose proof (sumf_change (fun x => subrank (sp s x) + 3 * length (q (ch s (OSub x))))
                          (fun x => subrank (sp s x) + 3 * length (q (updo (ch s) (OSub i) v (OSub x)))) i (mm s)) as S.
  simpl in S. rewrite updo_same in S. lapply S; [intro S'; specialize (S' Hi); lia|].
  intros x Hx. rewrite updo_other by congruence. reflexivity.
Qed.
Lemma measure_ctl : forall s s', ctl_eq s s' -> (forall i, q (ch s' (OSub i)) = q (ch s (OSub i))) -> measure s' = measure s.
Proof.
  intros s s' C Hq. unfold measure. rewrite (sumf_ext (subw s) (subw s')).
  - destruct C; reflexivity.
  - intros i _. unfold subw. rewrite Hq. destruct C; reflexivity.
Qed.
Lemma measure_proc_table : forall s s1 p tb, ctl_eq s s1 ->
  measure (set_proc (set_table s1 tb) p) + procrank (proc s) + 3 * length (owners (table s)) =
  measure s1 + procrank p + 3 * length (owners tb).
Proof. intros s s1 p tb []. msimpl. lia. Qed.

Lemma measure_remove_handler : forall s k, measure (remove_handler s k) <= measure s.
Proof.
  intros s k. unfold remove_handler. destruct (nth_error (table s) k) as [[o|]|] eqn:E; auto.
  generalize (measure_table (close_sync s o) (setnth k None (table s))).
  rewrite (measure_ctl _ _ (ctl_close_sync s o) (fun i => q_close_sync s o _)). destruct (ctl_close_sync s o). simpl.
  pose proof (Add_length (setnth_none_Add _ _ _ E)). lia.
Qed.
Lemma measure_enqueue : forall s o t, inrange s o -> measure (enqueue s o t) <= measure s + 3.
Proof.
  intros s o t Hr. unfold enqueue. destruct (qclosed (ch s o)); [msimpl; lia|]. destruct (_ <? _); [|lia].
  destruct o as [c|i|j]; try exact (Nat.le_add_r (measure s) 3).
  pose proof (measure_chq s i {| q := q (ch s (OSub i)) ++ [t]; qclosed := false |} Hr) as M. simpl in M.
  rewrite app_length in M. simpl in M. lia.
Qed.

Lemma measure_step : forall s l s', Inv s -> bounded s -> step s l = Some s' -> (forall m, l <> LPeerMsg m) ->
  measure s' < measure s.
Proof.
  intros s l s' I B H NP.
  assert (Rc : forall c, (cp s c = CIdle -> c < nn s) -> c < nn s).
  { intros c Hc. destruct (cp s c) eqn:E; auto; apply (B (OCall c)); simpl; congruence. }
  assert (Rs : forall i, sp s i <> SNone -> i < mm s) by (intros i Hi; exact (B (OSub i) Hi)).
  destruct (step_Step _ _ _ H).
  - (* LCancel *)
    pose proof (sumf_upd _ (fun (b : bool) x => callrank (cp s x) + (if b then 0 else 1)) (cancelled s) c true _ Hc) as S.
    simpl in S. rewrite Ek in S. msimpl. lia.
  - (* pc_move *) destruct (pc_move_spec _ _ _ _ M) as (Hr & Hn & _). apply measure_cp; [auto|lia].
  - (* LCallMake *)
    pose proof (measure_table s (fst (alloc (table s) (OCall c)))) as M2.
    pose proof (Add_length (alloc_Add (table s) (OCall c))) as L.
    apply (measure_cp s (set_table s _)); auto. simpl. rewrite Ep. simpl. lia.
  - (* LCallRemove *) destruct (ctl_remove_handler s k) as (tb & C & _).
    pose proof (measure_remove_handler s k) as R.
    apply measure_cp; destruct C; simpl; [apply Rc; congruence|rewrite Ep; simpl; lia].
  - (* BErr *)
    apply (measure_cp s (set_errs s _)); [apply Rc; congruence|]. simpl. rewrite Ep.
    change (measure (set_errs s _)) with (measure s). simpl. lia.
  - (* BReply: the measure does not count the queue of a call *)
    apply (measure_cp s (set_ch s _)); [apply Rc; congruence|]. simpl. rewrite Ep.
    change (measure (set_ch s _)) with (measure s). simpl. lia.
  - (* LSubscribe *)
    pose proof (measure_table s (fst (alloc (table s) (OSub i)))) as M2.
    pose proof (Add_length (alloc_Add (table s) (OSub i))) as L.
    apply (measure_sp s (set_table s _)); auto. simpl. rewrite Es. simpl. lia.
  - (* LSubTake: one event less in the queue pays for the way to SSend *)
    assert (Hi : i < mm s) by (apply Rs; congruence).
    pose proof (measure_chq s i {| q := r; qclosed := qclosed (ch s (OSub i)) |} Hi) as M2. rewrite Eq in M2. simpl in M2.
    apply (measure_sp s (set_ch s _)); auto. simpl. rewrite Es. destruct (mtype_eqb t TEvent); simpl; lia.
  - (* LSubClosed, panic *) apply (iG s I) in Ev. congruence.
  - (* LSubClosed *) apply (measure_sp s (set_evclosed s _)); [apply Rs; congruence|]. simpl. rewrite Es.
    change (measure (set_evclosed s _)) with (measure s). simpl. lia.
  - (* LSubRead *) apply (measure_sp s (set_delivered s _)); [apply Rs; congruence|]. simpl. rewrite Es.
    change (measure (set_delivered s _)) with (measure s). simpl. lia.
  - (* LOnDisc *)
    pose proof (sumf_upd _ (fun (b : bool) (_ : nat) => if b then 0 else 4) (cbreg s) j true _ Hj) as S.
    simpl in S. rewrite Er in S. pose proof (Add_length (alloc_Add (table s) (OCb j))) as L. msimpl. lia.
  - (* LConnDie *) msimpl. rewrite Ed. lia.
  - (* LPeerMsg *) exfalso. exact (NP m eq_refl).
  - (* LReadFail *) msimpl. rewrite Ep. simpl. lia.
  - (* LDispatch: at most one event queued, for the 4 that reading the message had added *)
    destruct (inv_nodup s I) as (_ & NDt & _).
    destruct (disp_spec m (table s) s NDt) as [[_ E]|(o & t & -> & Hin & HM & E)]; rewrite E; simpl.
    + msimpl. rewrite Ep. simpl. lia.
    + assert (ME : measure (enqueue s o t) <= measure s + 3) by (apply measure_enqueue, B, (iC s I), in_app_iff; auto).
      pose proof (ctl_enqueue s o t) as C.
      destruct (keeps o (MFor o t)); simpl.
      * pose proof (measure_proc_table s _ PRead (table s) C) as M. rewrite Ep in M. simpl in M. lia.
      * pose proof (ctl_close_sync (enqueue s o t) o) as C2.
        pose proof (measure_proc_table s _ PRead (clearo o (table s)) (ctl_trans _ _ _ C C2)) as M.
        rewrite (measure_ctl _ _ C2 (fun i => q_close_sync _ o _)), Ep in M.
        pose proof (Add_length (clearo_Add o (table s) NDt Hin)). simpl in M. lia.
  - (* LProcClose1 *) msimpl. rewrite Ep. simpl. lia.
  - (* LProcClose2: two steps for each closer, three for the slot it came from *)
    unfold spawn_all. msimpl. rewrite owners_map_none, crank_app, crank_spawned, Ep. simpl. lia.
  - (* LUserClose1 *) msimpl. rewrite Eu. simpl. lia.
  - (* LUserClose2 *) unfold spawn_all. msimpl. rewrite owners_map_none, crank_app, crank_spawned, Eu. simpl. lia.
  - (* closer 0 *) destruct (ctl_run_closer _ _ _ _ Er) as [C Ch].
    rewrite <- (measure_ctl _ _ C (fun i => f_equal (fun h => q (h (OSub i))) Ch)).
    pose proof (crank_setnth _ _ _ _ _ Ek (Nat.le_0_l 1)). destruct C. msimpl. lia.
  - (* closer 1 *) rewrite <- (measure_ctl _ _ (ctl_close_chan s o) (fun i => q_close_chan s o _)).
    pose proof (crank_setnth _ _ _ _ _ Ek (le_n 1)). destruct (ctl_close_chan s o). msimpl. lia.
Qed.

Lemma lost_no_peer : forall s m, lost s = true -> step s (LPeerMsg m) = None.
Proof.
  intros s m Hl. unfold step. destruct (panicked s); auto. simpl. destruct (proc s); auto. rewrite Hl. reflexivity.
Qed.

(* once the connection is lost, every schedule is at most [measure s] labels long *)
Lemma lost_run_bounded : forall tr s s', Inv s -> bounded s -> lost s = true -> run tr s = Some s' ->
  length tr + measure s' <= measure s.
Proof.
  induction tr as [|l r IH]; intros s s' I B Hl H; simpl in H.
  - inversion H; subst. simpl. lia.
  - destruct (step s l) as [s1|] eqn:E; try discriminate.
    assert (NP : forall m, l <> LPeerMsg m).
    { intros m ->. rewrite lost_no_peer in E by assumption. discriminate. }
    pose proof (measure_step s l s1 I B E NP). pose proof (step_mono _ _ _ E) as M.
    specialize (IH s1 s' (inv_step _ _ _ I E) (bounded_mono _ _ M B) (m_lost _ _ M Hl) H). simpl. lia.
Qed.

Lemma measure_init : forall n m d, measure (init n m d) = 10 * n + 5 * m + 4 * d + 6.
Proof.
  intros. msimpl. rewrite !sumf_const. lia.
Qed.

(* once its handler is made (rank at most 5) every step of a call's own lowers its rank: over the ranks
   5, 4, 2, 1, 0 that bounds those steps by four (the pcs allow three: nothing leads from CWait to CFailed) *)
Lemma call_own_steps : forall s l s' c, step s l = Some s' ->
  (l = LCallSend c \/ l = LCallSendFail c \/ l = LCallRemove c \/ (exists b, l = LCallSel c b) \/ l = LCallCancelSend c) ->
  callrank (cp s' c) < callrank (cp s c) /\ callrank (cp s c) <= 5.
Proof.
  intros s l s' c H Hl. unfold step in H. destruct (panicked s); try discriminate.
  destruct Hl as [ -> | [ -> | [ -> | [ [b -> ] | -> ] ] ] ]; simpl in H.
  - destruct (cp s c) eqn:E; try discriminate. destruct (closed s); inversion H; subst; simpl. rewrite upd_same. simpl; lia.
  - destruct (cp s c) eqn:E; try discriminate. destruct (lost s); inversion H; subst; simpl. rewrite upd_same. simpl; lia.
  - destruct (cp s c) eqn:E; try discriminate. inversion H; subst; simpl. rewrite upd_same. simpl; lia.
  - destruct (cp s c) eqn:E; try discriminate. destruct b.
    + destruct (errs s c); inversion H; subst; simpl. rewrite upd_same. simpl; lia.
    + destruct (q (ch s (OCall c))); [destruct (qclosed (ch s (OCall c)))|]; inversion H; subst; simpl; rewrite upd_same; simpl; lia.
    + destruct (cancelled s c); inversion H; subst; simpl. rewrite upd_same. simpl; lia.
  - destruct (cp s c) eqn:E; try discriminate. inversion H; subst; simpl. rewrite upd_same. simpl; lia.
Qed.

(* dispatch never waits: with a message in hand the reader completes dispatch in one step, lost
   connection or not (the Error message it may write for a blocked consumer is part of the step
   and its result is discarded) *)
Lemma dispatch_enabled : forall s m, panicked s = false -> proc s = PHave m ->
  exists s', step s LDispatch = Some s' /\ proc s' = PRead.
Proof.
  intros s m Hp H. unfold step. rewrite Hp. simpl. rewrite H.
  destruct (disp m (table s) s) as [tb s']. eexists; split; reflexivity.
Qed.
