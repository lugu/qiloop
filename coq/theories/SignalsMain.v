(* SignalsMain.v — C13 over every run of the LTS in a [repaired] configuration.  [AckInv] (no event
   after the reply that acknowledged the removal of a registration; the one invariant that needs the
   switch snapshot_send off as well) and [Rest] (the object is not blocked, the emitter holds no
   empty snapshot, and every subscriber's connection is below nconn: its labels are among those
   [quiescent] tries) are kept by every [CStep]; [run_all], the one induction over
   runs, carries them with the invariants of SignalsInv1/3/4 ([AllInv]) and with [Deliv] while no
   queue has overflowed.  The c13_* theorems read their
   statements off its result; [c13_at_rest] is about a state where nothing internal is enabled any
   more ([quiescent_stuck]): calls answered, cancelled channels closed, queues drained. *)
From QV Require Import Signals SignalsLemmas SignalsStep SignalsInv1 SignalsInv3 SignalsInv4 SignalsInv5 SignalsProofs.
Local Open Scope N_scope.

Lemma mk_emit_some sig p us sig' p' us' : mk_emit sig p us = Some (sig', p', us') -> us' = us.
Proof. destruct us; cbn; [discriminate|now intros [= _ _ <-]]. Qed.
Lemma mk_emit_ne sig p us sig' p' : mk_emit sig p us <> Some (sig', p', []).
Proof. destruct us; cbn; [discriminate|intros [= _ _ E]; discriminate]. Qed.
(* what keeps event frames of a removed registration off the connection after the acknowledging reply:
   the emitter's snapshot is part of the table (with snapshot_send off no emission spans a table
   operation), and the message id of a removed registration is not that of an entry ([MidInv]: the ids
   of entries and of removed registrations are pairwise distinct) *)
Record AckInv (st : state) : Prop := {
  a_emit : forall sig p us, emit st = Some (sig, p, us) -> forall u, In u us -> In u (table st);
  a_log : forall c, no_event_after_ack [] (dlog st c) = true
}.

Lemma AckInv_init : AckInv init.
Proof. split; [discriminate|reflexivity]. Qed.

Local Notation gone_of := (gone_of (fun m => [m])).

Lemma no_event_after_ack_app G log e :
  no_event_after_ack G log = true ->
  (forall s m p n, e = (DEvent s m p, n) -> ~ In m G /\ ~ In m (gone_of log)) ->
  no_event_after_ack G (log ++ [e]) = true.
Proof.
  revert G. induction log as [|[f n] log IH]; intros G H He.
  - destruct e as [[a m|a m|s m p] n0]; cbn [app no_event_after_ack]; [now destruct n0|reflexivity|].
    destruct (He s m p n0 eq_refl) as [Hn _]. rewrite andb_true_r. apply negb_true_iff.
    destruct (existsb (N.eqb m) G) eqn:E; [|reflexivity].
    apply existsb_exists in E as (y & Hy & E). apply N.eqb_eq in E. now subst.
  - destruct f as [a m|a m|s m p]; cbn [app no_event_after_ack SignalsInv1.gone_of flat_map note_keys] in *.
    + destruct n as [mm|]; apply IH; try exact H; try exact He.
      intros s0 m0 p0 n1 E. destruct (He s0 m0 p0 n1 E) as [A B].
      split; [intros [->|Hin]; [apply B; now left|contradiction]|intro; apply B; now right].
    + now apply IH.
    + apply andb_prop in H as [H1 H2]. rewrite H1. now apply IH.
Qed.

Lemma AckInv_frame st st' :
  emit st' = emit st -> table st' = table st -> dlog st' = dlog st -> AckInv st -> AckInv st'.
Proof. intros E1 E2 E3 [A1 A3]. split; [rewrite E1, E2; exact A1|now rewrite E3]. Qed.

Theorem AckInv_step g st l st' :
  snapshot_send g = false -> MidInv st -> AckInv st -> CStep g st l st' -> AckInv st'.
Proof.
  intros Hs HM HA HS. pose proof HA as [A1 A3].
  (* only the object's table operations, the emitter and the writing of an answer touch emit, table or dlog *)
  destruct HS; try (apply (AckInv_frame st); [reflexivity..|exact HA]).
  - (* CMboxReg: no emission spans it *)
    split; psimpl; [|exact A3]. intros sig0 p us He. rewrite (Hsnap Hs) in He. discriminate.
  - (* CMboxUnreg *) split; psimpl; [|exact A3]. intros sig0 p us He. rewrite (Hsnap Hs) in He. discriminate.
  - (* CReply *)
    split; psimpl; [exact A1|].
    intro c0. destruct (Nat.eq_dec c0 c) as [->|Ne]; [|now rewrite fset_neq by exact Ne].
    rewrite fset_eq. apply no_event_after_ack_app; [apply A3|].
    intros s0 m0 p0 n0 [= -> _]. contradiction.
  - (* CEmitSnap *)
    split; psimpl; [|exact A3].
    intros sig0 p0 us He u Hu. apply mk_emit_some in He. subst us. now apply filter_In in Hu as [Hu _].
  - (* CEmitSend: the entry's message id is not among those of removed registrations *)
    split; psimpl.
    + intros sig0 p0 us0 He u0 Hu0. apply mk_emit_some in He. subst us0. apply (A1 _ _ _ Hemit). now right.
    + intro c0. destruct (Nat.eq_dec c0 (u_conn u)) as [->|Ne]; [|now rewrite fset_neq by exact Ne].
      rewrite fset_eq. apply no_event_after_ack_app; [apply A3|].
      intros s0 m0 p0 n0 [= _ <- _ _]. split; [intros []|]. intro Hin.
      destruct (HM (u_conn u)) as [Hn _]. unfold used in Hn.
      apply NoDup_app_iff in Hn as (_ & _ & Hd). eapply Hd; [|apply in_or_app; left; exact Hin].
      unfold keys. apply in_or_app. left. apply in_map, filter_In.
      split; [apply (A1 _ _ _ Hemit); now left|apply Nat.eqb_refl].
Qed.

Record AllInv (g : scfg) (st : state) : Prop := {
  i_uid : UidInv st; i_mid : MidInv st; i_cons : Conserve st; i_proto : Proto st;
  i_ack : snapshot_send g = false -> AckInv st }.

Lemma AllInv_init g : AllInv g init.
Proof. split; [apply UidInv_init|apply MidInv_init|apply Conserve_init|apply Proto_init|intro; apply AckInv_init]. Qed.

Lemma AllInv_CStep g st l st' : repaired g -> AllInv g st -> step g st l = Some st' -> CStep g st l st'.
Proof. intros Hg [I1 _ I3 I4 _] H. apply Step_CStep; auto using step_Step. Qed.

Lemma AllInv_step g st l st' : repaired g -> AllInv g st -> step g st l = Some st' -> AllInv g st'.
Proof.
  intros Hg I H. pose proof (AllInv_CStep _ _ _ _ Hg I H) as HC. destruct I as [I1 I2 I3 I4 I5]. split.
  - eapply UidInv_step; [eassumption|apply step_Step; exact H].
  - eapply MidInv_step; [eassumption|apply step_Step; exact H].
  - eapply Conserve_step; eassumption.
  - eapply Proto_step; eassumption.
  - intro Hs. eapply AckInv_step; eauto.
Qed.

Record Rest (st : state) : Prop := {
  r_dead : dead st = false;
  r_stuck : forall c, stuck st c = false;
  r_emit : forall sig p, emit st <> Some (sig, p, []);
  r_subs : forall x, In x (subs st) -> (s_conn x < nconn st)%nat
}.

Lemma Rest_init : Rest init.
Proof. split; try reflexivity; [discriminate|intros x []]. Qed.

Lemma conn_bound_set (l : list sub) s x x' n : nth_error l s = Some x -> s_conn x' = s_conn x ->
  (forall y, In y l -> (s_conn y < n)%nat) -> forall y, In y (set_nth l s x') -> (s_conn y < n)%nat.
Proof.
  intros Hx Hc H y Hy. apply In_set_nth in Hy as [->|Hy]; [|auto]. rewrite Hc. apply H. eapply nth_error_In; exact Hx.
Qed.
Lemma conn_bound_map (l : list sub) (h : sub -> sub) n : (forall y, s_conn (h y) = s_conn y) ->
  (forall y, In y l -> (s_conn y < n)%nat) -> forall y, In y (map h l) -> (s_conn y < n)%nat.
Proof. intros Hh H y Hy. apply in_map_iff in Hy as (y0 & <- & Hy0). rewrite Hh. auto. Qed.

Lemma Rest_step g st l st' : Rest st -> CStep g st l st' -> Rest st'.
Proof.
  (* no step of CStep blocks the object; a subscriber keeps its connection *)
  intros [R1 R2 R3 R4] HS.
  destruct HS; split; psimpl; auto using mk_emit_ne; try (eapply conn_bound_set; [eassumption|reflexivity|exact R4]).
  - (* CInstall *) intros x Hx. apply in_app_or in Hx as [Hx|[<-|[]]]; [specialize (R4 _ Hx); lia|cbn; lia].
  - (* CEmitSnap *) apply conn_bound_map; [|exact R4]. intro y. unfold note_emit. now destruct ((s_sig y =? sig) && live (s_pc y)).
  - (* CRecvEvent *)
    apply conn_bound_map; [|exact R4]. intro y. unfold enqueue.
    destruct (Nat.eqb (s_conn y) c && (s_sig y =? sig) && live (s_pc y)); [|reflexivity].
    now destruct (Nat.ltb (List.length (s_queue y)) QueueCap).
  - (* CRecvAnswer *) eapply conn_bound_set; [eassumption| |exact R4]. unfold answer_sub. destruct (s_pc x), f; reflexivity.
Qed.

Lemma run_all g tr : repaired g -> forall st0 st,
  AllInv g st0 -> Rest st0 -> (overflow st0 = false -> Deliv st0) -> run g st0 tr = Some st ->
  AllInv g st /\ Rest st /\ (overflow st = false -> Deliv st).
Proof.
  intro Hg. induction tr as [|l r IH]; intros st0 st I R D H; cbn in H; [injection H as <-; auto|].
  destruct (step g st0 l) as [st1|] eqn:E; [|discriminate]. pose proof (AllInv_CStep _ _ _ _ Hg I E) as HS.
  apply (IH st1); [eapply AllInv_step; eassumption| | |exact H].
  - eapply Rest_step; eassumption.
  - intro Ho. eapply Deliv_step; [apply (i_proto g); exact I| |exact HS|exact Ho].
    apply D. eapply overflow_mono; eassumption.
Qed.
Lemma run_init g tr st : repaired g -> run g init tr = Some st ->
  AllInv g st /\ Rest st /\ (overflow st = false -> Deliv st).
Proof. intros Hg Hr. exact (run_all g tr Hg init st (AllInv_init g) Rest_init (fun _ => Deliv_init) Hr). Qed.

(* C13, main statement: exactly once, in order, emitted payload, nothing foreign; the
   emissions of the window are a contiguous part of what the subscriber receives.  Whether
   UpdateSignal sends under its lock or after it (snapshot_send) makes no difference here *)
Theorem c13_delivery g tr st s x :
  repaired g -> run g init tr = Some st -> overflow st = false ->
  nth_error (subs st) s = Some x ->
  delivery_ok st x /\ prefix_ok x /\ window_ok x /\ (s_pc x = PAcked -> s_ackd x = true).
Proof.
  intros Hg Hr Ho Hx.
  destruct (run_init g tr st Hg Hr) as (_ & _ & D). destruct (D Ho x (nth_error_In _ _ Hx)) as (D1 & D2 & D3 & D4).
  repeat split.
  - exact D1.
  - unfold prefix_ok. destruct (live (s_pc x)) eqn:L; [eexists; apply D1; reflexivity|now apply D2].
  - exact D4.
  - exact D3.
Qed.

Theorem c13_registered g tr st s x :
  repaired g -> run g init tr = Some st -> nth_error (subs st) s = Some x -> s_pc x = PAcked ->
  List.length (ents (table st) (s_conn x) (s_sig x)) = 1%nat.
Proof.
  intros Hg Hr Hx Hp. destruct (run_init g tr st Hg Hr) as (I & _).
  apply keyinv_acked_registered; [apply (p_key _ (i_proto g st I))|]. apply (nP_ge1 isAck st s x Hx). now rewrite Hp.
Qed.

Theorem c13_no_event_after_ack g tr st c :
  repaired g -> snapshot_send g = false -> run g init tr = Some st -> no_event_after_ack [] (dlog st c) = true.
Proof. intros Hg Hs Hr. exact (a_log _ (i_ack g st (proj1 (run_init g tr st Hg Hr)) Hs) c). Qed.

Lemma first_enabled_none g st ls : first_enabled g st ls = None -> forall l, In l ls -> step g st l = None.
Proof.
  induction ls as [|l0 ls IH]; cbn; [intros _ l []|]. destruct (step g st l0) eqn:E; [discriminate|].
  intros H l [<-|Hl]; [exact E|now apply IH].
Qed.

Lemma quiescent_stuck g st : quiescent g st = true ->
  step g st LReply = None /\ step g st LEmitSend = None /\
  (forall c, (c < nconn st)%nat -> step g st (LMbox c) = None /\ step g st (LCliRecv c) = None) /\
  (forall s, (s < List.length (subs st))%nat -> step g st (LDeliver s) = None /\ step g st (LFanClose s) = None).
Proof.
  unfold quiescent. destruct (first_enabled g st (internal_labels st)) eqn:Ef; [discriminate|]. intros _.
  pose proof (first_enabled_none _ _ _ Ef) as Hn. unfold internal_labels in Hn.
  split; [|split; [|split; intros ? ?; split]]; apply Hn; apply in_or_app;
    [left; now left|left; right; now left|right; apply in_or_app; left|do 2 (right; apply in_or_app); left|
     do 3 (right; apply in_or_app); left|do 3 (right; apply in_or_app); right];
    apply in_map, in_seq; lia.
Qed.

Theorem c13_at_rest g tr st s x :
  repaired g -> run g init tr = Some st -> overflow st = false -> quiescent g st = true ->
  nth_error (subs st) s = Some x ->
  (forall m, s_pc x <> PWaitReg m) /\ (forall m, s_pc x <> PWaitUnreg m) /\ s_pc x <> PAborting /\
  (live (s_pc x) = true -> s_got x = s_skip x ++ s_all x).
Proof.
  intros Hg Hr Ho Hq Hx.
  destruct (run_init g tr st Hg Hr) as (I & [R1 R2 R3 R4] & _).
  destruct (quiescent_stuck g st Hq) as (Nr & Ne & Nc & Ns). cbn [step] in Nr, Ne.
  assert (Qp : pend st = None).
  { rewrite R1 in Nr. now destruct (pend st) as [[[c f] n]|]. }
  assert (Qe : emit st = None).
  { destruct (emit st) as [[[sg p] [|u us]]|] eqn:Ee; [|discriminate|reflexivity]. exfalso. eapply R3. reflexivity. }
  (* the labels of the subscriber's own connection are among those that quiescent has tried *)
  destruct (Nc (s_conn x) (R4 x (nth_error_In _ _ Hx))) as [Nm Nv]. cbn [step] in Nm, Nv.
  assert (Qu : up st (s_conn x) = []).
  { destruct (up st (s_conn x)) as [|f rest]; [reflexivity|exfalso].
    rewrite R1, R2, Qp in Nm. unfold emitting in Nm. rewrite Qe, andb_false_r in Nm. cbn [orb] in Nm.
    destruct f; [destruct (find_idx _ _); [destruct (dup_relock g)|]|destruct (find_idx _ _)]; discriminate. }
  assert (Qd : down st (s_conn x) = []).
  { destruct (down st (s_conn x)) as [|f rest]; [reflexivity|exfalso].
    destruct f; [destruct (find_idx _ _) as [s0|]; [destruct (nth_error (subs st) s0) as [y|]; [destruct (s_pc y)|]|]..|]; discriminate. }
  destruct (Ns s) as [Nd Nf]; [apply nth_error_Some; congruence|]. cbn [step] in Nd, Nf. rewrite Hx in Nd, Nf.
  assert (Qw : forall a m, waits (s_conn x) a m x = false).
  { intros a m. destruct (i_cons _ _ I (s_conn x) a m) as (E & _ & _). unfold n_up, n_pend, n_down, n_wait in E.
    rewrite Qu, Qp, Qd in E. cbn in E.
    destruct (waits (s_conn x) a m x) eqn:W; [|reflexivity].
    pose proof (cnt_In (waits (s_conn x) a m) (subs st) x (nth_error_In _ _ Hx) W). lia. }
  repeat split.
  - intros m Hp. specialize (Qw A_register m). unfold waits in Qw. rewrite Hp, Nat.eqb_refl, !N.eqb_refl in Qw. discriminate.
  - intros m Hp. specialize (Qw A_unregister m). unfold waits in Qw. rewrite Hp, Nat.eqb_refl, !N.eqb_refl in Qw. discriminate.
  - intro Ha. now rewrite Ha in Nf.
  - intro L. destruct (c13_delivery g tr st s x Hg Hr Ho Hx) as (D & _). specialize (D L).
    rewrite L in Nd. unfold inflight in D. destruct (s_queue x); [|discriminate]. rewrite Qd, Qe in D. cbn in D. now rewrite app_nil_r in D.
Qed.
