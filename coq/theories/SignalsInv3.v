(* SignalsInv3.v — the registration protocol between one client and the object, per (connection,
   signal), for the repaired configuration: the reference count of Client.State, the critical
   section, the requests in flight and the object's table agree at every step.  This is the [phase]
   of a key, [Free] or [Busy p]; [keyinv] reads it off a state and [Proto] adds that the object
   answers no call with an error.  That every step keeps it is SignalsInv4.v. *)
From QV Require Import Signals SignalsLemmas SignalsStep.
From Coq Require Import Permutation.
Local Open Scope N_scope.

Lemma cnt_le1_eq {A} (f : A -> bool) l a b : (cnt f l <= 1)%nat -> In a l -> In b l -> f a = true -> f b = true -> a = b.
Proof.
  induction l as [|y l IH]; [intros _ []|]. rewrite cnt_cons. intros Hc [->|Ha] [->|Hb] Fa Fb; try reflexivity.
  - rewrite Fa in Hc. pose proof (cnt_In f l b Hb Fb). lia.
  - rewrite Fb in Hc. pose proof (cnt_In f l a Ha Fa). lia.
  - apply IH; try assumption. destruct (f y); lia.
Qed.
Lemma In_set_nth_self {A} (l : list A) s x x' : nth_error l s = Some x -> In x' (set_nth l s x').
Proof. intro H. eapply nth_error_In. eapply nth_error_set_nth_eq. exact H. Qed.
Lemma key_true (a c : nat) (b sig : N) : Nat.eqb a c && (b =? sig) = true -> a = c /\ b = sig.
Proof. intro H. apply andb_prop in H as [H1 H2]. apply Nat.eqb_eq in H1. apply N.eqb_eq in H2. auto. Qed.

Definition on_key (c : nat) (sig : N) (x : sub) : bool := Nat.eqb (s_conn x) c && (s_sig x =? sig).
Definition pcb (k : pc -> bool) (c : nat) (sig : N) (x : sub) : bool := on_key c sig x && k (s_pc x).
Definition isAck (p : pc) := match p with PAcked => true | _ => false end.
(* inside SubscribeID / cancel: between the change of the counter and the answer to the remote call *)
Definition crit (p : pc) := match p with PNeedReg | PWaitReg _ | PNeedUnreg | PWaitUnreg _ => true | _ => false end.
Definition nP (k : pc -> bool) (st : state) (c : nat) (sig : N) : nat := cnt (pcb k c sig) (subs st).

Definition usig (f : uframe) : N := match f with UReg _ s _ | UUnreg _ s _ => s end.
(* the requests of one key that the object has not taken yet, oldest first *)
Definition frames (st : state) (c : nat) (sig : N) : list uframe := filter (fun f => usig f =? sig) (up st c).
Definition ekey (c : nat) (sig : N) (u : user) : bool := Nat.eqb (u_conn u) c && (u_sig u =? sig).
Definition ents (t : list user) (c : nat) (sig : N) : list user := filter (ekey c sig) t.

Definition has_sub (st : state) (c : nat) (sig : N) (p : pc) : Prop := exists x, In x (subs st) /\ on_key c sig x = true /\ s_pc x = p.
Definition entry (E : list user) (h : N) : Prop := exists u, E = [u] /\ u_uid u = h.

Lemma on_key_same c sig x x' : s_conn x' = s_conn x -> s_sig x' = s_sig x -> on_key c sig x' = on_key c sig x.
Proof. unfold on_key. now intros -> ->. Qed.
Lemma on_key_false_iff c sig x : on_key c sig x = false <-> ~ (s_conn x = c /\ s_sig x = sig).
Proof.
  unfold on_key. split.
  - intros H [<- <-]. now rewrite Nat.eqb_refl, N.eqb_refl in H.
  - intro H. destruct (Nat.eqb (s_conn x) c) eqn:E1; [|reflexivity]. destruct (s_sig x =? sig) eqn:E2; [|reflexivity].
    apply Nat.eqb_eq in E1. apply N.eqb_eq in E2. tauto.
Qed.
Lemma on_key_refl x : on_key (s_conn x) (s_sig x) x = true.
Proof. unfold on_key. now rewrite Nat.eqb_refl, N.eqb_refl. Qed.

Lemma nP_set k st st' s x x' c sig :
  nth_error (subs st) s = Some x -> subs st' = set_nth (subs st) s x' -> s_conn x' = s_conn x -> s_sig x' = s_sig x ->
  (nP k st' c sig + Nat.b2n (on_key c sig x && k (s_pc x)) =
   nP k st c sig + Nat.b2n (on_key c sig x && k (s_pc x')))%nat.
Proof.
  intros H Es Hc Hs. unfold nP at 1. rewrite Es. pose proof (cnt_set_nth (pcb k c sig) (subs st) s x' x H) as E.
  unfold pcb at 2 4 in E. now rewrite (on_key_same c sig x x' Hc Hs) in E.
Qed.
Lemma nP_map k st st' (h : sub -> sub) c sig :
  (forall x, s_conn (h x) = s_conn x /\ s_sig (h x) = s_sig x /\ s_pc (h x) = s_pc x) ->
  subs st' = map h (subs st) -> nP k st' c sig = nP k st c sig.
Proof.
  intros H Es. unfold nP. rewrite Es. apply cnt_map. intro x. destruct (H x) as (E1 & E2 & E3). unfold pcb.
  now rewrite (on_key_same c sig x (h x) E1 E2), E3.
Qed.
Lemma nP_ge1 k st s x : nth_error (subs st) s = Some x -> k (s_pc x) = true ->
  (nP k st (s_conn x) (s_sig x) >= 1)%nat.
Proof. intros Hx Hk. eapply cnt_In; [eapply nth_error_In; exact Hx|]. unfold pcb. now rewrite on_key_refl, Hk. Qed.

Lemma has_sub_map st c sig p (h : sub -> sub) sts :
  (forall x, s_conn (h x) = s_conn x /\ s_sig (h x) = s_sig x /\ s_pc (h x) = s_pc x) ->
  subs sts = map h (subs st) -> has_sub st c sig p -> has_sub sts c sig p.
Proof.
  intros H E (y & Hy & Ky & Py). exists (h y). destruct (H y) as (E1 & E2 & E3). rewrite E. repeat split.
  - now apply in_map.
  - now rewrite (on_key_same c sig y (h y) E1 E2).
  - congruence.
Qed.

Lemma ents_app t t' c sig : ents (t ++ t') c sig = ents t c sig ++ ents t' c sig.
Proof. apply filter_app. Qed.
Lemma ents_swap_remove t i e c sig : nth_error t i = Some e ->
  Permutation (ents t c sig) (ents (e :: swap_remove t i) c sig).
Proof. intro H. apply Permutation_filter. now apply swap_remove_perm. Qed.

(* The phase of one key.  Arguments: lock, reference count and handler id of Client.State, the key's
   table entries E and requests in flight F, the number of its subscribers in a critical pc and of
   acknowledged ones, and which pcs its subscribers have.
   Free: nobody is inside SubscribeID / cancel; the count is the number of acknowledged subscribers
   and the connection is registered (under the stored handler id) iff it is positive.
   Busy p: the lock is held by the one subscriber in a critical pc, p; [busy] says how far its remote
   call has got: not sent, in flight (F), or processed by the object (E changed). *)
Definition busy (sig : N) (n : nat) (h : N) (E : list user) (F : list uframe) (p : pc) : Prop :=
  match p with
  | PNeedReg => n = 1%nat /\ h = 0 /\ E = [] /\ F = []
  | PWaitReg m => n = 1%nat /\ ((F = [UReg m sig h] /\ E = []) \/ (F = [] /\ entry E h))
  | PNeedUnreg => n = O /\ F = [] /\ entry E h
  | PWaitUnreg m => n = O /\ h = 0 /\ ((exists h', F = [UUnreg m sig h'] /\ entry E h') \/ (F = [] /\ E = []))
  | _ => False
  end.
Inductive phase (sig : N) (lk : bool) (n : nat) (h : N) (E : list user) (F : list uframe) (nC nA : nat)
  (has : pc -> Prop) : Prop :=
| Free : lk = false -> nC = O -> n = nA -> F = [] ->
    (if Nat.eqb n 0 then E = [] /\ h = 0 else entry E h) -> phase sig lk n h E F nC nA has
| Busy p : lk = true -> nC = 1%nat -> has p -> nA = O -> busy sig n h E F p -> phase sig lk n h E F nC nA has.
Arguments Free {sig lk n h E F nC nA has}.
Arguments Busy {sig lk n h E F nC nA has} p.

Lemma phase_mono sig lk n h E F nC nA (has has' : pc -> Prop) :
  (forall p, has p -> has' p) -> phase sig lk n h E F nC nA has -> phase sig lk n h E F nC nA has'.
Proof. intros H [L NC NA FR X|p L NC Hp NA B]; [now apply Free|apply (Busy p); auto]. Qed.

Lemma busy_crit sig n h E F p : busy sig n h E F p -> crit p = true.
Proof. now destruct p. Qed.
Lemma busy_ents_le1 sig n h E F p : busy sig n h E F p -> (List.length E <= 1)%nat.
Proof.
  destruct p; try contradiction; cbn [busy].
  - intros (_ & _ & -> & _). cbn; lia.
  - intros (_ & [[_ ->]|[_ (u & -> & _)]]); cbn; lia.
  - intros (_ & _ & u & -> & _). cbn; lia.
  - intros (_ & _ & [(h' & _ & u & -> & _)|[_ ->]]); cbn; lia.
Qed.

Lemma phase_head sig lk n h E F nC nA has f r :
  phase sig lk n h E F nC nA has -> F = f :: r ->
  lk = true /\ nC = 1%nat /\ nA = O /\ r = [] /\
  match f with
  | UReg m _ uid => has (PWaitReg m) /\ n = 1%nat /\ uid = h /\ E = []
  | UUnreg m _ uid => has (PWaitUnreg m) /\ n = O /\ h = 0 /\ entry E uid
  end.
Proof.
  intros [_ _ _ -> _|p L NC HS NA B] EF; [discriminate|]. subst F.
  destruct p; try contradiction; cbn [busy] in B.
  - now destruct B as (_ & _ & _ & ?).
  - destruct B as (? & [[[= -> ->] ?]|[? _]]); [cbn; auto 10|discriminate].
  - now destruct B as (_ & ? & _).
  - destruct B as (? & ? & [(h' & [= -> ->] & ?)|[? _]]); [cbn; auto 10|discriminate].
Qed.

Definition keyinv (st : state) (c : nat) (sig : N) : Prop :=
  phase sig (c_lock (cl st c) sig) (c_count (cl st c) sig) (c_hid (cl st c) sig) (ents (table st) c sig)
    (frames st c sig) (nP crit st c sig) (nP isAck st c sig) (has_sub st c sig).

Lemma keyinv_ents_le1 st c sig : keyinv st c sig -> (List.length (ents (table st) c sig) <= 1)%nat.
Proof.
  intros [_ _ _ _ X|p _ _ _ _ B]; [|exact (busy_ents_le1 _ _ _ _ _ _ B)].
  destruct (Nat.eqb _ 0); [destruct X as [-> _]|destruct X as (u & -> & _)]; cbn; lia.
Qed.
Lemma keyinv_acked_registered st c sig : keyinv st c sig -> (nP isAck st c sig >= 1)%nat ->
  List.length (ents (table st) c sig) = 1%nat.
Proof.
  intros [_ _ A _ X|p _ _ _ A _] HA; [|lia].
  destruct (Nat.eqb_spec (c_count (cl st c) sig) 0); [lia|]. now destruct X as (u & -> & _).
Qed.

Lemma busy_of_crit st s x : keyinv st (s_conn x) (s_sig x) -> nth_error (subs st) s = Some x -> crit (s_pc x) = true ->
  c_lock (cl st (s_conn x)) (s_sig x) = true /\ nP crit st (s_conn x) (s_sig x) = 1%nat /\
  nP isAck st (s_conn x) (s_sig x) = O /\
  busy (s_sig x) (c_count (cl st (s_conn x)) (s_sig x)) (c_hid (cl st (s_conn x)) (s_sig x))
    (ents (table st) (s_conn x) (s_sig x)) (frames st (s_conn x) (s_sig x)) (s_pc x).
Proof.
  intros K Hx Cx. apply nth_error_In in Hx.
  assert (Px : pcb crit (s_conn x) (s_sig x) x = true) by (unfold pcb; now rewrite on_key_refl, Cx).
  destruct K as [_ NC _ _ _|p L NC (y & Hy & Ky & Py) NA B].
  - pose proof (cnt_In _ _ _ Hx Px). unfold nP in NC. lia.
  - assert (y = x); [|subst; auto].
    apply (cnt_le1_eq (pcb crit (s_conn x) (s_sig x)) (subs st)); try assumption; [unfold nP in NC; lia|].
    unfold pcb. now rewrite Ky, Py, (busy_crit _ _ _ _ _ _ B).
Qed.

Lemma keyinv_frame st st' c sig :
  c_count (cl st' c) sig = c_count (cl st c) sig /\ c_lock (cl st' c) sig = c_lock (cl st c) sig /\
    c_hid (cl st' c) sig = c_hid (cl st c) sig ->
  ents (table st') c sig = ents (table st) c sig ->
  frames st' c sig = frames st c sig ->
  nP crit st' c sig = nP crit st c sig -> nP isAck st' c sig = nP isAck st c sig ->
  (forall p, has_sub st c sig p -> has_sub st' c sig p) ->
  keyinv st c sig -> keyinv st' c sig.
Proof.
  intros (E1 & E2 & E3) E4 E5 N1 N2 HS K. unfold keyinv. rewrite E1, E2, E3, E4, E5, N1, N2.
  exact (phase_mono _ _ _ _ _ _ _ _ _ _ HS K).
Qed.

Lemma fupd_cl_other (f : nat -> cstate) c0 k c sig :
  (c = c0 -> c_count k sig = c_count (f c0) sig /\ c_lock k sig = c_lock (f c0) sig /\ c_hid k sig = c_hid (f c0) sig) ->
  c_count (fupd f c0 k c) sig = c_count (f c) sig /\ c_lock (fupd f c0 k c) sig = c_lock (f c) sig /\
  c_hid (fupd f c0 k c) sig = c_hid (f c) sig.
Proof.
  intro H. unfold fupd. destruct (Nat.eqb c c0) eqn:E; [apply Nat.eqb_eq in E; subst; now apply H|auto].
Qed.
Lemma nupd_fields_other (k : cstate) sig sig0 n b :
  sig0 <> sig ->
  c_count (with_lock (with_count k sig n) sig b) sig0 = c_count k sig0 /\
  c_lock (with_lock (with_count k sig n) sig b) sig0 = c_lock k sig0 /\
  c_hid (with_lock (with_count k sig n) sig b) sig0 = c_hid k sig0.
Proof. intro H. cbn. now rewrite !nupd_neq by exact H. Qed.

Record Proto (st : state) : Prop := {
  p_key : forall c sig, keyinv st c sig;
  p_pend : forall c f n, pend st = Some (c, f, n) -> is_dreply f;
  p_down : forall c f, In f (down st c) -> no_derror f
}.

Lemma Proto_init : Proto init.
Proof.
  split; [|discriminate|intros c f []].
  intros c sig. apply Free; try reflexivity. now split.
Qed.
