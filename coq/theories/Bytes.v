(* Bytes.v — bytes, little/big-endian fixed-width integers, hex literals; a few facts about
   lists that the wire proofs share (firstn / skipn of an append, a maximum over members) and,
   for any encoding (Section Code): injective gives prefix-free and one way to split a stream.
   Shared by every wire-format model.  Stdlib only. *)
From Coq Require Export List NArith ZArith Lia Bool.
From Coq.Strings Require Export Byte.
From Coq Require Import String Ascii.
Export ListNotations.
Local Open Scope N_scope.

Definition byte := Byte.byte.
Definition bytes := list byte.

Definition byte_of_N (n : N) : byte :=
  match Byte.of_N (n mod 256) with Some b => b | None => Byte.x00 end.

Lemma to_N_byte_of_N n : Byte.to_N (byte_of_N n) = n mod 256.
Proof.
  unfold byte_of_N. destruct (Byte.of_N (n mod 256)) as [b|] eqn:E.
  - now apply Byte.to_of_N.
  - apply Byte.of_N_None_iff in E.
    assert (n mod 256 < 256) by (apply N.mod_lt; discriminate). lia.
Qed.

Lemma byte_of_N_to_N b : byte_of_N (Byte.to_N b) = b.
Proof.
  unfold byte_of_N. pose proof (Byte.to_N_bounded b) as Hb.
  rewrite N.mod_small by lia. now rewrite Byte.of_to_N.
Qed.

Lemma to_N_lt b : Byte.to_N b < 256.
Proof. pose proof (Byte.to_N_bounded b). lia. Qed.

(* little-endian encoding of x on n bytes (x taken modulo 2^(8n)) *)
Fixpoint le (n : nat) (x : N) : bytes :=
  match n with
  | O => []
  | S n' => byte_of_N x :: le n' (x / 256)
  end.

Fixpoint unle (bs : bytes) : N :=
  match bs with
  | [] => 0
  | b :: r => Byte.to_N b + 256 * unle r
  end.

Definition be (n : nat) (x : N) : bytes := rev (le n x).
Definition unbe (bs : bytes) : N := unle (rev bs).

Lemma le_length n x : List.length (le n x) = n.
Proof. revert x; induction n as [|n IH]; intro x; cbn [le List.length]; [reflexivity|now rewrite IH]. Qed.

Lemma be_length n x : List.length (be n x) = n.
Proof. unfold be. now rewrite rev_length, le_length. Qed.

Lemma unle_le n x : unle (le n x) = x mod 2 ^ (8 * N.of_nat n).
Proof.
  revert x; induction n as [|n IH]; intro x.
  - cbn. now rewrite N.mod_1_r.
  - cbn [le unle]. rewrite to_N_byte_of_N, IH.
    replace (8 * N.of_nat (S n)) with (8 + 8 * N.of_nat n) by lia.
    rewrite N.pow_add_r. change (2 ^ 8) with 256.
    assert (Hp : 2 ^ (8 * N.of_nat n) <> 0) by (apply N.pow_nonzero; discriminate).
    rewrite (N.mod_mul_r x 256 (2 ^ (8 * N.of_nat n))) by (discriminate || assumption).
    reflexivity.
Qed.

Lemma unle_le_small n x : x < 2 ^ (8 * N.of_nat n) -> unle (le n x) = x.
Proof. intro H. rewrite unle_le. now apply N.mod_small. Qed.

Lemma unbe_be n x : unbe (be n x) = x mod 2 ^ (8 * N.of_nat n).
Proof. unfold unbe, be. rewrite rev_involutive. apply unle_le. Qed.

Lemma unle_bound bs : unle bs < 2 ^ (8 * N.of_nat (List.length bs)).
Proof.
  induction bs as [|b r IH].
  - cbn. lia.
  - cbn [unle List.length]. pose proof (to_N_lt b) as Hb.
    replace (8 * N.of_nat (S (List.length r))) with (8 + 8 * N.of_nat (List.length r)) by lia.
    rewrite N.pow_add_r. change (2 ^ 8) with 256. nia.
Qed.

Lemma le_unle bs : le (List.length bs) (unle bs) = bs.
Proof.
  induction bs as [|b r IH]; [reflexivity|].
  cbn [List.length le unle]. pose proof (to_N_lt b) as Hb. f_equal.
  - rewrite <- (byte_of_N_to_N b) at 2. unfold byte_of_N.
    now rewrite N.mul_comm, N.mod_add by discriminate.
  - rewrite N.mul_comm, N.div_add, N.div_small by (assumption || discriminate). exact IH.
Qed.

Lemma le_inj n x y :
  x < 2 ^ (8 * N.of_nat n) -> y < 2 ^ (8 * N.of_nat n) -> le n x = le n y -> x = y.
Proof.
  intros Hx Hy E. rewrite <- (unle_le_small n x Hx), <- (unle_le_small n y Hy). now rewrite E.
Qed.

(* hex text <-> bytes, for the generated case files *)
Definition hexval (c : ascii) : option N :=
  let n := N_of_ascii c in
  if (48 <=? n) && (n <=? 57) then Some (n - 48)
  else if (97 <=? n) && (n <=? 102) then Some (n - 87)
  else if (65 <=? n) && (n <=? 70) then Some (n - 55)
  else None.

Fixpoint unhex (s : string) : bytes :=
  match s with
  | String a (String b r) =>
      match hexval a, hexval b with
      | Some x, Some y => byte_of_N (16 * x + y) :: unhex r
      | _, _ => []
      end
  | _ => []
  end.

Definition eqb_byte (a b : byte) : bool := Byte.eqb a b.
Fixpoint eqb_bytes (a b : bytes) : bool :=
  match a, b with
  | [], [] => true
  | x :: a', y :: b' => Byte.eqb x y && eqb_bytes a' b'
  | _, _ => false
  end.

Lemma eqb_bytes_eq a b : eqb_bytes a b = true <-> a = b.
Proof.
  revert b; induction a as [|x a IH]; intros [|y b]; cbn; split; intro H; try congruence; try discriminate.
  - apply andb_true_iff in H as [H1 H2]. apply Byte.byte_dec_bl in H1. apply IH in H2. congruence.
  - inversion H; subst. apply andb_true_iff; split; [apply Byte.byte_dec_lb; reflexivity| now apply IH].
Qed.

Lemma firstn_app_exact {A} (a b : list A) : firstn (List.length a) (a ++ b) = a.
Proof. rewrite firstn_app, Nat.sub_diag, firstn_all. cbn. now rewrite app_nil_r. Qed.
Lemma skipn_app_exact {A} (a b : list A) : skipn (List.length a) (a ++ b) = b.
Proof. rewrite skipn_app, Nat.sub_diag, skipn_all. reflexivity. Qed.

Lemma app_eq_len_split {A} (a b c d : list A) :
  a ++ b = c ++ d -> List.length a = List.length c -> a = c /\ b = d.
Proof.
  intros H Hl. split.
  - rewrite <- (firstn_app_exact a b), H, Hl. apply firstn_app_exact.
  - rewrite <- (skipn_app_exact a b), H, Hl. apply skipn_app_exact.
Qed.

Lemma fold_max_in {A} (g : A -> nat) x l : In x l -> (g x <= fold_right (fun y a => Nat.max (g y) a) 0 l)%nat.
Proof. induction l as [|u l IH]; cbn; [tauto|]. intros [->|H]; [|specialize (IH H)]; lia. Qed.
Lemma fold_Nmax_in {A} (h : A -> N) l x : In x l -> h x <= fold_right (fun y a => N.max (h y) a) 0 l.
Proof.
  induction l as [|y l IH]; intro Hin; [destruct Hin|].
  cbn [fold_right]. destruct Hin as [->|Hin]; [lia|]. specialize (IH Hin). lia.
Qed.

(* An injective encoding is prefix-free, and if no encoding is empty a concatenation of
   encodings splits in one way only. *)
Section Code.
  Context {A : Type} (enc : A -> bytes) (ok : A -> Prop).
  Hypothesis inj : forall a1 a2 r1 r2, ok a1 -> ok a2 -> enc a1 ++ r1 = enc a2 ++ r2 -> a1 = a2 /\ r1 = r2.

  Lemma injective_not_prefix : forall a1 a2 r, ok a1 -> ok a2 -> enc a1 = enc a2 ++ r -> a1 = a2 /\ r = [].
  Proof.
    intros a1 a2 r H1 H2 He. rewrite <- (app_nil_r (enc a1)) in He.
    destruct (inj a1 a2 [] r H1 H2 He) as [Ha Hr]. split; [exact Ha|now symmetry].
  Qed.

  Lemma injective_stream : (forall a, ok a -> enc a <> []) ->
    forall l1 l2, Forall ok l1 -> Forall ok l2 -> flat_map enc l1 = flat_map enc l2 -> l1 = l2.
  Proof.
    intro Hne. assert (Hne' : forall a r, ok a -> enc a ++ r <> [])
      by (intros a r Ha He; apply app_eq_nil in He; exact (Hne a Ha (proj1 He))).
    induction l1 as [|a1 l1 IH]; intros [|a2 l2] H1 H2 He; cbn [flat_map] in He;
      inversion H1; inversion H2; subst.
    - reflexivity.
    - symmetry in He. now apply Hne' in He.
    - now apply Hne' in He.
    - destruct (inj a1 a2 _ _ H3 H7 He) as [-> Hr]. f_equal. now apply IH.
  Qed.
End Code.
