(* SessionViewProofs.v — the session's list equals the directory's content whenever nothing is
   in flight (SessionView.v), for every interleaving of directory changes, deliveries, answers
   and loop steps; throwing delivered signals away after a refresh breaks it. *)
From Coq Require Import List.
From QV Require Import SessionView.
Import ListNotations.

(* a signal that will make the loop refresh again is still on its way *)
Definition owed (s : vst) : Prop := v_pending s <> 0 \/ In MSignal (v_wire s).

(* every reply on the wire carries the directory's content, or a signal follows it *)
Fixpoint fresh (d : dir) (w : list msg) : Prop :=
  match w with
  | [] => True
  | MSignal :: r => fresh d r
  | MReply snap :: r => (snap = d \/ In MSignal r) /\ fresh d r
  end.

Definition VInv (s : vst) : Prop :=
  fresh (v_dir s) (v_wire s) /\
  match v_call s with
  | CNone => v_pc s = 0 -> v_list s = v_dir s \/ owed s
  | CSent | CAnswered => v_pc s = 1
  | CGot snap => v_pc s = 2 /\ (snap = v_dir s \/ owed s)
  end.

Lemma fresh_signal : forall d d' w, fresh d w -> fresh d' (w ++ [MSignal]).
Proof.
  induction w as [|[snap|] w IH]; cbn; [trivial | | exact IH].
  intros [_ F]. split; [right; apply in_elt | exact (IH F)].
Qed.

Lemma fresh_answer : forall d w, fresh d w -> fresh d (w ++ [MReply d]).
Proof.
  induction w as [|[snap|] w IH]; cbn; [auto | | exact IH].
  intros [[E|E] F]; (split; [|exact (IH F)]); [now left | right; apply in_or_app; now left].
Qed.

Lemma inv_init : forall d, VInv (vinit d).
Proof. intros d. unfold VInv. cbn. auto. Qed.

Lemma inv_step s e : VInv s -> match vstep loop_prog s e with Some s' => VInv s' | None => True end.
Proof.
  intros [F I]. unfold VInv, owed in *. destruct e as [d| | |]; cbn [vstep].
  - (* the directory changes: one more signal is owed *)
    cbn [v_call v_wire v_pc v_list v_dir v_pending]. pose proof (in_elt MSignal (v_wire s) []) as Hin.
    split; [exact (fresh_signal _ d _ F)|]. destruct (v_call s); [| exact I | exact I | destruct I as (P & _)]; auto.
  - (* the directory answers with what it holds *)
    destruct (v_call s); trivial. cbn [v_call v_wire v_pc v_list v_dir v_pending]. auto using fresh_answer.
  - (* a message is delivered *)
    destruct (v_wire s) as [|[snap|] r]; trivial; cbn [fresh] in F.
    + destruct (v_call s); trivial. cbn [v_call v_wire v_pc v_list v_dir v_pending].
      destruct F as [[E|E] F]; rewrite I; cbn; auto.
    + cbn [v_call v_wire v_pc v_list v_dir v_pending].
      split; [exact F|]. destruct (v_call s); [| exact I | exact I | destruct I as (P & _)]; auto.
  - (* the loop *)
    assert (Hpc : forall i, nth_error loop_prog (v_pc s) = Some i ->
              match i with URecv => v_pc s = 0 | UCall => v_pc s = 1 | UStore => v_pc s = 2 | UDrain => False end).
    { intro i. destruct (v_pc s) as [|[|[|[|k]]]]; cbn; intros [= <-]; reflexivity. }
    destruct (nth_error loop_prog (v_pc s)) as [i|]; trivial. specialize (Hpc i eq_refl).
    destruct i; [| | |contradiction].
    + (* URecv *)
      destruct (v_pending s) as [|n]; trivial. cbn [v_call v_wire v_pc v_list v_dir v_pending]. rewrite Hpc in *.
      split; [exact F|]. destruct (v_call s); [|easy..]. cbn. discriminate.
    + (* UCall *)
      destruct (v_call s); trivial. cbn [v_call v_wire v_pc v_list v_dir v_pending]. auto.
    + (* UStore *)
      destruct (v_call s); trivial. cbn [v_call v_wire v_pc v_list v_dir v_pending].
      destruct I as (P & Q). rewrite P. cbn. auto.
Qed.

Lemma inv_exec : forall es s s', VInv s -> vexec loop_prog s es = Some s' -> VInv s'.
Proof.
  induction es as [|e es IH]; cbn [vexec]; intros s s' I H; [now injection H as <-|].
  pose proof (inv_step s e I) as I1. destruct (vstep loop_prog s e) as [s1|]; [exact (IH s1 s' I1 H) | discriminate H].
Qed.

(* with the directory quiet and nothing in flight, the session's list IS the directory's content:
   a request for a registered service finds it (and a removed service is gone) — whatever the
   order in which changes, snapshots, deliveries and loop steps were interleaved before *)
Lemma vinv_quiet s : VInv s -> quiet s = true -> v_list s = v_dir s.
Proof.
  intros [_ I] Q. unfold quiet in Q. unfold owed in I.
  destruct (v_wire s); [|discriminate Q]. destruct (v_pending s); [|discriminate Q].
  destruct (v_call s); try discriminate Q. destruct (v_pc s); [|discriminate Q].
  destruct (I eq_refl) as [L|[O|[]]]; [exact L | now destruct O].
Qed.

Theorem view_quiescent : forall d0 es s,
  vexec loop_prog (vinit d0) es = Some s -> quiet s = true -> v_list s = v_dir s.
Proof. intros d0 es s H. exact (vinv_quiet s (inv_exec es _ _ (inv_init d0) H)). Qed.

(* a burst: s1 becomes ready, the loop starts its refresh, the directory answers, s2 and s3 become
   ready behind the reply, everything is delivered before the loop stores its list *)
Definition d1 : dir := [(1, (0, 1))].
Definition d2 : dir := [(1, (0, 1)); (2, (0, 1))].
Definition d3 : dir := [(1, (0, 1)); (2, (0, 1)); (3, (1, 1))].
Definition wit_burst : list vev :=
  [VChange d1; VDeliver; VLoop; VLoop; VAnswer; VChange d2; VChange d3; VDeliver; VDeliver; VDeliver].

(* the burst, then the directory stays silent *)
Definition burst_end (p : list uinstr) : option vst :=
  match vexec p (vinit []) wit_burst with Some s => settle p 40 s | None => None end.

(* the same burst when the loop discards the delivered signals after storing its list ("they
   piled up during the refresh, the list just fetched already reflects them"): quiet, and s2, s3
   — registered, ready — are not in the session's list *)
Lemma drain_after_store_loses :
  exists s, burst_end (loop_prog ++ [UDrain]) = Some s /\ quiet s = true /\ v_dir s = d3 /\ v_list s = d1.
Proof. eexists. split; [vm_compute; reflexivity|]. vm_compute. repeat split; reflexivity. Qed.
