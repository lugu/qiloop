(* IdlFile.v — layer 3 of the IDL round trip: whole files.
   Registration only appends to the type set (register t s = (t, s ++ ext)) and what it leaves covers the
   structs of t, when no two different structs share a name (env_ok) and none is named like an interface.
   What gen_idl writes for such a package is a package line and blocks, each a sequence of lines (line, lines),
   read back by kleene_lines and block_parses; the parser's fuel is the length of the text, which exceeds
   every nesting written in it. The scope of the parsed declarations has every registered struct, and its fuel
   suffices because structs nest at most as deep as there are struct names (ty_depth_names). Together:
   idl_file_roundtrip, in the decidable form idl_roundtrip_ok; package_okb computes the hypotheses for a package
   written out; convert_seq is a process that converts one package after the other (idl_sequence_roundtrip). *)
From QV Require Import SigFacts PegProofs SigParseProofs Idl IdlProofs.
Import ListNotations.
Local Open Scope string_scope.

Lemma flat_map_snd {A B C} (g : B -> list C) (l : list (A * B)) : flat_map (fun f => g (snd f)) l = flat_map g (map snd l).
Proof. induction l as [|x l IH]; cbn; [reflexivity|now rewrite IH]. Qed.

Lemma lookup_app {A} k (l1 l2 : list (string * A)) :
  lookup k (l1 ++ l2) = match lookup k l1 with Some v => Some v | None => lookup k l2 end.
Proof. induction l1 as [|[a v] l1 IH]; cbn; [reflexivity|]. destruct (String.eqb a k); [reflexivity|exact IH]. Qed.
(* Idl.lookup takes its value type inside the fixpoint, so it is aget by induction, not by unfolding *)
Lemma lookup_aget {A} k (l : list (string * A)) : lookup k l = aget String.eqb k l.
Proof. induction l as [|[a w] l IH]; cbn; [reflexivity|now rewrite IH]. Qed.
Lemma lookup_in {A} k (l : list (string * A)) v : lookup k l = Some v -> In (k, v) l.
Proof. rewrite lookup_aget. apply (aget_in String.eqb_spec). Qed.
Lemma lookup_none_notin {A} k (l : list (string * A)) : lookup k l = None <-> ~ In k (map fst l).
Proof. rewrite lookup_aget. apply (aget_none String.eqb_spec). Qed.
Lemma lookup_nodup_in {A} k (l : list (string * A)) v : NoDup (map fst l) -> In (k, v) l -> lookup k l = Some v.
Proof. rewrite lookup_aget. apply (in_aget String.eqb_spec). Qed.

Lemma upsert_new {A} k (v : A) l : ~ In k (map fst l) -> upsert k v l = (l ++ [(k, v)])%list.
Proof.
  induction l as [|[k' v'] l IH]; cbn; intro H; [reflexivity|].
  destruct (N.eqb_spec k k') as [->|Hn]; [exfalso; apply H; now left|].
  rewrite IH; [reflexivity|]. intro Hin. apply H. now right.
Qed.

Lemma upsert_fresh {A} k (v : A) Ms ids : NoDup (map fst Ms ++ k :: ids) -> upsert k v Ms = (Ms ++ [(k, v)])%list.
Proof. intro H. apply upsert_new. intro Hin. apply NoDup_remove_2 in H. apply H, in_or_app. now left. Qed.

Lemma sconcat_app (l1 l2 : list string) : String.concat "" (l1 ++ l2)%list = String.concat "" l1 ++ String.concat "" l2.
Proof.
  induction l1 as [|x l1 IH]; [reflexivity|]. cbn [app]. now rewrite !sconcat_cons, IH, sapp_assoc.
Qed.

Lemma concat_in_len x l : In x l -> (String.length x <= String.length (String.concat "" l))%nat.
Proof. exact (join_in_len "" x l). Qed.   (* Sig.join is String.concat written out again: the two are convertible *)

Fixpoint structs_of (t : ty) : list (string * list (string * ty)) :=
  match t with
  | TS _ => []
  | TList e => structs_of e
  | TMap k v => (structs_of k ++ structs_of v)%list
  | TTuple ts => flat_map structs_of ts
  | TStruct n fs => (n, fs) :: flat_map (fun f => structs_of (snd f)) fs
  end.

(* name -> members: "two structs with the same name are the same struct" *)
Definition env := list (string * list (string * ty)).
Definition env_ok (E : env) (t : ty) : Prop :=
  Forall (fun d => lookup (fst d) E = Some (snd d)) (structs_of t).

Lemma env_ok_in E t n fs : env_ok E t -> In (n, fs) (structs_of t) -> lookup n E = Some fs.
Proof. intro He. exact (proj1 (Forall_forall _ _) He (n, fs)). Qed.

Lemma env_ok_tuple E ts : env_ok E (TTuple ts) <-> Forall (env_ok E) ts.
Proof. apply Forall_flat_map. Qed.

Lemma env_ok_struct E n fs : env_ok E (TStruct n fs) <-> lookup n E = Some fs /\ Forall (env_ok E) (map snd fs).
Proof.
  unfold env_ok. cbn [structs_of]. rewrite flat_map_snd, Forall_cons_iff, Forall_flat_map. reflexivity.
Qed.

Definition unresolved (k : string) : string := "()<not found in scope: " ++ k ++ ">".

Definition entry_ok (E : env) (inames : list string) (e : string * (string * option (list (string * string)))) : Prop :=
  (In (fst e) inames /\ snd e = (unresolved (fst e), None)) \/
  (exists fs, lookup (fst e) E = Some fs /\ snd e = (print (TStruct (fst e) fs), Some (struct_block fs))).

Definition set_ok (E : env) (inames : list string) (s : tset) : Prop :=
  Forall (entry_ok E inames) s /\ NoDup (map fst s).

Lemma set_ok_snoc E inames s e : set_ok E inames s -> entry_ok E inames e -> lookup (fst e) s = None ->
  set_ok E inames (s ++ [e])%list.
Proof.
  intros [HF Hnd] He Hl. split; [apply Forall_app; auto|].
  rewrite map_app. apply NoDup_snoc; [assumption|now apply lookup_none_notin].
Qed.

(* one round of TypeSet.ResolveCollision; the proofs never need the hundred rounds written out *)
Lemma resolve_loop_S f i s orig name sg : resolve_loop (S f) i s orig name sg =
  match set_sig name s with
  | Some sg' => if String.eqb sg' sg then name else resolve_loop f (i + 1) s orig (orig ++ "_" ++ N_to_string i) sg
  | None => name
  end.
Proof. reflexivity. Qed.

Lemma resolve_same s n sg : (forall sg' blk, lookup n s = Some (sg', blk) -> sg' = sg) -> resolve_collision s n sg = n.
Proof.
  intro H. unfold resolve_collision. rewrite resolve_loop_S. unfold set_sig.
  destruct (lookup n s) as [[sg' blk]|] eqn:E; [|reflexivity].
  now rewrite (H sg' blk eq_refl), String.eqb_refl.
Qed.

Lemma reg_fields_list (reg : ty -> tset -> ty * tset) fs s :
  reg_fields reg fs s = let (ts, s') := reg_list reg (map snd fs) s in (combine (map fst fs) ts, s').
Proof.
  revert s; induction fs as [|[a x] fs IH]; intro s; cbn; [reflexivity|].
  destruct (reg x s) as [x' s1]. rewrite IH. now destruct (reg_list reg (map snd fs) s1).
Qed.

Definition covers (s : tset) (t : ty) : Prop := forall d, In d (structs_of t) -> lookup (fst d) s <> None.

Section Register.
Open Scope list_scope.

Lemma covers_mono s ext t : covers s t -> covers (s ++ ext) t.
Proof. intros H d Hd. rewrite lookup_app. specialize (H d Hd). now destruct (lookup (fst d) s). Qed.

Lemma Forall_covers_mono s ext ts : Forall (covers s) ts -> Forall (covers (s ++ ext)) ts.
Proof. intro H. eapply Forall_impl; [|exact H]. intro t. apply covers_mono. Qed.

Lemma covers_tuple s ts : covers s (TTuple ts) <-> Forall (covers s) ts.
Proof.
  rewrite Forall_forall. unfold covers. cbn [structs_of]. setoid_rewrite in_flat_map. firstorder.
Qed.

Variable E : env.
Variable inames : list string.

Definition reg_spec (t : ty) : Prop := forall s,
  set_ok E inames s -> env_ok E t -> (forall d, In d (structs_of t) -> ~ In (fst d) inames) ->
  exists ext, register t s = (t, s ++ ext) /\ set_ok E inames (s ++ ext) /\ covers (s ++ ext) t.

Lemma reg_list_ok ts : Forall reg_spec ts -> forall s,
  set_ok E inames s -> Forall (env_ok E) ts -> (forall d, In d (flat_map structs_of ts) -> ~ In (fst d) inames) ->
  exists ext, reg_list register ts s = (ts, s ++ ext) /\ set_ok E inames (s ++ ext) /\ Forall (covers (s ++ ext)) ts.
Proof.
  induction 1 as [|t ts Ht HF IH]; intros s Hs He Hn.
  - exists []. rewrite app_nil_r. auto.
  - apply Forall_cons_iff in He as [He1 He2]. cbn [flat_map] in Hn.
    destruct (Ht s Hs He1) as (e1 & R1 & S1 & L1); [intros d Hd; apply Hn, in_or_app; now left|].
    destruct (IH (s ++ e1) S1 He2) as (e2 & R2 & S2 & L2); [intros d Hd; apply Hn, in_or_app; now right|].
    exists (e1 ++ e2). cbn [reg_list]. rewrite R1, R2, app_assoc. auto using covers_mono.
Qed.

(* registration leaves the type as it is and extends the set by its structs *)
Lemma register_ok t : reg_spec t.
Proof.
  induction t as [sc|t IHt|k v IHk IHv|ts IH|n fs IH] using ty_ind2; intros s Hs He Hn.
  - exists []. rewrite app_nil_r. split; [reflexivity|split; [assumption|intros d []]].
  - destruct (IHt s Hs He Hn) as (e1 & R1 & S1 & L1). exists e1. cbn [register]. rewrite R1. auto.
  - cbn [structs_of] in Hn. apply Forall_app in He as [Hek Hev].
    destruct (IHk s Hs Hek) as (e1 & R1 & S1 & L1); [intros d Hd; apply Hn, in_or_app; now left|].
    destruct (IHv (s ++ e1) S1 Hev) as (e2 & R2 & S2 & L2); [intros d Hd; apply Hn, in_or_app; now right|].
    exists (e1 ++ e2). cbn [register]. rewrite R1, R2, app_assoc. split; [reflexivity|split; [assumption|]].
    intros d Hd. cbn [structs_of] in Hd. apply in_app_or in Hd as [Hd|Hd]; [now apply (covers_mono _ e2 k L1)|now apply L2].
  - apply env_ok_tuple in He. cbn [structs_of] in Hn.
    destruct (reg_list_ok ts IH s Hs He Hn) as (e1 & R1 & S1 & L1).
    exists e1. cbn [register]. rewrite R1. split; [reflexivity|split; [assumption|now apply covers_tuple]].
  - apply env_ok_struct in He as [Hl He]. cbn [structs_of] in Hn. rewrite flat_map_snd in Hn.
    apply Forall_map in IH.
    destruct (reg_list_ok (map snd fs) IH s Hs He) as (e1 & R1 & S1 & L1); [intros d Hd; apply Hn; now right|].
    apply covers_tuple in L1.
    assert (Hni : ~ In n inames) by (apply (Hn (n, fs)); now left).
    cbn [register]. rewrite reg_fields_list, R1, combine_fst_snd.
    assert (Hres : resolve_collision (s ++ e1) n (print (TStruct n fs)) = n).
    { apply resolve_same. intros sg' blk Hlk. apply lookup_in in Hlk.
      destruct S1 as [HF _]. rewrite Forall_forall in HF. destruct (HF _ Hlk) as [[Hi _]|(fs' & Hl' & Heq)].
      - contradiction.
      - cbn [fst snd] in *. congruence. }
    rewrite Hres. destruct (lookup n (s ++ e1)) as [x|] eqn:Hlk.
    + exists e1. repeat split; [apply S1|apply S1|].
      intros d [<-|Hd]; [cbn [fst]; congruence|apply L1; cbn [structs_of]; now rewrite <- flat_map_snd].
    + exists (e1 ++ [(n, (print (TStruct n fs), Some (struct_block fs)))]). rewrite app_assoc.
      split; [reflexivity|]. split.
      * apply set_ok_snoc; [assumption| |assumption]. right. exists fs. auto.
      * intros d [<-|Hd].
        -- cbn [fst]. rewrite lookup_app, Hlk. cbn. now rewrite String.eqb_refl.
        -- apply (covers_mono _ _ _ L1). cbn [structs_of]. now rewrite <- flat_map_snd.
Qed.
End Register.

(* meta-objects given by their types *)
Record tmethod := { tm_uid : N; tm_name : string; tm_params : list ty; tm_ret : ty; tm_pnames : option (list string) }.
Record tsignal := { tg_uid : N; tg_name : string; tg_params : list ty }.
Record tobject := { to_name : string; to_methods : list tmethod; to_signals : list tsignal; to_props : list tsignal }.

Definition m_of (m : tmethod) : mmethod :=
  {| mm_uid := tm_uid m; mm_name := tm_name m; mm_params := print (TTuple (tm_params m));
     mm_ret := print (tm_ret m); mm_pnames := tm_pnames m |}.
Definition g_of (x : tsignal) : msignal :=
  {| ms_uid := tg_uid x; ms_name := tg_name x; ms_sig := print (TTuple (tg_params x)) |}.
Definition o_of (o : tobject) : mobject :=
  {| mo_name := to_name o; mo_methods := map m_of (to_methods o);
     mo_signals := map g_of (to_signals o); mo_props := map g_of (to_props o) |}.

(* the parameters of a method line: named (MetaMethod.Parameters of the right length, cleaned
   by CleanVarName, separated by ",") or P0, P1, ... (separated by ", ") *)
Fixpoint named_members (i : nat) (names : list string) (ts : list ty) : list (string * ty) :=
  match names, ts with
  | n :: nr, t :: tr => (clean_var_name i n, t) :: named_members (S i) nr tr
  | _, _ => []
  end.
Definition method_members (m : tmethod) : string * list (string * ty) :=
  match tm_pnames m with
  | Some names => if Nat.eqb (List.length names) (List.length (tm_params m))
                  then (",", named_members 0 names (tm_params m))
                  else (", ", tuple_fields 0 (tm_params m))
  | None => (", ", tuple_fields 0 (tm_params m))
  end.

Definition type_ok (E : env) (t : ty) : Prop := wf_ty t = true /\ idl_safe t = true /\ env_ok E t.

Record method_ok (E : env) (m : tmethod) : Prop := {
  mk_ts : Forall (type_ok E) (tm_params m);
  mk_rt : tm_ret m = TS SVoid \/ type_ok E (tm_ret m);
  mk_name : is_iident (tm_name m) = true;
  mk_uid : (tm_uid m < 2 ^ 32)%N;
  mk_uid0 : tm_uid m <> 0%N \/ tm_name m = "registerEvent";
  mk_pnames : Forall (fun p => is_iident (fst p) = true) (snd (method_members m)) }.
Record signal_ok (E : env) (x : tsignal) : Prop := {
  gk_ts : Forall (type_ok E) (tg_params x);
  gk_name : is_iident (tg_name x) = true;
  gk_uid : (tg_uid x < 2 ^ 32)%N;
  gk_uid0 : tg_uid x <> 0%N }.
Record object_ok (E : env) (o : tobject) : Prop := {
  ok_name : is_iident (to_name o) = true;
  ok_noclash : lookup (to_name o) E = None;               (* no struct is named like the interface *)
  ok_methods : Forall (method_ok E) (to_methods o);
  ok_signals : Forall (signal_ok E) (to_signals o);
  ok_props : Forall (signal_ok E) (to_props o);
  ok_muids : NoDup (map tm_uid (to_methods o));
  ok_suids : NoDup (map tg_uid (to_signals o));
  ok_puids : NoDup (map tg_uid (to_props o)) }.
Record package_ok (E : env) (P : list tobject) : Prop := {
  pk_objs : Forall (object_ok E) P;
  pk_names : NoDup (map to_name P) }.

Definition method_text (m : tmethod) : string :=
  method_line (tm_name m) (join (fst (method_members m)) (map param_str (snd (method_members m))))
              (ret_str (tm_ret m)) (tm_uid m).
Definition signal_text (kw : string) (x : tsignal) : string :=
  sigprop_line kw (tg_name x) (join ", " (map param_str (tuple_fields 0 (tg_params x)))) (tg_uid x).

Lemma tuple_fields_length {A} i (l : list A) : List.length (tuple_fields i l) = List.length l.
Proof. revert i; induction l as [|x l IH]; intro i; cbn; [reflexivity|now rewrite IH]. Qed.

Lemma named_params_members i names ts :
  named_params i names ts = map param_str (named_members i names ts).
Proof.
  revert i ts; induction names as [|n names IH]; intros i ts; [reflexivity|].
  destruct ts as [|t ts]; [reflexivity|]. cbn [named_params named_members map]. now rewrite IH.
Qed.

Section Generate.
Open Scope list_scope.

(* the types GenerateIDL registers, in its order *)
Definition method_types (m : tmethod) : list ty := [TTuple (tm_params m); tm_ret m].
Definition signal_types (x : tsignal) : list ty := [TTuple (tg_params x)].
Definition object_types (o : tobject) : list ty :=
  flat_map method_types (to_methods o) ++ flat_map signal_types (to_signals o) ++ flat_map signal_types (to_props o).

(* A step of the generator is stated as: from a good set that has the structs of the types c to a good set that
   has those of c and of the step's own types.  How the set grew (register_ok) is used in register_type and where
   the interface's entry is added, nowhere else. *)
Definition good_for (E : env) (inames : list string) (s : tset) (c : list ty) : Prop :=
  set_ok E inames s /\ Forall (covers s) c.

Section Gen.
Variable E : env.
Variable inames : list string.
Hypothesis Hdisj : forall k, In k inames -> lookup k E = None.

Lemma register_type s c t : good_for E inames s c -> env_ok E t ->
  exists s', register t s = (t, s') /\ good_for E inames s' (c ++ [t]).
Proof.
  intros [Hs Hc] He. destruct (register_ok E inames t s Hs He) as (ext & R & S & C).
  { intros [n fs] Hin Hi. apply (env_ok_in E t n fs He) in Hin. rewrite (Hdisj n Hi) in Hin. discriminate. }
  exists (s ++ ext). split; [exact R|split; [exact S|]].
  apply Forall_app. split; [now apply Forall_covers_mono|constructor; [exact C|constructor]].
Qed.

Lemma types_env_ok ts : Forall (type_ok E) ts -> env_ok E (TTuple ts).
Proof. intro H. apply env_ok_tuple. eapply Forall_impl; [|exact H]. intros t (_ & _ & He). exact He. Qed.

Lemma types_wf ts : Forall (type_ok E) ts -> wf_ty (TTuple ts) = true.
Proof. intro H. cbn. apply forallb_forall. intros t Hin. rewrite Forall_forall in H. now destruct (H t Hin). Qed.

(* generateMethod *)
Lemma gen_method_ok m s c : method_ok E m -> good_for E inames s c ->
  exists s', gen_method (m_of m) s = Some (method_text m, s') /\ good_for E inames s' (c ++ method_types m).
Proof.
  intros [Hts Hrt _ _ _ _] Hg.
  destruct (register_type s c (TTuple (tm_params m)) Hg (types_env_ok _ Hts)) as (s1 & R1 & G1).
  assert (wf_ty (tm_ret m) = true /\ env_ok E (tm_ret m)) as [Hwr Her].
  { destruct Hrt as [->|(H1 & _ & H3)]; [split; [reflexivity|constructor]|auto]. }
  destruct (register_type s1 _ (tm_ret m) G1 Her) as (s2 & R2 & G2).
  exists s2. rewrite <- app_assoc in G2. split; [|exact G2].
  unfold gen_method, m_of. cbn [mm_params mm_ret mm_pnames mm_name mm_uid].
  rewrite (parse_print _ (types_wf _ Hts)), (parse_print _ Hwr), R1, R2.
  unfold method_text, method_members, method_line. cbn [as_members].
  destruct (tm_pnames m) as [names|]; [|reflexivity].
  rewrite tuple_fields_length. destruct (Nat.eqb (List.length names) (List.length (tm_params m))); [|reflexivity].
  cbn [fst snd]. now rewrite tuple_fields_snd, named_params_members.
Qed.

(* generateSignal / generateProperty *)
Lemma gen_sigprop_ok kw single x s c : signal_ok E x -> good_for E inames s c ->
  exists s', gen_sigprop kw single (g_of x) s = Some (signal_text kw x, s') /\ good_for E inames s' (c ++ signal_types x).
Proof.
  intros [Hts _ _ _] Hg.
  destruct (register_type s c (TTuple (tg_params x)) Hg (types_env_ok _ Hts)) as (s1 & R1 & G1).
  exists s1. split; [|exact G1].
  unfold gen_sigprop, g_of. cbn [ms_sig ms_name ms_uid]. rewrite (parse_print _ (types_wf _ Hts)), R1. reflexivity.
Qed.

Lemma gen_all_ok {A B} (f : A -> B) (g : B -> tset -> option (string * tset)) (text : A -> string) (okA : A -> Prop)
      (types : A -> list ty) :
  (forall x s c, okA x -> good_for E inames s c ->
     exists s', g (f x) s = Some (text x, s') /\ good_for E inames s' (c ++ types x)) ->
  forall l s c, Forall okA l -> good_for E inames s c ->
  exists s', gen_all g (map f l) s = Some (String.concat "" (map text l), s') /\ good_for E inames s' (c ++ flat_map types l).
Proof.
  intros Hg l s c Hl. revert s c. induction Hl as [|x l Hx _ IH]; intros s c Hc.
  - exists s. rewrite app_nil_r. auto.
  - destruct (Hg x s c Hx Hc) as (s1 & G1 & C1). destruct (IH s1 _ C1) as (s2 & G2 & C2).
    exists s2. cbn [gen_all map flat_map]. rewrite G1, G2, sconcat_cons, app_assoc. auto.
Qed.
End Gen.

Lemma set_ok_mono E i1 i2 s : (forall k, In k i1 -> In k i2) -> set_ok E i1 s -> set_ok E i2 s.
Proof.
  intros H [HF Hn]. split; [|assumption]. eapply Forall_impl; [|exact HF].
  intros e [[Hi He]|Hs]; [left; split; [now apply H|assumption]|now right].
Qed.

Lemma set_ok_fresh E done s k : set_ok E done s -> ~ In k done -> lookup k E = None -> lookup k s = None.
Proof.
  intros [HF _] Hk Hl. apply lookup_none_notin. intro Hin. apply in_map_iff in Hin as (e & <- & He).
  rewrite Forall_forall in HF. destruct (HF e He) as [[Hi _]|(fs & Hf & _)]; [contradiction|congruence].
Qed.

Definition methods_text (o : tobject) : string := String.concat "" (map method_text (to_methods o)).
Definition signals_text (o : tobject) : string := String.concat "" (map (signal_text "sig") (to_signals o)).
Definition props_text (o : tobject) : string := String.concat "" (map (signal_text "prop") (to_props o)).
Definition itf_text (o : tobject) : string :=
  ("interface " ++ to_name o ++ nl ++ methods_text o ++ signals_text o ++ props_text o ++ "end" ++ nl)%string.

Lemma gen_interface_ok E done o s c : object_ok E o -> good_for E done s c -> ~ In (to_name o) done ->
  (forall k, In k (done ++ [to_name o]) -> lookup k E = None) ->
  exists s', gen_interface (o_of o) s = Some (itf_text o, s') /\
             good_for E (done ++ [to_name o]) s' (c ++ object_types o).
Proof.
  intros [_ Hclash Hms Hss Hps _ _ _] [Hs Hc] Hnew Hdisj.
  set (inames := done ++ [to_name o]) in *.
  assert (Hfresh : lookup (to_name o) s = None) by (now apply (set_ok_fresh E done)).
  assert (Hres : resolve_collision s (to_name o) "o" = to_name o).
  { apply resolve_same. intros sg blk H. congruence. }
  set (s0 := s ++ [(to_name o, (unresolved (to_name o), None))]).
  assert (G0 : good_for E inames s0 c).
  { split; [|now apply Forall_covers_mono].
    apply set_ok_snoc; [|left; cbn [fst snd]; split; [apply in_or_app; right; now left|reflexivity]|assumption].
    apply (set_ok_mono E done); [intros k Hk; apply in_or_app; now left|assumption]. }
  destruct (gen_all_ok E inames m_of gen_method _ _ _ (gen_method_ok E inames Hdisj) (to_methods o) s0 c Hms G0) as (s1 & G1 & I1).
  destruct (gen_all_ok E inames g_of (gen_sigprop "sig" "P0") _ _ _ (gen_sigprop_ok E inames Hdisj "sig" "P0") (to_signals o) s1 _ Hss I1) as (s2 & G2 & I2).
  destruct (gen_all_ok E inames g_of (gen_sigprop "prop" "param") _ _ _ (gen_sigprop_ok E inames Hdisj "prop" "param") (to_props o) s2 _ Hps I2) as (s3 & G3 & I3).
  exists s3. split; [|unfold object_types; now rewrite !app_assoc].
  unfold gen_interface, o_of. cbn [mo_name mo_methods mo_signals mo_props]. rewrite Hres.
  fold (unresolved (to_name o)). fold s0. rewrite G1. cbv beta iota. rewrite G2. cbv beta iota. rewrite G3. reflexivity.
Qed.

Lemma package_disj E P : package_ok E P -> forall k, In k (map to_name P) -> lookup k E = None.
Proof. intros [HP _] k Hk. apply in_map_iff in Hk as (o & <- & Ho). rewrite Forall_forall in HP. apply (HP o Ho). Qed.

Lemma gen_package_ok E P : Forall (object_ok E) P -> forall done s c, NoDup (done ++ map to_name P) ->
  (forall k, In k (done ++ map to_name P) -> lookup k E = None) -> good_for E done s c ->
  exists s', gen_all gen_interface (map o_of P) s = Some (String.concat "" (map itf_text P), s') /\
             good_for E (done ++ map to_name P) s' (c ++ flat_map object_types P).
Proof.
  induction 1 as [|o P Ho _ IH]; intros done s c Hnd Hdisj Hg.
  - exists s. rewrite !app_nil_r. split; [reflexivity|exact Hg].
  - cbn [map] in Hnd, Hdisj.
    assert (Hnew : ~ In (to_name o) done).
    { intro Hin. apply NoDup_remove_2 in Hnd. apply Hnd. apply in_or_app. now left. }
    change (done ++ to_name o :: map to_name P) with (done ++ [to_name o] ++ map to_name P) in Hnd, Hdisj.
    rewrite app_assoc in Hnd, Hdisj.
    destruct (gen_interface_ok E done o s c Ho Hg Hnew) as (s1 & G1 & I1); [intros k Hk; apply Hdisj, in_or_app; now left|].
    destruct (IH (done ++ [to_name o]) s1 _ Hnd Hdisj I1) as (s2 & G2 & I2).
    exists s2. cbn [map gen_all flat_map]. rewrite G1, G2, sconcat_cons. rewrite <- !app_assoc in I2. auto.
Qed.

Definition package_text (pkg : string) (P : list tobject) (S : tset) : string :=
  ("package " ++ pkg ++ nl ++ String.concat "" (map itf_text P) ++ String.concat "" (map gen_struct S))%string.

Theorem gen_idl_ok E pkg P : package_ok E P ->
  exists St, gen_idl pkg (map o_of P) = Some (package_text pkg P St) /\
            set_ok E (map to_name P) St /\ Forall (covers St) (flat_map object_types P).
Proof.
  intro HP.
  destruct (gen_package_ok E P (pk_objs E P HP) [] [] [] (pk_names E P HP) (package_disj E P HP)) as (St & G & S1 & C); [repeat constructor|].
  exists St. cbn [app] in *. unfold gen_idl. rewrite G. auto.
Qed.

End Generate.

(* [line p okrest t nd]: t is one line of a block as the generator writes it, its new line included.
   Last clause: in front of a rest that okrest admits, p reads t as nd and stops before the final new line of t
   (a terminal skips the white space in front of its token, not behind it; the new line goes to whatever reads
   next): hence nl ++ rest, and it is this clause that makes t end in a new line.
   Middle clause: t itself begins as okrest demands, so that the line in front of it can be read.
   First clause: t is not empty; the loop of Kleene gives up (Hang) on an item that consumes nothing. *)
Definition line (p : iparser) (okrest : string -> Prop) (t : string) (nd : inode) : Prop :=
  (1 <= String.length t)%nat /\ (forall r, okrest (t ++ r)) /\
  forall rest, okrest rest -> fst (p (t ++ rest)) = Ok nd (nl ++ rest).

Inductive lines (p : iparser) (okrest : string -> Prop) : string -> list inode -> Prop :=
| lines_nil : lines p okrest "" []
| lines_cons t nd txt ns : line p okrest t nd -> lines p okrest txt ns -> lines p okrest (t ++ txt) (nd :: ns).

Lemma lines_app p okrest t1 n1 t2 n2 :
  lines p okrest t1 n1 -> lines p okrest t2 n2 -> lines p okrest (t1 ++ t2) (n1 ++ n2)%list.
Proof.
  induction 1 as [|t nd txt ns Hl _ IH]; intro H2; [exact H2|]. rewrite sapp_assoc. cbn [app]. constructor; auto.
Qed.

Lemma lines_map {A} p okrest (txt : A -> string) (nd : A -> inode) xs :
  Forall (fun x => line p okrest (txt x) (nd x)) xs -> lines p okrest (String.concat "" (map txt xs)) (map nd xs).
Proof. induction 1 as [|x xs Hx _ IH]; [constructor|]. cbn [map]. rewrite sconcat_cons. now constructor. Qed.

Lemma lines_rest p okrest txt ns tail : lines p okrest txt ns -> okrest tail -> okrest (txt ++ tail).
Proof. intros [|t nd txt' ns' (_ & Hr & _) _] Ht; [exact Ht|]. rewrite sapp_assoc. apply Hr. Qed.

Lemma kleene_lines cb (p : iparser) (okrest : string -> Prop) txt ns (tail : string) :
  (forall s, fst (p (nl ++ s)) = fst (p s)) -> lines p okrest txt ns -> okrest tail -> fst (p tail) = Fail ->
  fst (kleene cb p (nl ++ txt ++ tail)) = Ok (docb cb ns) (nl ++ tail).
Proof.
  intros Hws Hl Htail Hfail. apply kleene_many; [|now rewrite Hws].
  induction Hl as [|t nd txt ns (Hlen & _ & Hp) Hl IH]; [apply many_ok_nil|]. rewrite sapp_assoc.
  apply (many_ok_cons p _ nd (nl ++ txt ++ tail)); [rewrite Hws; apply Hp; exact (lines_rest _ _ _ _ _ Hl Htail)| |exact IH].
  unfold nl. cbn [append String.length]. rewrite (slen_app t). lia.
Qed.

Definition no_comment (s : string) : Prop := strip_prefix "//" (skip_ws s) = None.

Lemma icomments_none s : no_comment s -> fst (icomments s) = Ok (NVal (VStr "")) s.
Proof.
  intro H. unfold icomments. rewrite pand_fst.
  rewrite (and_loop_cons_ok _ [] s NNone s); [reflexivity|].
  apply maybe_fail. rewrite pand_fst, and_loop_cons_fail; [reflexivity|].
  unfold atom. unfold no_comment in H. now rewrite H.
Qed.

Lemma no_comment_nl s : no_comment s -> no_comment (nl ++ s).
Proof. exact (fun H => H). Qed.   (* skip_ws takes the new line: both sides compute to the same *)

Lemma line_no_comment c x : is_alnum_ c = true -> no_comment (String "009" (String c x)).
Proof.
  intro Hc. pose proof (alnum_not_ws c Hc) as Hw. destruct (class_plain is_alnum_ c eq_refl Hc) as (_ & _ & Hs).
  unfold no_comment. cbn [skip_ws]. change (@is_ws "009") with true. cbn iota. rewrite Hw. cbn [strip_prefix]. now rewrite Hs.
Qed.

(* struct and interface blocks: head line, Kleene over the lines, "end" *)
Lemma block_parses cb cbk kw (np bp : iparser) name txt ns rest :
  (forall x, fst (@atom ival kw (kw ++ x)) = Ok (NTerm kw) x) ->
  (forall x, fst (np (" " ++ name ++ nl ++ x)) = Ok (NTerm name) (nl ++ x)) ->
  (forall s, fst (bp (nl ++ s)) = fst (bp s)) ->
  lines bp no_comment txt ns ->
  no_comment rest -> fst (bp ("end" ++ nl ++ rest)) = Fail ->
  fst (pand cb [atom kw; np; icomments; kleene cbk bp; atom "end"; icomments]
            (kw ++ " " ++ name ++ nl ++ txt ++ "end" ++ nl ++ rest)) =
  Ok (docb cb [NTerm kw; NTerm name; NVal (VStr ""); docb cbk ns; NTerm "end"; NVal (VStr "")]) (nl ++ rest).
Proof.
  intros Hkw Hnp Hws Hl Hrest Hend. rewrite pand_fst.
  set (tail := "end" ++ nl ++ rest).
  assert (Htail : no_comment tail) by reflexivity.
  pose proof (kleene_lines cbk bp no_comment txt ns tail Hws Hl Htail Hend) as Hk.
  pose proof (no_comment_nl _ (lines_rest _ _ _ _ _ Hl Htail)) as Hnc.
  erewrite and_loop_cons_ok by apply Hkw.
  erewrite and_loop_cons_ok by apply Hnp.
  erewrite and_loop_cons_ok by now apply icomments_none.
  erewrite and_loop_cons_ok by exact Hk.
  erewrite and_loop_cons_ok by reflexivity.
  erewrite and_loop_cons_ok by (apply icomments_none; now apply no_comment_nl).
  reflexivity.
Qed.

Definition mnode (m : tmethod) : inode :=
  NVal (VMethod (tm_name m) (tm_uid m) (ret_ity (tm_ret m)) (iparams (snd (method_members m)))).
Definition snode_ (x : tsignal) : inode := NVal (VSignal (tg_name x) (tg_uid x) (iparams (tuple_fields 0 (tg_params x)))).
Definition pnode_ (x : tsignal) : inode := NVal (VProp (tg_name x) (tg_uid x) (iparams (tuple_fields 0 (tg_params x)))).

Lemma named_members_snd i names ts : List.length names = List.length ts -> map snd (named_members i names ts) = ts.
Proof.
  revert i ts; induction names as [|n names IH]; intros i [|t ts] H; cbn in *; try discriminate; [reflexivity|].
  f_equal. apply IH. lia.
Qed.

Lemma method_members_snd m : map snd (snd (method_members m)) = tm_params m.
Proof.
  unfold method_members. destruct (tm_pnames m) as [names|]; [|apply tuple_fields_snd].
  destruct (Nat.eqb (List.length names) (List.length (tm_params m))) eqn:E; [|apply tuple_fields_snd].
  apply Nat.eqb_eq in E. now apply named_members_snd.
Qed.

Lemma method_members_sep m : is_sep (fst (method_members m)).
Proof.
  unfold method_members. destruct (tm_pnames m) as [names|]; [|now right].
  destruct (Nat.eqb _ _); [now left|now right].
Qed.

(* every type name is written somewhere in the text, so the parser's fuel (the length of the text) exceeds the
   nesting of every type expression; where a piece stands in a text written with ++ is found by
   [auto with sublen nocore], not counted *)
Lemma len_skip x a y : (String.length x <= String.length y -> String.length x <= String.length (a ++ y))%nat.
Proof. rewrite slen_app. lia. Qed.
Lemma len_here x y b : (String.length x <= String.length y -> String.length x <= String.length (y ++ b))%nat.
Proof. rewrite slen_app. lia. Qed.
#[local] Hint Resolve len_skip len_here le_n : sublen.

Lemma method_line_len x name ps rs uid :
  (String.length x <= String.length ps \/ String.length x <= String.length rs ->
   String.length x <= String.length (method_line name ps rs uid))%nat.
Proof. unfold method_line. intros [H|H]; auto 12 with sublen nocore. Qed.
Lemma sigprop_line_len x kw name ps uid :
  (String.length x <= String.length ps -> String.length x <= String.length (sigprop_line kw name ps uid))%nat.
Proof. unfold sigprop_line. auto 12 with sublen nocore. Qed.

Section Lines.
Variable E : env.
Variable f : nat.

Lemma written_params_ok sep l : Forall (fun p => is_iident (fst p) = true) l -> Forall (type_ok E) (map snd l) ->
  (String.length (join sep (map param_str l)) < f)%nat -> Forall (param_ok f) l.
Proof.
  intros Hn Hts Hf. apply fields_param_ok; [exact Hn|]. apply Forall_forall. intros t Ht.
  rewrite Forall_forall in Hts. destruct (Hts t Ht) as (_ & Hs & _). split; [exact Hs|].
  apply in_map_iff in Ht as (p & <- & Hp). eapply Nat.le_lt_trans; [|exact Hf].
  etransitivity; [exact (idl_depth_le_len _ Hs)|]. etransitivity; [|apply join_in_len, in_map, Hp].
  unfold param_str. auto with sublen nocore.
Qed.

Lemma method_item m rest : method_ok E m -> (String.length (method_text m) < f)%nat ->
  fst (iaction (itype f) (method_text m ++ rest)) = Ok (mnode m) (nl ++ rest).
Proof.
  intros [Hts Hrt Hname Hu Hu0 Hpn] Hf. unfold iaction.
  apply (por_cons_ok (Some nodify_first) _ _ _ (mnode m) (nl ++ rest)).
  unfold method_text, mnode in *. apply method_line_parses; [assumption|assumption|apply method_members_sep| |].
  - apply (written_params_ok (fst (method_members m))); [assumption|now rewrite method_members_snd|].
    eapply Nat.le_lt_trans; [|exact Hf]. apply method_line_len. left. apply le_n.
  - destruct Hrt as [->|(_ & Hs & _)]; [now left|]. right. split; [assumption|].
    eapply Nat.le_lt_trans; [|exact Hf]. etransitivity; [exact (idl_depth_le_len _ Hs)|]. apply method_line_len. right.
    unfold ret_str. destruct (String.eqb_spec (print (tm_ret m)) "v") as [Ev|_]; [apply print_v in Ev; now rewrite Ev in Hs|].
    auto with sublen nocore.
Qed.

(* a signal or property line is no method line (and a property line no signal line): the keyword differs *)
Lemma sigprop_item x rest : signal_ok E x ->
  ((String.length (signal_text "sig" x) < f)%nat ->
   fst (iaction (itype f) (signal_text "sig" x ++ rest)) = Ok (snode_ x) (nl ++ rest)) /\
  ((String.length (signal_text "prop" x) < f)%nat ->
   fst (iaction (itype f) (signal_text "prop" x ++ rest)) = Ok (pnode_ x) (nl ++ rest)).
Proof.
  intros Hx.
  assert (Hl : forall kw, (String.length (signal_text kw x) < f)%nat -> Forall (param_ok f) (tuple_fields 0 (tg_params x))).
  { intros kw Hf. apply (written_params_ok ", "); [apply tuple_field_names_ok|rewrite tuple_fields_snd; apply Hx|].
    eapply Nat.le_lt_trans; [|exact Hf]. apply sigprop_line_len, le_n. }
  destruct Hx as [Hts Hname Hu Hu0]. unfold iaction, signal_text in *. split; intro Hf.
  - rewrite por_cons_fail by reflexivity.
    apply (por_cons_ok (Some nodify_first) _ _ _ (snode_ x) (nl ++ rest)), (sigprop_line_parses f (Some inodify_signal) "sig");
      [reflexivity|assumption|assumption|now right|exact (Hl _ Hf)].
  - do 2 rewrite por_cons_fail by reflexivity.
    apply (por_cons_ok (Some nodify_first) _ _ _ (pnode_ x) (nl ++ rest)), (sigprop_line_parses f (Some inodify_property) "prop");
      [reflexivity|assumption|assumption|now right|exact (Hl _ Hf)].
Qed.
End Lines.

Definition mentry (m : tmethod) := (tm_uid m, (tm_name m, ret_ity (tm_ret m), iparams (snd (method_members m)))).
Definition gentry (x : tsignal) := (tg_uid x, (tg_name x, iparams (tuple_fields 0 (tg_params x)))).

Lemma action_list_methods ms : forall rest c Ms Ss Ps,
  Forall (fun m => tm_uid m <> 0%N \/ tm_name m = "registerEvent") ms ->
  NoDup (map fst Ms ++ map tm_uid ms) ->
  action_list (map mnode ms ++ rest) c Ms Ss Ps = action_list rest c (Ms ++ map mentry ms) Ss Ps.
Proof.
  intros rest c Ms Ss Ps H0. revert Ms. induction H0 as [|m ms Hm _ IH]; intros Ms Hnd; [cbn; now rewrite app_nil_r|].
  cbn [map app mnode action_list].
  assert (Hc : N.eqb (tm_uid m) 0 && negb (String.eqb (tm_name m) "registerEvent") = false).
  { destruct Hm as [Hm| ->]; [apply N.eqb_neq in Hm; now rewrite Hm|rewrite String.eqb_refl; apply andb_false_r]. }
  rewrite Hc, (upsert_fresh _ _ _ _ Hnd), IH; [now rewrite <- app_assoc|rewrite map_app, <- app_assoc; exact Hnd].
Qed.

Lemma action_list_signals xs : forall rest c Ms Ss Ps,
  Forall (fun x => tg_uid x <> 0%N) xs -> NoDup (map fst Ss ++ map tg_uid xs) ->
  action_list (map snode_ xs ++ rest) c Ms Ss Ps = action_list rest c Ms (Ss ++ map gentry xs) Ps.
Proof.
  intros rest c Ms Ss Ps H0. revert Ss. induction H0 as [|x xs Hx _ IH]; intros Ss Hnd; [cbn; now rewrite app_nil_r|].
  cbn [map app snode_ action_list]. apply N.eqb_neq in Hx.
  rewrite Hx, (upsert_fresh _ _ _ _ Hnd), IH; [now rewrite <- app_assoc|rewrite map_app, <- app_assoc; exact Hnd].
Qed.

Lemma action_list_props xs : forall c Ms Ss Ps,
  Forall (fun x => tg_uid x <> 0%N) xs -> NoDup (map fst Ps ++ map tg_uid xs) ->
  action_list (map pnode_ xs) c Ms Ss Ps = NVal (VItf "" Ms Ss (Ps ++ map gentry xs)).
Proof.
  intros c Ms Ss Ps H0. revert Ps. induction H0 as [|x xs Hx _ IH]; intros Ps Hnd; [cbn; now rewrite app_nil_r|].
  cbn [map pnode_ action_list]. apply N.eqb_neq in Hx.
  rewrite Hx, (upsert_fresh _ _ _ _ Hnd), IH; [now rewrite <- app_assoc|rewrite map_app, <- app_assoc; exact Hnd].
Qed.

Definition action_nodes (o : tobject) : list inode :=
  (map mnode (to_methods o) ++ map snode_ (to_signals o) ++ map pnode_ (to_props o))%list.
Definition itf_val (o : tobject) : ival :=
  VItf (to_name o) (map mentry (to_methods o)) (map gentry (to_signals o)) (map gentry (to_props o)).

Lemma action_list_object E o : object_ok E o ->
  inodify_action_list (action_nodes o) = NVal (VItf "" (map mentry (to_methods o)) (map gentry (to_signals o)) (map gentry (to_props o))).
Proof.
  intros [_ _ Hms Hss Hps Hm Hs Hp]. unfold inodify_action_list, action_nodes.
  rewrite action_list_methods; [|eapply Forall_impl; [|exact Hms]; intros m Hm'; apply Hm'|exact Hm].
  rewrite action_list_signals; [|eapply Forall_impl; [|exact Hss]; intros x Hx; apply Hx|exact Hs].
  rewrite action_list_props; [reflexivity|eapply Forall_impl; [|exact Hps]; intros x Hx; apply Hx|exact Hp].
Qed.

Lemma action_lines E f o : object_ok E o -> (String.length (itf_text o) < f)%nat ->
  lines (iaction (itype f)) no_comment (methods_text o ++ signals_text o ++ props_text o) (action_nodes o).
Proof.
  intros [_ _ Hms Hss Hps _ _ _] Hf. unfold itf_text in Hf. rewrite !slen_app in Hf.
  assert (Hlen : forall A (txt : A -> string) xs x, In x xs ->
            (String.length (String.concat "" (map txt xs)) < f -> String.length (txt x) < f)%nat).
  { intros A txt xs x Hx. apply Nat.le_lt_trans, concat_in_len, in_map, Hx. }
  rewrite Forall_forall in Hms, Hss, Hps.
  (* a line begins with a tab and its keyword: that it is not empty and begins no comment holds by computation *)
  apply lines_app; [|apply lines_app]; apply lines_map, Forall_forall; intros x Hx;
    (split; [apply le_n_S, Nat.le_0_l|split; [intro; reflexivity|intros r _]]).
  - apply (method_item E); [now apply Hms|]. apply (Hlen _ _ _ _ Hx). unfold methods_text in Hf. lia.
  - apply (sigprop_item E f x r (Hss x Hx)), (Hlen _ _ _ _ Hx). unfold signals_text in Hf. lia.
  - apply (sigprop_item E f x r (Hps x Hx)), (Hlen _ _ _ _ Hx). unfold props_text in Hf. lia.
Qed.

Lemma itf_block_parses E f o rest : object_ok E o -> (String.length (itf_text o) < f)%nat -> no_comment rest ->
  fst (ideclaration (itype f) (itf_text o ++ rest)) = Ok (NVal (itf_val o)) (nl ++ rest).
Proof.
  intros Ho Hf Hrest.
  replace (itf_text o ++ rest)
    with ("interface" ++ " " ++ to_name o ++ nl ++ (methods_text o ++ signals_text o ++ props_text o) ++ "end" ++ nl ++ rest)
    by (unfold itf_text; now rewrite !sapp_assoc).
  unfold ideclaration. do 2 rewrite por_cons_fail by reflexivity.
  apply (por_cons_ok (Some nodify_first) _ _ _ (NVal (itf_val o)) (nl ++ rest)). unfold iinterface.
  rewrite (block_parses _ _ "interface" iident (iaction (itype f)) (to_name o) _ (action_nodes o) rest).
  - cbn [docb]. now rewrite (action_list_object E o Ho).
  - reflexivity.
  - intro x. cbn [append]. rewrite iident_ws. apply iident_ok; [apply Ho|reflexivity].
  - reflexivity.
  - now apply (action_lines E).
  - exact Hrest.
  - reflexivity.
Qed.

Definition member_text (p : string * ty) : string := tab ++ fst p ++ ": " ++ idl_name (snd p) ++ nl.
Definition member_node (p : string * ty) : inode := NVal (VMember (fst p) (ity_of (snd p))).
Definition struct_text (n : string) (fs : list (string * ty)) : string :=
  "struct " ++ n ++ nl ++ String.concat "" (map member_text fs) ++ "end" ++ nl.
Definition struct_val (n : string) (fs : list (string * ty)) : ival :=
  VStruct n (map (fun p => (fst p, ity_of (snd p))) fs).

Lemma gen_struct_text n sg fs : gen_struct (n, (sg, Some (struct_block fs))) = struct_text n fs.
Proof. unfold gen_struct, struct_text, struct_block. cbn [fst snd]. now rewrite map_map. Qed.

Lemma is_ident_iident s : is_ident s = true -> is_iident s = true.
Proof.
  destruct s as [|c r]; [discriminate|]. cbn. intro H. apply andb_prop in H as [Hc Hr].
  unfold is_alpha_. now rewrite Hc, Hr.
Qed.

Lemma members_of_nodes_map fs : members_of_nodes (map member_node fs) = Some (iparams fs).
Proof. induction fs as [|p fs IH]; cbn; [reflexivity|now rewrite IH]. Qed.

Lemma member_item f p rest : is_ident (fst p) = true -> idl_safe (snd p) = true -> (idl_depth (snd p) < f)%nat ->
  no_comment rest -> fst (imember (itype f) (member_text p ++ rest)) = Ok (member_node p) (nl ++ rest).
Proof.
  intros Hn Hs Hd Hr. unfold member_text, tab. rewrite !sapp_assoc. cbn [append].
  unfold imember. rewrite pand_fst.
  erewrite and_loop_cons_ok by (change (iident (String "009" ?s)) with (iident s); apply iident_ok; [now apply is_ident_iident|reflexivity]).
  erewrite and_loop_cons_ok by reflexivity.
  erewrite and_loop_cons_ok by (rewrite itype_ws; apply itype_name; [assumption|assumption|reflexivity]).
  erewrite and_loop_cons_ok by (apply icomments_none; now apply no_comment_nl).
  reflexivity.
Qed.

Lemma struct_text_len n fs p : In p fs -> (String.length (idl_name (snd p)) <= String.length (struct_text n fs))%nat.
Proof.
  intro H. pose proof (concat_in_len _ _ (in_map member_text _ _ H)) as Hl.
  apply Nat.le_trans with (String.length (member_text p)); [unfold member_text|unfold struct_text]; auto 12 with sublen nocore.
Qed.

(* what may follow a declaration: nothing, a struct block or an interface block *)
Definition decl_rest (rest : string) : Prop :=
  rest = "" \/ (exists x, rest = String "s" x) \/ (exists x, rest = String "i" x).
Lemma decl_rest_no_comment rest : decl_rest rest -> no_comment rest.
Proof. intros [->|[(x & ->)|(x & ->)]]; reflexivity. Qed.

Lemma struct_block_parses f n fs rest : idl_safe (TStruct n fs) = true ->
  (String.length (struct_text n fs) < f)%nat -> decl_rest rest ->
  fst (ideclaration (itype f) (struct_text n fs ++ rest)) = Ok (NVal (struct_val n fs)) (nl ++ rest).
Proof.
  intros Hs Hf Hrest. cbn [idl_safe] in Hs. apply andb_prop in Hs as [Hn Hfs].
  destruct (no_basic_prefix n Hn) as (Hsn & _). rewrite forallb_forall in Hfs.
  replace (struct_text n fs ++ rest)
    with ("struct" ++ " " ++ n ++ nl ++ String.concat "" (map member_text fs) ++ "end" ++ nl ++ rest)
    by (unfold struct_text; now rewrite !sapp_assoc).
  unfold ideclaration.
  apply (por_cons_ok (Some nodify_first) _ _ _ (NVal (struct_val n fs)) (nl ++ rest)). unfold istructure.
  rewrite (block_parses _ _ "struct" type_ident (imember (itype f)) n _ (map member_node fs) rest).
  - cbn [docb]. unfold inodify_member_list. now rewrite members_of_nodes_map.
  - reflexivity.
  - intro x. change (type_ident (" " ++ ?s)) with (type_ident s). apply type_ident_ok; [assumption|reflexivity].
  - reflexivity.
  - apply lines_map, Forall_forall. intros p Hp.
    specialize (Hfs p Hp). apply andb_prop in Hfs as [Hi Hps].
    destruct (is_ident_inv _ Hi) as (c & r & E & Hc & _).
    split; [apply le_n_S, Nat.le_0_l|split; [intro r0; unfold member_text; rewrite E; apply line_no_comment, alpha_alnum, Hc|]].
    intros r0 Hr. apply member_item; [assumption|assumption| |assumption]. eapply Nat.le_lt_trans; [|exact Hf].
    etransitivity; [exact (idl_depth_le_len _ Hps)|exact (struct_text_len n fs p Hp)].
  - now apply decl_rest_no_comment.
  - (* the member parser reads "end" as a name and then misses the colon *)
    unfold imember. rewrite pand_fst.
    erewrite and_loop_cons_ok by (apply (iident_ok "end" (nl ++ rest)); reflexivity).
    rewrite and_loop_cons_fail by (unfold atom, nl; cbn [append skip_ws]; change (@is_ws "010") with true; cbn iota;
                   destruct Hrest as [->|[(x & ->)|(x & ->)]]; reflexivity).
    reflexivity.
Qed.

Definition is_pkg_name (s : string) : bool :=
  match s with EmptyString => false | String c r => is_alpha_ c && all_chars is_pkg_char r end.

Lemma pkg_ident_ok p rest : is_pkg_name p = true ->
  match rest with EmptyString => True | String c _ => is_pkg_char c = false end ->
  fst (pkg_ident (String " " (p ++ rest))) = Ok (NTerm p) rest.
Proof.
  intros Hp Hr. destruct p as [|c r]; [discriminate|]. cbn in Hp. apply andb_prop in Hp as [Hc Ha].
  change (pkg_ident (String " " ?s)) with (pkg_ident s). apply token1_ok; try assumption.
  now apply alnum_not_ws, alpha__alnum.
Qed.

(* the structs the struct part of the text declares: the entries of the set that are structs of E *)
Definition struct_decls (E : env) (St : tset) : list (string * list (string * ty)) :=
  flat_map (fun e => match snd (snd e), lookup (fst e) E with Some _, Some fs => [(fst e, fs)] | _, _ => [] end) St.
Definition sval (d : string * list (string * ty)) : ival := struct_val (fst d) (snd d).

Lemma struct_decls_in E St d : In d (struct_decls E St) -> lookup (fst d) E = Some (snd d).
Proof.
  unfold struct_decls. intro H. apply in_flat_map in H as (e & _ & H).
  destruct (snd (snd e)); [|destruct H]. destruct (lookup (fst e) E) eqn:El; [|destruct H].
  destruct H as [<-|[]]. exact El.
Qed.

Definition decl_vals (E : env) (P : list tobject) (S : tset) : list ival :=
  (map itf_val P ++ flat_map (fun e => match snd (snd e), lookup (fst e) E with
                                        | Some _, Some fs => [struct_val (fst e) fs]
                                        | _, _ => []
                                        end) S)%list.

(* decl_vals spells the struct part out, so that the statements over it need no further notion; the proofs go
   through struct_decls, whose entries also give the texts of the blocks and the scope *)
Lemma decl_vals_eq E P St : decl_vals E P St = (map itf_val P ++ map sval (struct_decls E St))%list.
Proof.
  unfold decl_vals, struct_decls. f_equal. induction St as [|e St IH]; [reflexivity|].
  cbn [flat_map]. rewrite map_app, <- IH. f_equal.
  destruct (snd (snd e)); [|reflexivity]. now destruct (lookup (fst e) E).
Qed.

Lemma decls_of_nodes_vals (vs : list ival) : Forall (fun v => is_sig_type (NVal v) = true) vs ->
  decls_of_nodes (map (@NVal ival) vs) = Some vs.
Proof.
  induction 1 as [|v vs Hv HF IH]; [reflexivity|]. cbn [map decls_of_nodes]. rewrite Hv, IH. reflexivity.
Qed.

Lemma gen_struct_decls E inames St : Forall (entry_ok E inames) St ->
  String.concat "" (map gen_struct St) = String.concat "" (map (fun d => struct_text (fst d) (snd d)) (struct_decls E St)).
Proof.
  unfold struct_decls. induction 1 as [|e St He HF IH]; [reflexivity|].
  cbn [map flat_map]. rewrite sconcat_cons, map_app, sconcat_app, IH. f_equal.
  destruct e as [k [sg blk]]. destruct He as [[Hi Heq]|(fs & Hl & Heq)]; cbn [fst snd] in *; injection Heq as -> ->.
  - reflexivity.
  - rewrite Hl. cbn [map fst snd String.concat]. apply gen_struct_text.
Qed.

Definition env_safe (E : env) : Prop := Forall (fun d => idl_safe (TStruct (fst d) (snd d)) = true) E.

Lemma env_safe_member E n fs p : env_safe E -> lookup n E = Some fs -> In p fs -> idl_safe (snd p) = true.
Proof.
  intros HE Hl Hp. unfold env_safe in HE. rewrite Forall_forall in HE. pose proof (HE (n, fs) (lookup_in _ _ _ Hl)) as H.
  cbn [fst snd idl_safe] in H. apply andb_prop in H as [_ H]. rewrite forallb_forall in H.
  specialize (H p Hp). now apply andb_prop in H.
Qed.

(* the declarations of a package: the interface blocks, then the struct blocks *)
Lemma decl_lines E P St f : package_ok E P -> env_safe E ->
  (String.length (String.concat "" (map itf_text P)) < f)%nat ->
  (String.length (String.concat "" (map (fun d => struct_text (fst d) (snd d)) (struct_decls E St))) < f)%nat ->
  lines (ideclaration (itype f)) decl_rest
        (String.concat "" (map itf_text P) ++ String.concat "" (map (fun d => struct_text (fst d) (snd d)) (struct_decls E St)))
        (map (@NVal ival) (decl_vals E P St)).
Proof.
  intros [HP _] HE Hf1 Hf2. rewrite decl_vals_eq, map_app, !map_map. rewrite Forall_forall in HP.
  apply lines_app; apply lines_map, Forall_forall.
  - intros o Ho. split; [cbn; lia|]. split; [intro r; right; right; eexists; reflexivity|]. intros rest Hrest.
    apply (itf_block_parses E); [now apply HP| |now apply decl_rest_no_comment].
    eapply Nat.le_lt_trans; [exact (concat_in_len _ _ (in_map itf_text _ _ Ho))|exact Hf1].
  - intros [n fs] Hd. split; [cbn; lia|]. split; [intro r; right; left; eexists; reflexivity|]. intros rest Hrest.
    apply struct_decls_in in Hd as Hl. cbn [fst snd] in *.
    apply struct_block_parses; [| |assumption].
    + unfold env_safe in HE. rewrite Forall_forall in HE. apply (HE (n, fs)). now apply lookup_in.
    + eapply Nat.le_lt_trans; [exact (concat_in_len _ _ (in_map (fun d => struct_text (fst d) (snd d)) _ _ Hd))|exact Hf2].
Qed.

Theorem parse_package_ok E pkg P St : package_ok E P -> env_safe E -> is_pkg_name pkg = true ->
  set_ok E (map to_name P) St ->
  fst (parse_package (package_text pkg P St)) = Ok (NVal (VPkg pkg (decl_vals E P St))) nl.
Proof.
  intros HP HE Hpkg HS. unfold parse_package. set (T := package_text pkg P St).
  set (f := S (String.length T)).
  set (body := String.concat "" (map itf_text P) ++ String.concat "" (map (fun d => struct_text (fst d) (snd d)) (struct_decls E St))).
  assert (ET : T = "package " ++ pkg ++ nl ++ body ++ "").
  { unfold T, package_text, body. now rewrite (gen_struct_decls E _ St (proj1 HS)), sapp_nil_r. }
  assert (Hl : lines (ideclaration (itype f)) decl_rest body (map (@NVal ival) (decl_vals E P St))).
  { apply decl_lines; auto; unfold f; rewrite ET, sapp_nil_r; apply le_n_S; unfold body; auto 8 with sublen nocore. }
  assert (Hk : fst (kleene (Some inodify_decl_list) (ideclaration (itype f)) (nl ++ body ++ "")) =
               Ok (NVal (VDecls (decl_vals E P St))) (nl ++ "")).
  { rewrite (kleene_lines _ (ideclaration (itype f)) decl_rest body _ "" (fun s => eq_refl) Hl); [|now left|reflexivity].
    cbn [docb]. unfold inodify_decl_list. rewrite decls_of_nodes_vals; [reflexivity|].
    rewrite decl_vals_eq. apply Forall_app. split; apply Forall_forall; intros v Hv; apply in_map_iff in Hv as (x & <- & _); reflexivity. }
  rewrite ET. unfold ipackage. rewrite pand_fst. cbn [append].
  erewrite and_loop_cons_ok by (unfold ipackage_name; rewrite pand_fst;
                 erewrite (and_loop_cons_ok _ [] _ (NVal (VStr pkg))); [reflexivity|];
                 apply (maybe_ok (Some nodify_first) _ _ (NVal (VStr pkg))); rewrite pand_fst;
                 erewrite and_loop_cons_ok by reflexivity;
                 erewrite and_loop_cons_ok by (apply pkg_ident_ok; [assumption|reflexivity]);
                 erewrite and_loop_cons_ok by (apply icomments_none, no_comment_nl, decl_rest_no_comment, (lines_rest _ _ _ _ _ Hl); now left);
                 reflexivity).
  erewrite and_loop_cons_ok by exact Hk.
  reflexivity.
Qed.

Definition decl_entry (v : ival) : option (string * sentry) :=
  match v with
  | VStruct name ms => Some (name, ScStruct name ms)
  | VItf name _ _ _ => Some (name, ScItf)
  | _ => None
  end.
Fixpoint first_decl (k : string) (ds : list ival) : option sentry :=
  match ds with
  | [] => None
  | d :: r => match decl_entry d with
              | Some (n, e) => if String.eqb n k then Some e else first_decl k r
              | None => first_decl k r
              end
  end.

(* scope.Add: the first declaration of a name stays *)
Lemma lookup_scope_add k n (e : sentry) (acc : scope) :
  lookup k (match lookup n acc with Some _ => acc | None => acc ++ [(n, e)] end)%list =
  match lookup k acc with Some v => Some v | None => if String.eqb n k then Some e else None end.
Proof.
  destruct (lookup n acc) eqn:En; [|exact (lookup_app k acc [(n, e)])].
  destruct (lookup k acc) eqn:Ek; [reflexivity|]. destruct (String.eqb_spec n k) as [->|_]; [congruence|reflexivity].
Qed.

Lemma scope_of_lookup k ds : forall acc,
  lookup k (scope_of ds acc) = match lookup k acc with Some v => Some v | None => first_decl k ds end.
Proof.
  induction ds as [|d ds IH]; intro acc; cbn [scope_of first_decl]; [now destruct (lookup k acc)|].
  destruct d; cbn [decl_entry]; try apply IH; rewrite IH, lookup_scope_add;
    (destruct (lookup k acc); [reflexivity|now destruct (String.eqb name k)]).
Qed.

Lemma first_decl_app_skip k l1 l2 :
  (forall d n e, In d l1 -> decl_entry d = Some (n, e) -> n <> k) -> first_decl k (l1 ++ l2) = first_decl k l2.
Proof.
  induction l1 as [|d l1 IH]; intro H; [reflexivity|]. cbn [app first_decl].
  rewrite IH by (intros d' n' e' Hin; apply H; now right).
  destruct (decl_entry d) as [[n e]|] eqn:Ed; [|reflexivity].
  destruct (String.eqb_spec n k) as [->|_]; [exfalso; now apply (H d k e (or_introl eq_refl))|reflexivity].
Qed.

Lemma struct_vals_first E inames St k fs : Forall (entry_ok E inames) St -> (forall x, In x inames -> lookup x E = None) ->
  lookup k E = Some fs -> lookup k St <> None ->
  first_decl k (map sval (struct_decls E St)) = Some (ScStruct k (iparams fs)).
Proof.
  intros HF Hd Hk. unfold struct_decls. induction HF as [|[n [sg blk]] St He HF IH]; intro Hl; [now elim Hl|].
  cbn [flat_map fst snd]. rewrite map_app. cbn [lookup] in Hl. destruct (String.eqb_spec n k) as [->|Hne].
  - destruct He as [[Hi _]|(fs' & Hl' & Heq)]; cbn [fst snd] in *.
    + rewrite (Hd k Hi) in Hk. discriminate.
    + injection Heq as _ ->. rewrite Hk. cbn. now rewrite String.eqb_refl.
  - rewrite first_decl_app_skip; [now apply IH|].
    intros d n' e Hin Hde. destruct blk; [|destruct Hin]. destruct (lookup n E); [|destruct Hin].
    destruct Hin as [<-|[]]. cbn in Hde. now injection Hde as <- _.
Qed.

Lemma scope_struct E P St k fs : package_ok E P -> set_ok E (map to_name P) St ->
  lookup k E = Some fs -> lookup k St <> None ->
  lookup k (scope_of (decl_vals E P St) []) = Some (ScStruct k (iparams fs)).
Proof.
  intros HP HS Hk Hl. rewrite scope_of_lookup, decl_vals_eq. cbn [lookup].
  rewrite first_decl_app_skip.
  - now apply (struct_vals_first E (map to_name P)); [apply HS|apply package_disj| |].
  - intros d n e Hin Hde. apply in_map_iff in Hin as (o & <- & Ho). cbn in Hde. injection Hde as <- _.
    intros <-. rewrite (package_disj E P HP (to_name o)) in Hk; [discriminate|]. now apply in_map.
Qed.

Lemma scope_has_structs sc t :
  Forall (fun d => lookup (fst d) sc = Some (ScStruct (fst d) (iparams (snd d)))) (structs_of t) -> scope_has sc t.
Proof.
  induction t as [s|t IHt|k v IHk IHv|ts IH|n fs IH] using ty_ind2; cbn [structs_of scope_has]; intro H.
  - exact I.
  - now apply IHt.
  - apply Forall_app in H as [Hk Hv]. split; [now apply IHk|now apply IHv].
  - apply Forall_flat_map in H. induction IH as [|u ts Hu _ IHl]; [exact I|]. apply Forall_cons_iff in H as [H1 H2]. split; [apply Hu|apply IHl]; assumption.
  - apply Forall_cons_iff in H as [Hl H]. apply Forall_flat_map in H. split; [exact Hl|clear Hl].
    induction IH as [|x fs Hx _ IHl]; [exact I|]. apply Forall_cons_iff in H as [H1 H2]. split; [apply Hx|apply IHl]; assumption.
Qed.

Lemma scope_has_covered E P St t : package_ok E P -> set_ok E (map to_name P) St ->
  env_ok E t -> covers St t -> scope_has (scope_of (decl_vals E P St) []) t.
Proof.
  intros HP HS He Hc. apply scope_has_structs, Forall_forall. intros [n fs] Hd.
  apply (scope_struct E P St n fs HP HS); [exact (env_ok_in E t n fs He Hd)|exact (Hc _ Hd)].
Qed.

Definition snames (t : ty) : list string := map fst (structs_of t).

Lemma struct_inside_depth t : forall n fs, In (n, fs) (structs_of t) -> ty_depth (TStruct n fs) <= ty_depth t.
Proof.
  induction t as [s|t IHt|k v IHk IHv|ts IH|m gs IH] using ty_ind2; intros n fs Hin; cbn [structs_of] in Hin.
  - destruct Hin.
  - specialize (IHt n fs Hin). cbn [ty_depth] in *. lia.
  - apply in_app_or in Hin as [Hin|Hin]; [specialize (IHk n fs Hin)|specialize (IHv n fs Hin)]; cbn [ty_depth] in *; lia.
  - apply in_flat_map in Hin as (t & Ht & Hin). rewrite Forall_forall in IH. specialize (IH t Ht n fs Hin).
    pose proof (fold_max_in ty_depth t ts Ht). cbn [ty_depth] in *. lia.
  - destruct Hin as [Heq|Hin]; [inversion Heq; subst; apply le_n|].
    apply in_flat_map in Hin as (f & Hf & Hin). rewrite Forall_forall in IH. specialize (IH f Hf n fs Hin).
    pose proof (fold_max_in (fun f => ty_depth (snd f)) f gs Hf). cbn [ty_depth] in *. lia.
Qed.

(* a struct does not contain a struct of its own name *)
Lemma struct_name_fresh E n fs : env_ok E (TStruct n fs) -> ~ In n (snames (TTuple (map snd fs))).
Proof.
  intros He Hin. apply env_ok_struct in He as [Hl He]. rewrite Forall_forall in He.
  apply in_map_iff in Hin as ([n' fs'] & En & Hin). cbn in En. subst n'.
  cbn [structs_of] in Hin. apply in_flat_map in Hin as (t & Ht & Hin).
  pose proof (env_ok_in E t n fs' (He t Ht) Hin) as Hef. rewrite Hl in Hef. injection Hef as <-.
  pose proof (struct_inside_depth t n fs Hin) as Hs. apply in_map_iff in Ht as (f & <- & Hf).
  pose proof (fold_max_in (fun f => ty_depth (snd f)) f fs Hf). cbn [ty_depth] in Hs. lia.
Qed.

Lemma snames_member t ts : In t ts -> incl (snames t) (snames (TTuple ts)).
Proof. intros Ht x Hx. apply in_map_iff in Hx as (d & <- & Hd). apply in_map. cbn [structs_of]. apply in_flat_map. eauto. Qed.

Lemma snames_struct n fs : snames (TStruct n fs) = n :: snames (TTuple (map snd fs)).
Proof. unfold snames. cbn [structs_of map fst]. now rewrite flat_map_snd. Qed.

(* The nesting through the structs: an expression adds its own nesting, each struct level at most that of a member
   expression plus one; and there are at most as many struct levels as names, since each level takes its own name
   out of L. *)
Lemma ty_depth_names E M t : env_ok E t ->
  Forall (fun d => Forall (fun p => idl_depth (snd p) <= M) (snd d)) (structs_of t) ->
  forall L, incl (snames t) L -> ty_depth t <= idl_depth t + List.length L * S M.
Proof.
  induction t as [s|t IHt|k v IHk IHv|ts IH|n fs IH] using ty_ind2; intros He H L HL; cbn [ty_depth idl_depth structs_of] in *.
  - lia.
  - specialize (IHt He H L HL). lia.
  - apply Forall_app in He as [Hek Hev]. apply Forall_app in H as [Hk Hv].
    unfold snames in HL. cbn [structs_of] in HL. rewrite map_app in HL. apply incl_app_inv in HL as [Lk Lv].
    specialize (IHk Hek Hk L Lk). specialize (IHv Hev Hv L Lv). lia.
  - apply env_ok_tuple in He. rewrite Forall_flat_map in H. rewrite Forall_forall in IH, He, H.
    cbn [Nat.add]. apply le_n_S, fold_max_le. intros t Ht.
    specialize (IH t Ht (He t Ht) (H t Ht) L (fun x Hx => HL x (snames_member t ts Ht x Hx))).
    pose proof (fold_max_in idl_depth t ts Ht). lia.
  - pose proof (struct_name_fresh E n fs He) as Hfresh. apply env_ok_struct in He as [Hl He].
    rewrite snames_struct in HL. apply incl_cons_inv in HL as [Hn HL].
    apply Forall_cons_iff in H as [Hfs H']. cbn [snd] in Hfs. rewrite Forall_flat_map in H'.
    pose proof (Nat.mul_le_mono_r _ _ (S M) (remove_length_lt string_dec L n Hn)) as Hlen. cbn [Nat.mul] in Hlen.
    enough (fold_right (fun f a => Nat.max (ty_depth (snd f)) a) 0 fs <= M + List.length (remove string_dec n L) * S M) by lia.
    apply fold_max_le. intros f Hf. rewrite Forall_forall in IH, He, H', Hfs. apply in_map with (f := snd) in Hf as Hf'.
    specialize (IH f Hf (He _ Hf') (H' f Hf) (remove string_dec n L)). specialize (Hfs f Hf).
    enough (incl (snames (snd f)) (remove string_dec n L)) by (specialize (IH H); lia).
    intros x Hx. apply (snames_member _ _ Hf') in Hx. apply in_in_remove; [intros ->; contradiction|now apply HL].
Qed.

Fixpoint ity_depth (t : ity) : nat :=
  match t with
  | IBasic _ | IRef _ => 1
  | IList e => S (ity_depth e)
  | IMap k v => S (Nat.max (ity_depth k) (ity_depth v))
  | ITuple ts => S (fold_right (fun t a => Nat.max (ity_depth t) a) 0 ts)
  end.
Definition scope_md (sc : scope) : nat :=
  fold_right (fun e a => match snd e with
                         | ScStruct _ ms => Nat.max (fold_right (fun m b => Nat.max (ity_depth (snd m)) b) 0 ms) a
                         | ScItf => a end) 0 sc.

Lemma sig_fuel_eq sc t : sig_fuel sc t = (S (List.length sc)) * (S (S (scope_md sc))) + ity_depth t + 1.
Proof. reflexivity. Qed.

Lemma ity_depth_of t : idl_safe t = true -> ity_depth (ity_of t) = idl_depth t.
Proof.
  induction t as [s|t IHt|k v IHk IHv|ts IH|n fs IH] using ty_ind2; intro Hs.
  - destruct s; try discriminate; reflexivity.
  - cbn [idl_safe ity_of ity_depth idl_depth] in *. now rewrite IHt.
  - cbn [idl_safe ity_of ity_depth idl_depth] in *. apply andb_prop in Hs as [Hk Hv]. now rewrite IHk, IHv.
  - destruct (ity_of_tuple ts Hs) as [-> Hs']. cbn [ity_depth idl_depth]. f_equal. clear Hs.
    induction IH as [|t ts Ht _ IHl]; [reflexivity|]. cbn [forallb] in Hs'. apply andb_prop in Hs' as [Ha Hb].
    cbn [map fold_right]. now rewrite IHl, Ht.
  - reflexivity.
Qed.

Lemma scope_md_member sc k n ms m : In (k, ScStruct n ms) sc -> In m ms -> ity_depth (snd m) <= scope_md sc.
Proof.
  intros Hin Hm. induction sc as [|e sc IH]; [destruct Hin|]. cbn [scope_md fold_right]. fold (scope_md sc).
  destruct Hin as [->|Hin].
  - cbn [snd]. pose proof (fold_max_in (fun m => ity_depth (snd m)) m ms Hm). cbn beta in *. lia.
  - specialize (IH Hin). destruct (snd e); lia.
Qed.

Definition idl_tuple (f : nat) (sc : scope) : list ity -> option (list string) :=
  fix tuple (l : list ity) : option (list string) :=
    match l with
    | [] => Some []
    | m :: r => match iidl f sc m, tuple r with Some a, Some b => Some (a :: b) | _, _ => None end
    end.

Lemma iidl_S f sc t : iidl (S f) sc t =
  match t with
  | IBasic s => Some (scalar_idl s)
  | IList e => match iidl f sc e with Some a => Some ("Vec<" ++ a ++ ">") | None => None end
  | IMap k v => match iidl f sc k, iidl f sc v with Some a, Some b => Some ("Map<" ++ a ++ "," ++ b ++ ">") | _, _ => None end
  | ITuple ts => match idl_tuple f sc ts with Some l => Some ("Tuple<" ++ join "," l ++ ">") | None => None end
  | IRef n => match lookup n sc with
              | Some (ScStruct name _) => Some name
              | Some ScItf => Some "obj"
              | None => Some ("not found in scope: " ++ n)
              end
  end.
Proof. reflexivity. Qed.

(* SignatureIDL of a parsed type never recurses through the scope: it always answers *)
Lemma iidl_total sc f : forall i, (ity_depth i < f)%nat -> iidl f sc i <> None.
Proof.
  induction f as [|f IH]; intros i Hi; [lia|]. rewrite iidl_S. destruct i as [s|e|k v|ts|n]; cbn [ity_depth] in Hi.
  - discriminate.
  - specialize (IH e ltac:(lia)). destruct (iidl f sc e); [discriminate|congruence].
  - pose proof (IH k ltac:(lia)). pose proof (IH v ltac:(lia)).
    destruct (iidl f sc k); [|congruence]. destruct (iidl f sc v); [discriminate|congruence].
  - enough (idl_tuple f sc ts <> None) by (destruct (idl_tuple f sc ts); [discriminate|congruence]).
    induction ts as [|m l IHl]; [discriminate|]. cbn [fold_right] in Hi. cbn [idl_tuple].
    specialize (IH m ltac:(lia)). specialize (IHl ltac:(lia)). fold (idl_tuple f sc) in *.
    destruct (iidl f sc m); [|congruence]. destruct (idl_tuple f sc l); [discriminate|congruence].
  - destruct (lookup n sc) as [[]|]; discriminate.
Qed.

(* what comes back: the same objects, the methods with the parameter names that were written *)
Definition norm_m (m : tmethod) : mmethod :=
  {| mm_uid := tm_uid m; mm_name := tm_name m; mm_params := print (TTuple (tm_params m));
     mm_ret := print (tm_ret m); mm_pnames := Some (map fst (snd (method_members m))) |}.
Definition norm_o (o : tobject) : mobject :=
  {| mo_name := to_name o; mo_methods := map norm_m (to_methods o);
     mo_signals := map g_of (to_signals o); mo_props := map g_of (to_props o) |}.

Section Resolve.
Variable E : env.
Variable P : list tobject.
Variable St : tset.
Hypothesis HP : package_ok E P.
Hypothesis HE : env_safe E.
Hypothesis HS : set_ok E (map to_name P) St.
Let sc := scope_of (decl_vals E P St) [].

Lemma struct_in_scope t n fs : env_ok E t -> covers St t -> In (n, fs) (structs_of t) ->
  In (n, ScStruct n (iparams fs)) sc.
Proof. intros He Hc Hd. apply lookup_in, (scope_struct E P St n fs HP HS (env_ok_in E t n fs He Hd) (Hc _ Hd)). Qed.

Lemma fields_shallow t : env_ok E t -> covers St t ->
  Forall (fun d => Forall (fun p => idl_depth (snd p) <= scope_md sc) (snd d)) (structs_of t).
Proof.
  intros He Hc. apply Forall_forall. intros [n fs] Hd. cbn [snd]. apply Forall_forall. intros p Hp.
  rewrite <- (ity_depth_of (snd p) (env_safe_member E n fs p HE (env_ok_in E t n fs He Hd) Hp)).
  apply (scope_md_member sc n n (iparams fs) (fst p, ity_of (snd p))); [exact (struct_in_scope t n fs He Hc Hd)|].
  apply in_map_iff. exists p. auto.
Qed.

Lemma names_in_scope t : env_ok E t -> covers St t -> incl (snames t) (map fst sc).
Proof.
  intros He Hc x Hx. apply in_map_iff in Hx as ([n fs] & <- & Hd).
  exact (in_map fst _ _ (struct_in_scope t n fs He Hc Hd)).
Qed.

Lemma depth_below_fuel t i : env_ok E t -> covers St t -> idl_depth t <= ity_depth i -> ty_depth t < sig_fuel sc i.
Proof.
  intros He Hc Hi. rewrite sig_fuel_eq.
  pose proof (ty_depth_names E (scope_md sc) t He (fields_shallow t He Hc) _ (names_in_scope t He Hc)) as H.
  rewrite map_length in H. lia.
Qed.

Lemma params_resolve i0 (l : list (string * ty)) ts :
  map snd l = ts -> Forall (type_ok E) ts -> covers St (TTuple ts) ->
  tuple_sig (sig_fuel sc (ITuple (i0 ++ map snd (iparams l)))) sc (iparams l) = Some (print (TTuple ts)).
Proof.
  intros <- Hok Hc. apply covers_tuple in Hc. apply tuple_sig_of. apply Forall_forall. intros t Hin.
  rewrite Forall_forall in Hok, Hc.
  destruct (Hok _ Hin) as (_ & Hs & He). specialize (Hc _ Hin). repeat split; [assumption| |].
  - now apply (scope_has_covered E P St).
  - apply depth_below_fuel; [assumption|assumption|].
    rewrite <- (ity_depth_of _ Hs). cbn [ity_depth]. apply le_S. apply (fold_max_in ity_depth).
    apply in_or_app. right. unfold iparams. rewrite map_map. cbn [snd]. rewrite <- (map_map snd ity_of). now apply in_map.
Qed.

Lemma ret_resolves rt i0 : rt = TS SVoid \/ type_ok E rt -> covers St rt ->
  isig (sig_fuel sc (ITuple (ret_ity rt :: i0))) sc (ret_ity rt) = Some (print rt).
Proof.
  intros Hrt Hc. unfold ret_ity. destruct (String.eqb_spec (print rt) "v") as [Ev|Ev].
  - apply print_v in Ev. subst rt. rewrite sig_fuel_eq, Nat.add_1_r. reflexivity.
  - destruct Hrt as [->|(_ & Hs & He)]; [now elim Ev|].
    apply isig_of; [assumption|now apply (scope_has_covered E P St)|].
    apply depth_below_fuel; [assumption|assumption|]. rewrite <- (ity_depth_of _ Hs). cbn [ity_depth fold_right]. lia.
Qed.

Lemma meta_methods_ok ms : Forall (method_ok E) ms -> Forall (covers St) (flat_map method_types ms) ->
  meta_methods sc (map mentry ms) = Some (map norm_m ms).
Proof.
  induction 1 as [|m ms Hm _ IH]; intro Hc; [reflexivity|].
  cbn [flat_map method_types app] in Hc. apply Forall_cons_iff in Hc as [Hcp Hc]. apply Forall_cons_iff in Hc as [Hcr Hc'].
  cbn [map mentry meta_methods]. destruct Hm as [Hts Hrt _ _ _ _].
  set (l := snd (method_members m)).
  set (f := sig_fuel sc (ITuple (ret_ity (tm_ret m) :: map snd (iparams l)))).
  assert (Hp : tuple_sig f sc (iparams l) = Some (print (TTuple (tm_params m))))
    by exact (params_resolve [ret_ity (tm_ret m)] l _ (method_members_snd m) Hts Hcp).
  assert (Hr : isig f sc (ret_ity (tm_ret m)) = Some (print (tm_ret m))) by apply (ret_resolves _ _ Hrt Hcr).
  assert (Hf : (ity_depth (ret_ity (tm_ret m)) < f)%nat) by (subst f; rewrite sig_fuel_eq; cbn [ity_depth fold_right]; lia).
  rewrite Hr, Hp. pose proof (iidl_total sc f (ret_ity (tm_ret m)) Hf) as Hi.
  destruct (iidl f sc (ret_ity (tm_ret m))); [|congruence].
  rewrite (IH Hc'). unfold norm_m at 2. fold l. unfold iparams. rewrite map_map. reflexivity.
Qed.

Lemma meta_signals_ok xs : Forall (signal_ok E) xs -> Forall (covers St) (flat_map signal_types xs) ->
  meta_signals sc (map gentry xs) = Some (map g_of xs).
Proof.
  induction 1 as [|x xs Hx _ IH]; intro Hc; [reflexivity|].
  cbn [flat_map signal_types app] in Hc. apply Forall_cons_iff in Hc as [Hcx Hc'].
  cbn [map gentry meta_signals]. destruct Hx as [Hts _ _ _].
  pose proof (params_resolve [] _ _ (tuple_fields_snd 0 (tg_params x)) Hts Hcx) as Hp. cbn [app] in Hp.
  rewrite Hp, (IH Hc'). reflexivity.
Qed.

Lemma metas_of_app l1 l2 : metas_of sc (l1 ++ l2)%list =
  match metas_of sc l1, metas_of sc l2 with Some a, Some b => Some (a ++ b)%list | _, _ => None end.
Proof.
  induction l1 as [|d l1 IH]; cbn [app metas_of]; [now destruct (metas_of sc l2)|].
  rewrite IH. destruct (meta_of_itf sc d) as [[m|]|]; [| |reflexivity];
    destruct (metas_of sc l1); destruct (metas_of sc l2); reflexivity.
Qed.

Lemma metas_itfs (Q : list tobject) : Forall (object_ok E) Q -> Forall (covers St) (flat_map object_types Q) ->
  metas_of sc (map itf_val Q) = Some (map norm_o Q).
Proof.
  induction 1 as [|o Q Ho _ IH]; intro Hc; [reflexivity|].
  cbn [flat_map] in Hc. unfold object_types in Hc at 1.
  rewrite !Forall_app in Hc. destruct Hc as [(C1 & C2 & C3) Hc'].
  cbn [map metas_of]. unfold itf_val at 1. cbn [meta_of_itf].
  destruct Ho as [_ _ Hms Hss Hps _ _ _].
  rewrite (meta_methods_ok _ Hms C1), (meta_signals_ok _ Hss C2), (meta_signals_ok _ Hps C3), (IH Hc').
  reflexivity.
Qed.

Lemma metas_structs ds : metas_of sc (map sval ds) = Some [].
Proof. induction ds as [|d ds IH]; [reflexivity|]. cbn [map metas_of sval struct_val meta_of_itf]. now rewrite IH. Qed.

Lemma metas_ok : Forall (covers St) (flat_map object_types P) -> metas_of sc (decl_vals E P St) = Some (map norm_o P).
Proof.
  intro Hc. now rewrite decl_vals_eq, metas_of_app, (metas_itfs P (pk_objs E P HP) Hc), metas_structs, app_nil_r.
Qed.
End Resolve.

Theorem idl_file_roundtrip : forall E pkg P, package_ok E P -> env_safe E -> is_pkg_name pkg = true ->
  exists text, gen_idl pkg (map o_of P) = Some text /\ parse_idl text = IOk (map norm_o P).
Proof.
  intros E pkg P HP HE Hpkg.
  destruct (gen_idl_ok E pkg P HP) as (St & Hgen & HS & Hcov).
  exists (package_text pkg P St). split; [exact Hgen|].
  unfold parse_idl. rewrite (parse_package_ok E pkg P St HP HE Hpkg HS).
  change (is_empty (skip_ws nl)) with true. cbv iota.
  now rewrite (metas_ok E P St HP HE HS Hcov).
Qed.

Lemma same_methods ms : all2 same_method (map m_of ms) (map norm_m ms) = true.
Proof.
  induction ms as [|m ms IH]; [reflexivity|]. cbn [map all2]. rewrite IH.
  unfold same_method, m_of, norm_m. cbn. now rewrite N.eqb_refl, !String.eqb_refl.
Qed.
Lemma same_signals xs : all2 same_signal (map g_of xs) (map g_of xs) = true.
Proof.
  induction xs as [|x xs IH]; [reflexivity|]. cbn [map all2]. rewrite IH.
  unfold same_signal. now rewrite N.eqb_refl, !String.eqb_refl.
Qed.

(* in the decidable form used for the refutation witnesses *)
Corollary idl_roundtrip_ok : forall E pkg P, package_ok E P -> env_safe E -> is_pkg_name pkg = true ->
  roundtrip_ok pkg (map o_of P) = true.
Proof.
  intros E pkg P HP HE Hpkg. destruct (idl_file_roundtrip E pkg P HP HE Hpkg) as (text & Hg & Hp).
  unfold roundtrip_ok. rewrite Hg, Hp. clear. induction P as [|o P IH]; [reflexivity|].
  cbn [map all2]. rewrite IH. unfold same_object, o_of, norm_o. cbn [mo_name mo_methods mo_signals mo_props].
  now rewrite String.eqb_refl, same_methods, !same_signals.
Qed.

(* The hypotheses of the file theorem as a computation: for a package written out, package_ok and env_safe
   are settled by evaluating package_okb. *)
(* ty_eqb compares types: two member lists are compared as structs of one (empty) name *)
Definition env_okb (E : env) (t : ty) : bool :=
  forallb (fun d => match lookup (fst d) E with
                    | Some fs => ty_eqb (TStruct "" fs) (TStruct "" (snd d))
                    | None => false
                    end) (structs_of t).
Definition type_okb (E : env) (t : ty) : bool := wf_ty t && idl_safe t && env_okb E t.
Fixpoint nodupb {A} (eqb : A -> A -> bool) (l : list A) : bool :=
  match l with [] => true | x :: r => negb (existsb (eqb x) r) && nodupb eqb r end.
Definition method_okb (E : env) (m : tmethod) : bool :=
  forallb (type_okb E) (tm_params m) && (ty_eqb (tm_ret m) (TS SVoid) || type_okb E (tm_ret m)) &&
  is_iident (tm_name m) && (tm_uid m <? 2 ^ 32)%N &&
  (negb (tm_uid m =? 0)%N || String.eqb (tm_name m) "registerEvent") &&
  forallb (fun p => is_iident (fst p)) (snd (method_members m)).
Definition signal_okb (E : env) (x : tsignal) : bool :=
  forallb (type_okb E) (tg_params x) && is_iident (tg_name x) && (tg_uid x <? 2 ^ 32)%N && negb (tg_uid x =? 0)%N.
Definition object_okb (E : env) (o : tobject) : bool :=
  is_iident (to_name o) && match lookup (to_name o) E with None => true | Some _ => false end &&
  forallb (method_okb E) (to_methods o) && forallb (signal_okb E) (to_signals o) && forallb (signal_okb E) (to_props o) &&
  nodupb N.eqb (map tm_uid (to_methods o)) && nodupb N.eqb (map tg_uid (to_signals o)) &&
  nodupb N.eqb (map tg_uid (to_props o)).
Definition package_okb (E : env) (P : list tobject) : bool :=
  forallb (object_okb E) P && nodupb String.eqb (map to_name P) &&
  forallb (fun d => idl_safe (TStruct (fst d) (snd d))) E.

Lemma nodupb_ok {A} (eqb : A -> A -> bool) l : (forall a b, eqb a b = true <-> a = b) -> nodupb eqb l = true -> NoDup l.
Proof. intro sp. apply (nodupb_iff eqb _ sp eq_refl (fun _ _ => eq_refl)). Qed.

Lemma forallb_Forall {A} (f : A -> bool) (P : A -> Prop) l : (forall x, f x = true -> P x) -> forallb f l = true -> Forall P l.
Proof. intros H Hl. apply Forall_forall. intros x Hx. rewrite forallb_forall in Hl. auto. Qed.

Lemma type_okb_ok E t : type_okb E t = true -> type_ok E t.
Proof.
  unfold type_okb, env_okb. intro H. apply andb_prop in H as [H He]. apply andb_prop in H as [Hw Hs].
  repeat split; [assumption|assumption|]. revert He. apply forallb_Forall. intros d Hd.
  destruct (lookup (fst d) E) as [fs|]; [|discriminate]. apply ty_eqb_true in Hd. now injection Hd as ->.
Qed.

Lemma method_okb_ok E m : method_okb E m = true -> method_ok E m.
Proof.
  unfold method_okb. intro H. apply andb_prop in H as [H Hpn]. apply andb_prop in H as [H Hu0]. apply andb_prop in H as [H Hu].
  apply andb_prop in H as [H Hname]. apply andb_prop in H as [Hts Hrt]. constructor.
  - revert Hts. apply forallb_Forall, type_okb_ok.
  - apply orb_prop in Hrt as [Hv|Ht]; [left; now apply ty_eqb_true|right; now apply type_okb_ok].
  - assumption.
  - now apply N.ltb_lt.
  - apply orb_prop in Hu0 as [Hz|Hn]; [left; now apply N.eqb_neq, negb_true_iff|right; now apply String.eqb_eq].
  - revert Hpn. now apply forallb_Forall.
Qed.

Lemma signal_okb_ok E x : signal_okb E x = true -> signal_ok E x.
Proof.
  unfold signal_okb. intro H. apply andb_prop in H as [H Hu0]. apply andb_prop in H as [H Hu]. apply andb_prop in H as [Hts Hname].
  constructor; [revert Hts; apply forallb_Forall, type_okb_ok|assumption|now apply N.ltb_lt|now apply N.eqb_neq, negb_true_iff].
Qed.

Lemma package_okb_ok E P : package_okb E P = true -> package_ok E P /\ env_safe E.
Proof.
  unfold package_okb. intro H. apply andb_prop in H as [H HE]. apply andb_prop in H as [HP Hn].
  split; [constructor|revert HE; now apply forallb_Forall]; [|exact (nodupb_ok _ _ String.eqb_eq Hn)].
  revert HP. apply forallb_Forall. intros o H. unfold object_okb in H.
  apply andb_prop in H as [H Hp]. apply andb_prop in H as [H Hs]. apply andb_prop in H as [H Hm]. apply andb_prop in H as [H Hps].
  apply andb_prop in H as [H Hss]. apply andb_prop in H as [H Hms]. apply andb_prop in H as [Hname Hcl].
  constructor; try (apply (nodupb_ok N.eqb); [exact N.eqb_eq|assumption]).
  - assumption.
  - now destruct (lookup (to_name o) E).
  - revert Hms. apply forallb_Forall, method_okb_ok.
  - revert Hss. apply forallb_Forall, signal_okb_ok.
  - revert Hps. apply forallb_Forall, signal_okb_ok.
Qed.

(* Sequences of conversions in one process.
   The model of a conversion is a function of the package alone, so the model of a process that
   converts one package after the other is the list of the individual conversions.  Whatever was
   converted before and after (packages with colliding struct names, any other weak input,
   invalid signatures: [before] and [after] are arbitrary), a package that meets the hypotheses of
   the file theorem comes back.  The harness runs such sequences on the implementation in one fresh
   process each and compares every step with [convert] of that step. *)
Definition convert (x : string * list mobject) : option (string * idl_result) :=
  match gen_idl (fst x) (snd x) with
  | Some text => Some (text, parse_idl text)
  | None => None
  end.
Definition convert_seq (l : list (string * list mobject)) : list (option (string * idl_result)) := map convert l.

Theorem idl_sequence_roundtrip : forall (before after : list (string * list mobject)) E pkg P,
  package_ok E P -> env_safe E -> is_pkg_name pkg = true ->
  exists text, nth_error (convert_seq (before ++ (pkg, map o_of P) :: after)) (List.length before)
               = Some (Some (text, IOk (map norm_o P))).
Proof.
  intros before after E pkg P HP HE Hpkg.
  destruct (idl_file_roundtrip E pkg P HP HE Hpkg) as (text & Hg & Hp).
  exists text. unfold convert_seq. rewrite map_app, nth_error_app2 by (rewrite map_length; apply le_n).
  rewrite map_length, Nat.sub_diag. cbn [map nth_error]. unfold convert. cbn [fst snd]. now rewrite Hg, Hp.
Qed.

(* step by step in the decidable form: every step whose package round-trips alone round-trips in the sequence *)
Definition seq_roundtrip_ok (l : list (string * list mobject)) : list bool :=
  map (fun x => roundtrip_ok (fst x) (snd x)) l.
Lemma seq_roundtrip_nth : forall before x after,
  nth_error (seq_roundtrip_ok (before ++ x :: after)) (List.length before) = Some (roundtrip_ok (fst x) (snd x)).
Proof.
  intros. unfold seq_roundtrip_ok. rewrite map_app, nth_error_app2 by (rewrite map_length; apply le_n).
  now rewrite map_length, Nat.sub_diag.
Qed.
