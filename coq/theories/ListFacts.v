(* ListFacts.v — generic facts about lists (and one about options, some_elim) that several proof files share, and the association list
   over any key type (Section Assoc: the definitions aget, adel, aset and their lemmas). *)
From Coq Require Import List Bool PeanoNat Permutation.
Import ListNotations.

(* what holds of the result of a partial function can be shown branch by branch of its computation *)
Lemma some_elim {A} (P : A -> Prop) (o : option A) x :
  o = Some x -> match o with Some a => P a | None => True end -> P x.
Proof. intros ->. exact (fun p => p). Qed.

Lemma nth_error_Some_lt {A} (l : list A) n x : nth_error l n = Some x -> n < length l.
Proof. intro H. apply nth_error_Some. congruence. Qed.

Lemma nth_error_app_old {A} (l l' : list A) i x : nth_error l i = Some x -> nth_error (l ++ l') i = Some x.
Proof. intro H. rewrite nth_error_app1; [exact H | exact (nth_error_Some_lt _ _ _ H)]. Qed.

Lemma nth_error_app_last {A} (l : list A) x : nth_error (l ++ [x]) (length l) = Some x.
Proof. rewrite nth_error_app2 by apply le_n. now rewrite Nat.sub_diag. Qed.

Lemma Forall_nth_error {A} (P : A -> Prop) l i x : Forall P l -> nth_error l i = Some x -> P x.
Proof. intros H Hn. eapply Forall_forall; [exact H|]. eapply nth_error_In; exact Hn. Qed.

Lemma NoDup_app_iff {A} (l l' : list A) :
  NoDup (l ++ l') <-> NoDup l /\ NoDup l' /\ forall x, In x l -> ~ In x l'.
Proof.
  induction l as [|a l IH]; cbn.
  - split; [intro H; repeat split; [constructor|exact H|intros x []] | intros (_ & H & _); exact H].
  - split.
    + intro H. inversion H as [|? ? Ha Hn]; subst. apply IH in Hn as (H1 & H2 & H3).
      repeat split; [constructor; [intro Hi; apply Ha, in_or_app; now left|exact H1] | exact H2 |].
      intros x [<-|Hx] Hx'; [apply Ha, in_or_app; now right | exact (H3 x Hx Hx')].
    + intros (H & H2 & H3). inversion H as [|? ? Ha H1]; subst. constructor.
      * intro Hi. apply in_app_or in Hi as [Hi|Hi]; [exact (Ha Hi) | exact (H3 a (or_introl eq_refl) Hi)].
      * apply IH. repeat split; [exact H1|exact H2|]. intros x Hx. apply H3. now right.
Qed.

Lemma NoDup_snoc {A} (l : list A) x : NoDup l -> ~ In x l -> NoDup (l ++ [x]).
Proof.
  intros H Hx. apply NoDup_app_iff. repeat split; [exact H|repeat constructor; tauto|].
  intros y Hy [<-|[]]. exact (Hx Hy).
Qed.

Lemma NoDup_map_inj {A B} (f : A -> B) l a b : NoDup (map f l) -> In a l -> In b l -> f a = f b -> a = b.
Proof.
  induction l as [|y l IH]; [intros _ []|]. cbn. intro H. inversion H as [|? ? Hy Hn]; subst.
  intros [->|Ha] [->|Hb] E; try reflexivity.
  - exfalso. apply Hy. rewrite E. now apply in_map.
  - exfalso. apply Hy. rewrite <- E. now apply in_map.
  - now apply IH.
Qed.

Lemma NoDup_map_filter {A B} (f : A -> B) p l : NoDup (map f l) -> NoDup (map f (filter p l)).
Proof.
  induction l as [|a l IH]; simpl; intros H; [constructor|].
  inversion H as [|? ? Hn Hd]; subst. destruct (p a); simpl; auto.
  constructor; auto. intros Hc. apply Hn. apply in_map_iff in Hc. destruct Hc as [x [Hx Hin]].
  apply filter_In in Hin. apply in_map_iff. exists x; tauto.
Qed.

Lemma Permutation_filter {A} (f : A -> bool) l l' : Permutation l l' -> Permutation (filter f l) (filter f l').
Proof.
  induction 1 as [|x l l' _ IH|x y l|l l' l'' _ IH1 _ IH2]; cbn.
  - constructor.
  - destruct (f x); [now constructor|exact IH].
  - destruct (f x), (f y); try apply Permutation_refl. apply perm_swap.
  - eapply Permutation_trans; eassumption.
Qed.

Lemma flat_map_perm_pointwise {A B} (f : A -> list B) l l' :
  Forall2 (fun a b => Permutation (f a) (f b)) l l' -> Permutation (flat_map f l) (flat_map f l').
Proof. induction 1; cbn [flat_map]; [constructor | now apply Permutation_app]. Qed.

Lemma map_fst_combine {A B} (l : list A) (l' : list B) : length l = length l' -> map fst (combine l l') = l.
Proof.
  revert l'. induction l as [|a l IH]; intros [|b l'] H; cbn [combine map fst]; try discriminate H; [reflexivity|].
  f_equal. apply IH. now inversion H.
Qed.

Lemma map_snd_combine {A B} (l : list A) (l' : list B) : length l = length l' -> map snd (combine l l') = l'.
Proof.
  revert l'. induction l as [|a l IH]; intros [|b l'] H; cbn [combine map snd]; try discriminate H; [reflexivity|].
  f_equal. apply IH. now inversion H.
Qed.

Lemma existsb_false {A} (f : A -> bool) l : existsb f l = false <-> Forall (fun y => f y = false) l.
Proof.
  induction l as [|a l IH]; cbn [existsb]; [split; constructor|].
  rewrite orb_false_iff, IH. split; [intros [Ha Hl]; now constructor | intro H; inversion H; auto].
Qed.

Lemma Forall_exists_Forall2 {A B} (P : A -> B -> Prop) (l : list A) :
  Forall (fun a => exists b, P a b) l -> exists l', Forall2 P l l'.
Proof.
  induction 1 as [|a l [b Hb] _ [l' IH]]; [exists []; constructor | exists (b :: l'); now constructor].
Qed.

Lemma Forall2_impl {A B} (P P' : A -> B -> Prop) l l' :
  (forall a b, P a b -> P' a b) -> Forall2 P l l' -> Forall2 P' l l'.
Proof. intro H. induction 1; constructor; auto. Qed.

Lemma Forall2_same {A} (P : A -> A -> Prop) l : Forall (fun a => P a a) l -> Forall2 P l l.
Proof. induction 1; constructor; auto. Qed.

Lemma Forall2_flip {A B} (P : A -> B -> Prop) l l' : Forall2 P l l' -> Forall2 (fun b a => P a b) l' l.
Proof. induction 1; constructor; auto. Qed.

Lemma Forall2_combine {A B} (P : A -> B -> Prop) (l : list A) (l' : list B) :
  length l = length l' -> (forall a b, In (a, b) (combine l l') -> P a b) -> Forall2 P l l'.
Proof.
  revert l'. induction l as [|a l IH]; intros [|b l'] Hlen H; try discriminate Hlen; constructor.
  - apply H. now left.
  - apply IH; [now inversion Hlen | intros a' b' Hin; apply H; now right].
Qed.

Lemma Forall2_In_combine {A B} (P : A -> B -> Prop) (l : list A) (l' : list B) a b :
  Forall2 P l l' -> In (a, b) (combine l l') -> P a b.
Proof.
  induction 1 as [|x y l l' Hxy _ IH]; cbn [combine In]; [tauto|].
  intros [E|Hin]; [inversion E; subst; exact Hxy | now apply IH].
Qed.

Lemma Forall2_len {A B} (P : A -> B -> Prop) l l' : Forall2 P l l' -> length l = length l'.
Proof. induction 1; cbn [length]; congruence. Qed.

Lemma Forall2_In_l {A B} (P : A -> B -> Prop) (l : list A) (l' : list B) a :
  Forall2 P l l' -> In a l -> exists b, In (a, b) (combine l l') /\ P a b.
Proof.
  induction 1 as [|x y l l' Hxy _ IH]; cbn [combine In]; [tauto|].
  intros [E|Hin]; [subst; exists y; auto | destruct (IH Hin) as [b [Hb Hp]]; exists b; auto].
Qed.

Lemma combine_fst_snd {A B} (l : list (A * B)) : combine (map fst l) (map snd l) = l.
Proof. induction l as [|[a b] l IH]; cbn; [reflexivity|now rewrite IH]. Qed.

Lemma existsb_eqb_In {A} (eqb : A -> A -> bool) (spec : forall a b, eqb a b = true <-> a = b) c l :
  existsb (eqb c) l = true <-> In c l.
Proof.
  rewrite existsb_exists. split.
  - intros (x & Hx & E). apply spec in E. now subst.
  - intro H. exists c. split; [exact H|now apply spec].
Qed.

Lemma nodupb_iff {A} (eqb : A -> A -> bool) (f : list A -> bool) :
  (forall a b, eqb a b = true <-> a = b) ->
  f [] = true -> (forall x r, f (x :: r) = negb (existsb (eqb x) r) && f r) ->
  forall l, f l = true <-> NoDup l.
Proof.
  intros sp H0 HS. induction l as [|x r IH]; [rewrite H0; split; [constructor|reflexivity]|].
  rewrite HS, andb_true_iff, negb_true_iff, IH, NoDup_cons_iff, <- not_true_iff_false, (existsb_eqb_In eqb sp).
  reflexivity.
Qed.

(* A list with position i replaced and a function on nat with the value at k replaced, by the text the models
   write out in their own files: Endpoint.set_nth, Session.upd and ConnLoss.setnth are convertible to lset;
   Call.upd, Teardown.upd, Signals.fupd and ConnLoss.upd to fset.  The arguments come in the same order, so
   `rewrite` with the lemmas below goes through in goals that mention the models' functions.  (Signals.set_nth
   takes the list first and PropertyMulti.mupd, Service.updA are monomorphic: they have lemmas of their own; so has
   ConnLossProofs.v, whose case split rewrites in every hypothesis, where matching up to conversion is slow.) *)
Fixpoint lset {A} (i : nat) (x : A) (l : list A) : list A :=
  match l, i with
  | [], _ => []
  | _ :: r, O => x :: r
  | y :: r, S j => y :: lset j x r
  end.

Lemma lset_length {A} i (x : A) l : length (lset i x l) = length l.
Proof. revert i; induction l as [|y l IH]; intros [|i]; cbn; auto. Qed.

Lemma nth_error_lset_eq {A} i (x y : A) l : nth_error l i = Some y -> nth_error (lset i x l) i = Some x.
Proof. revert i; induction l as [|z l IH]; intros [|i] H; cbn in *; try discriminate; auto. Qed.

Lemma nth_error_lset_neq {A} i j (x : A) l : i <> j -> nth_error (lset i x l) j = nth_error l j.
Proof. revert i j; induction l as [|y l IH]; intros [|i] [|j] H; cbn; auto; congruence. Qed.

Definition fset {A} (f : nat -> A) (k : nat) (v : A) : nat -> A := fun x => if Nat.eqb x k then v else f x.

Lemma fset_eq {A} (f : nat -> A) k v : fset f k v k = v.
Proof. unfold fset. now rewrite Nat.eqb_refl. Qed.

Lemma fset_neq {A} (f : nat -> A) k v x : x <> k -> fset f k v x = f x.
Proof. intro H. unfold fset. now destruct (Nat.eqb_spec x k). Qed.

(* Association lists over any key type with a boolean equality: lookup, removal of a key by filter,
   assignment as removal and cons.  The models write these functions out at their own key and value
   types; Lin.tget/tdel/tset, Property.qget/qdel/qset, Directory.mget/mdel and SessionLife.remove_key
   are convertible to aget, adel, aset (Session.lookup, written with find, and Idl.lookup, whose value
   type is an argument of the fixpoint, agree with aget by a lemma of their files).  So `apply` and `exact`
   take these lemmas on the models' functions as they stand; `rewrite` matches the head constant and needs
   the lemma restated for it (tget_tdel, qget_qset, mget_mdel, ...), a type ascription or a `change`. *)
Section Assoc.
  Context {K V : Type} {eqb : K -> K -> bool} (eqb_spec : forall a b, reflect (a = b) (eqb a b)).
  Implicit Types m : list (K * V).
  Fixpoint aget (t : K) m : option V :=
    match m with [] => None | (t', v) :: r => if eqb t' t then Some v else aget t r end.
  Definition adel (t : K) m := filter (fun p => negb (eqb (fst p) t)) m.
  Definition aset (t : K) (v : V) m := (t, v) :: adel t m.

  Lemma aget_in : forall t m v, aget t m = Some v -> In (t, v) m.
  Proof.
    intros t m; induction m as [|[t' v'] m IH]; simpl; intros v H; [discriminate|].
    destruct (eqb_spec t' t) as [->|]; [inversion H; left; reflexivity | right; auto].
  Qed.

  Lemma aget_none : forall t m, aget t m = None <-> ~ In t (map fst m).
  Proof.
    intros t m; induction m as [|[t' v'] m IH]; simpl; [split; [intros _ [] | reflexivity]|].
    destruct (eqb_spec t' t) as [E|E]; [split; [discriminate | intros H; destruct (H (or_introl E))]|].
    rewrite IH. split; [intros H [H'|H']; [exact (E H') | exact (H H')] | intros H H'; exact (H (or_intror H'))].
  Qed.

  Lemma in_aget : forall t v m, NoDup (map fst m) -> In (t, v) m -> aget t m = Some v.
  Proof.
    intros t v m; induction m as [|[t' v'] m IH]; simpl; intros Hnd Hin; [destruct Hin|].
    inversion Hnd as [|? ? Hn Hd]; subst. destruct (eqb_spec t' t) as [->|Ht], Hin as [Hin|Hin]; auto; try congruence.
    exfalso; apply Hn. apply (in_map fst _ _ Hin).
  Qed.

  Lemma adel_in : forall t m p, In p (adel t m) <-> In p m /\ fst p <> t.
  Proof.
    intros t m p; unfold adel. rewrite filter_In, negb_true_iff.
    destruct (eqb_spec (fst p) t) as [E|E]; split; intros [H1 H2];
      [discriminate H2 | destruct (H2 E) | split; trivial | split; trivial].
  Qed.

  (* holds whatever eqb is: the one lemma of the section that does not take eqb_spec *)
  Lemma adel_nodup : forall t m, NoDup (map fst m) -> NoDup (map fst (adel t m)).
  Proof. intros t m. apply NoDup_map_filter. Qed.

  Lemma aset_nodup : forall t v m, NoDup (map fst m) -> NoDup (map fst (aset t v m)).
  Proof.
    intros t v m H. constructor; [|apply adel_nodup, H].
    intros Hc. apply in_map_iff in Hc. destruct Hc as [p [Hp Hc]]. apply adel_in in Hc. tauto.
  Qed.

  Lemma adel_absent : forall t m, ~ In t (map fst m) -> adel t m = m.
  Proof.
    intros t m; induction m as [|[t' v'] m IH]; simpl; intros H; [reflexivity|].
    destruct (eqb_spec t' t) as [E|E]; [destruct (H (or_introl E))|]. simpl.
    rewrite IH; [reflexivity | intros H'; exact (H (or_intror H'))].
  Qed.

  Lemma adel_perm : forall t v m, NoDup (map fst m) -> aget t m = Some v -> Permutation m ((t, v) :: adel t m).
  Proof.
    intros t v m; induction m as [|[k w] m IH]; simpl; intros Hnd Hg; [discriminate|].
    inversion Hnd as [|? ? Hn Hd]; subst.
    destruct (eqb_spec k t) as [->|]; simpl.
    - inversion Hg; subst w. rewrite (adel_absent _ _ Hn). apply Permutation_refl.
    - eapply perm_trans; [apply perm_skip, IH; assumption | apply perm_swap].
  Qed.

  Lemma aget_adel : forall t t' m, aget t' (adel t m) = if eqb t t' then None else aget t' m.
  Proof.
    intros t t' m. induction m as [|[k v] m IH]; simpl; [now destruct (eqb t t')|].
    destruct (eqb_spec k t) as [->|Hk]; simpl; rewrite IH.
    - now destruct (eqb t t').
    - destruct (eqb_spec k t') as [->|]; [|reflexivity]. destruct (eqb_spec t t'); congruence.
  Qed.

  Lemma aget_aset : forall t t' v m, aget t' (aset t v m) = if eqb t t' then Some v else aget t' m.
  Proof. intros. unfold aset. simpl. rewrite aget_adel. now destruct (eqb t t'). Qed.
End Assoc.
Arguments aget {K V} eqb t m.
Arguments adel {K V} eqb t m.
Arguments aset {K V} eqb t v m.
