(* SignalsLemmas.v — lists ([cnt], [set_nth], [find_idx], [swap_remove]) and functional updates, for the proofs about Signals.v. *)
From QV Require Export ListFacts.
From QV Require Import Signals.
From Coq Require Import Permutation.
Local Open Scope N_scope.

Definition cnt {A} (f : A -> bool) (l : list A) : nat := List.length (filter f l).

Lemma cnt_app {A} (f : A -> bool) a b : cnt f (a ++ b) = (cnt f a + cnt f b)%nat.
Proof. unfold cnt. now rewrite filter_app, app_length. Qed.
Lemma cnt_cons {A} (f : A -> bool) x l : cnt f (x :: l) = ((if f x then 1 else 0) + cnt f l)%nat.
Proof. unfold cnt. cbn. now destruct (f x). Qed.
Lemma cnt_nil {A} (f : A -> bool) : cnt f [] = O. Proof. reflexivity. Qed.
Lemma cnt_map {A} (f : A -> bool) (h : A -> A) l : (forall x, f (h x) = f x) -> cnt f (map h l) = cnt f l.
Proof. intro H. induction l as [|x l IH]; [reflexivity|]. cbn [map]. now rewrite !cnt_cons, H, IH. Qed.
Lemma cnt_ext {A} (f g : A -> bool) l : (forall x, In x l -> f x = g x) -> cnt f l = cnt g l.
Proof. intro H. induction l as [|x l IH]; [reflexivity|]. rewrite !cnt_cons, H by now left. rewrite IH; [reflexivity|]. intros; apply H; now right. Qed.
Lemma cnt_zero_iff {A} (f : A -> bool) l : cnt f l = O <-> forall x, In x l -> f x = false.
Proof.
  induction l as [|x l IH]; [split; [intros _ y []|reflexivity]|]. rewrite cnt_cons. split.
  - intros H y [<-|Hy]; destruct (f x) eqn:E; try discriminate; try reflexivity.
    apply IH; [lia|exact Hy].
  - intro H. rewrite (H x) by now left. apply IH. intros; apply H; now right.
Qed.
Lemma cnt_In {A} (f : A -> bool) l x : In x l -> f x = true -> (cnt f l >= 1)%nat.
Proof.
  induction l as [|y l IH]; [intros []|]. rewrite cnt_cons. intros [->|H] Fx; [rewrite Fx; lia|].
  specialize (IH H Fx). lia.
Qed.

Lemma set_nth_length {A} (l : list A) i x : List.length (set_nth l i x) = List.length l.
Proof. revert i; induction l as [|y l IH]; intros [|i]; cbn; try reflexivity. now rewrite IH. Qed.
Lemma nth_error_set_nth_eq {A} (l : list A) i x y : nth_error l i = Some y -> nth_error (set_nth l i x) i = Some x.
Proof. revert i; induction l as [|z l IH]; intros [|i]; cbn; try discriminate; [reflexivity|apply IH]. Qed.
Lemma nth_error_set_nth_neq {A} (l : list A) i j x : i <> j -> nth_error (set_nth l i x) j = nth_error l j.
Proof. revert i j; induction l as [|z l IH]; intros [|i] [|j] H; cbn; try reflexivity; [congruence|apply IH; congruence]. Qed.
Lemma set_nth_twice {A} (l : list A) i a b : set_nth (set_nth l i a) i b = set_nth l i b.
Proof. revert i. induction l as [|y l IH]; intros [|i]; cbn; [reflexivity..|now rewrite IH]. Qed.
Lemma set_nth_split {A} (l : list A) i x y : nth_error l i = Some y ->
  exists a b, l = a ++ y :: b /\ set_nth l i x = a ++ x :: b.
Proof.
  revert i; induction l as [|z l IH]; intros [|i]; cbn; try discriminate.
  - intros [= ->]. now exists [], l.
  - intro H. destruct (IH _ H) as (a & b & -> & E). exists (z :: a), b. cbn. now rewrite E.
Qed.
Lemma cnt_set_nth {A} (f : A -> bool) l i x y : nth_error l i = Some y ->
  (cnt f (set_nth l i x) + (if f y then 1 else 0) = cnt f l + (if f x then 1 else 0))%nat.
Proof.
  intro H. destruct (set_nth_split l i x y H) as (a & b & -> & ->).
  rewrite !cnt_app, !cnt_cons. destruct (f x), (f y); lia.
Qed.
Lemma In_set_nth {A} (l : list A) i x z : In z (set_nth l i x) -> z = x \/ In z l.
Proof.
  revert i; induction l as [|y l IH]; intros [|i]; cbn; try tauto.
  - intros [<-|H]; tauto.
  - intros [<-|H]; [tauto|]. destruct (IH _ H); tauto.
Qed.
Lemma Forall_set_nth {A} (P : A -> Prop) l i x : Forall P l -> P x -> Forall P (set_nth l i x).
Proof.
  intro H. revert i. induction H as [|y l Py Hl IH]; intros [|i] Px; cbn; constructor; auto.
Qed.
Lemma map_set_nth_same {A B} (h : A -> B) l i x y : nth_error l i = Some y -> h x = h y -> map h (set_nth l i x) = map h l.
Proof.
  revert i; induction l as [|z l IH]; intros [|i]; cbn; try discriminate.
  - intros [= ->] ->. reflexivity.
  - intros Hn He. now rewrite (IH _ Hn He).
Qed.
Lemma set_nth_app_last {A} (l : list A) a b : set_nth (l ++ [a]) (List.length l) b = l ++ [b].
Proof. induction l as [|y l IH]; cbn; [reflexivity|now rewrite IH]. Qed.

(* a queue of one connection grows at the end or loses its head: the count at any connection *)
Lemma cnt_push {A} (f : A -> bool) (u : nat -> list A) c x c0 :
  cnt f (fupd u c (u c ++ [x]) c0) = (cnt f (u c0) + if Nat.eqb c c0 && f x then 1 else 0)%nat.
Proof.
  destruct (Nat.eqb_spec c c0) as [<-|Ne]; [rewrite fset_eq, cnt_app, cnt_cons, cnt_nil|rewrite fset_neq by congruence];
    cbn [andb]; lia.
Qed.
Lemma flat_map_push {A B} (g : A -> list B) (u : nat -> list A) c x c0 :
  flat_map g (fupd u c (u c ++ [x]) c0) = flat_map g (u c0) ++ if Nat.eqb c c0 then g x else [].
Proof.
  destruct (Nat.eqb_spec c c0) as [<-|Ne]; [rewrite fset_eq, flat_map_app; cbn; now rewrite app_nil_r|].
  rewrite fset_neq by congruence. now rewrite app_nil_r.
Qed.
Lemma cnt_pop {A} (f : A -> bool) (u : nat -> list A) c x r c0 : u c = x :: r ->
  cnt f (u c0) = (cnt f (fupd u c r c0) + if Nat.eqb c c0 && f x then 1 else 0)%nat.
Proof.
  intro H. destruct (Nat.eqb_spec c c0) as [<-|Ne]; [rewrite fset_eq, H, cnt_cons|rewrite fset_neq by congruence];
    cbn [andb]; lia.
Qed.

Lemma find_idx_some {A} (f : A -> bool) l i : find_idx f l = Some i ->
  exists x, nth_error l i = Some x /\ f x = true.
Proof.
  revert i; induction l as [|y l IH]; intro i; cbn; [discriminate|]. destruct (f y) eqn:E.
  - intros [= <-]. now exists y.
  - destruct (find_idx f l) as [j|]; cbn; [|discriminate]. intros [= <-]. now apply IH.
Qed.
Lemma find_idx_none {A} (f : A -> bool) l : find_idx f l = None -> forall x, In x l -> f x = false.
Proof.
  induction l as [|y l IH]; cbn; [intros _ x []|]. destruct (f y) eqn:E; [discriminate|].
  destruct (find_idx f l); cbn; [discriminate|]. intros _ x [<-|H]; [exact E|now apply IH].
Qed.
Lemma find_idx_key {A B} (h : A -> B) (f : A -> bool) l o x :
  NoDup (map h l) -> nth_error l o = Some x -> f x = true -> (forall y, f y = true -> h y = h x) -> find_idx f l = Some o.
Proof.
  revert o. induction l as [|z l IH]; intros [|o]; cbn; try discriminate; intros ND E Fx U.
  - injection E as ->. now rewrite Fx.
  - inversion ND as [|? ? Hz Hn]; subst. destruct (f z) eqn:Fz; [|now rewrite (IH o Hn E Fx U)].
    destruct Hz. rewrite (U z Fz). apply in_map. eapply nth_error_In; exact E.
Qed.

Lemma swap_remove_perm {A} (l : list A) i e : nth_error l i = Some e -> Permutation l (e :: swap_remove l i).
Proof.
  intro H. unfold swap_remove.
  assert (L : (i < List.length l)%nat) by (apply nth_error_Some; congruence).
  destruct (exists_last (l := l)) as (l0 & z & ->); [intro; subst; cbn in L; lia|].
  rewrite app_length in *; cbn [List.length] in *.
  replace (Nat.pred (List.length l0 + 1)) with (List.length l0) by lia.
  rewrite nth_error_app_last.
  destruct (Nat.eq_dec i (List.length l0)) as [->|Ne].
  - rewrite nth_error_app_last in H. injection H as <-.
    rewrite set_nth_app_last, removelast_last. apply Permutation_sym, Permutation_cons_append.
  - assert (Li : (i < List.length l0)%nat) by lia.
    rewrite nth_error_app1 in H by exact Li.
    destruct (set_nth_split l0 i z e H) as (a & b & E0 & E1).
    assert (E : set_nth (l0 ++ [z]) i z = set_nth l0 i z ++ [z]).
    { clear - Li. revert i Li; induction l0 as [|y l0 IH]; intros [|i] Li; cbn in *; try lia; [reflexivity|]. now rewrite IH by lia. }
    rewrite E, removelast_last, E1, E0.
    rewrite <- app_assoc. cbn.
    apply Permutation_trans with (e :: a ++ b ++ [z]).
    + apply Permutation_sym, Permutation_middle.
    + constructor. apply Permutation_app_head. apply Permutation_sym, Permutation_cons_append.
Qed.

Lemma nupd_eq {A} (f : N -> A) k v : nupd f k v k = v.
Proof. unfold nupd. now rewrite N.eqb_refl. Qed.
Lemma nupd_neq {A} (f : N -> A) k v k' : k' <> k -> nupd f k v k' = f k'.
Proof. unfold nupd. intro H. now rewrite (proj2 (N.eqb_neq k' k) H). Qed.
