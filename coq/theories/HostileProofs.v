(* HostileProofs.v — C12.  Every configuration: a step keeps an object's key, kind and o_alive, except an accepted
   terminate.  Repaired configuration (no duplicate-id deadlock, writes do not block for ever): no goroutine of the
   server is ever dead or blocked in a write, no endpoint mutex stays held, and from every reachable state a fresh
   client's metaObject call to an object other than the authenticator is answered within a bounded number of steps of
   the object's goroutine and of its own connection's goroutines, unless a terminate already in the object's mailbox
   ends the object first (probe_answered_bounded).  Last, the runs that refute the property when either defect is switched on,
   and the same scripts with both defects off, where the probe is answered. *)
From QV Require Import SignalsLemmas Hostile.
Local Open Scope N_scope.

Section Steps.
Variable cls : okind -> N -> N -> pcls.
Variable g : hcfg.

Notation hstep := (hstep cls g).
Notation hrun := (hrun cls g).

Definition terminate_at (x : obj) (f : hframe) : Prop :=
  exists oid sg u, f_act f = A_terminate /\ cls (o_kind x) (f_act f) (f_pl f) = PArgs oid sg u /\ oid_ok x oid = true.

Definition okey (x : obj) : N * N * okind := (o_svc x, o_id x, o_kind x).
Definition same_key (x x' : obj) : Prop := okey x' = okey x.

Definition exec_post (st : hstate) (x : obj) (f : hframe) (r : option (obj * list (nat * dframe) * option nat)) : Prop :=
  match r with
  | Some (x', ws, lk) =>
      same_key x x' /\ o_mb x' = tl (o_mb x) /\ (h_dup_relock g = false -> o_gor x' = OIdle /\ lk = None) /\
      (o_alive x' = o_alive x \/ terminate_at x f)
  | None => exists c, conn_locked st c = true
  end.

Lemma exec_post_same st x f t gor ws lk : (h_dup_relock g = false -> gor = OIdle /\ lk = None) ->
  exec_post st x f (Some ({| o_svc := o_svc x; o_id := o_id x; o_kind := o_kind x; o_alive := o_alive x; o_table := t;
                             o_mb := tl (o_mb x); o_gor := gor |}, ws, lk)).
Proof. intro H. split; [repeat split|]. split; [reflexivity|]. split; [exact H|left; reflexivity]. Qed.

Lemma exec_post_idle st x f t ws :
  exec_post st x f (Some ({| o_svc := o_svc x; o_id := o_id x; o_kind := o_kind x; o_alive := o_alive x; o_table := t;
                             o_mb := tl (o_mb x); o_gor := OIdle |}, ws, None)).
Proof. apply exec_post_same. auto. Qed.

Lemma exec_post_locked st x f c r : exec_post st x f r -> exec_post st x f (if conn_locked st c then None else r).
Proof. destruct (conn_locked st c) eqn:E; [exists c; exact E|auto]. Qed.

Lemma exec_post_if st x f (b : bool) r1 r2 : exec_post st x f r1 -> exec_post st x f r2 -> exec_post st x f (if b then r1 else r2).
Proof. now destruct b. Qed.

Lemma kind_cases {A} (P : A -> Prop) (k : okind) (a b : A) : P a -> P b -> P (match k with KAuth => a | _ => b end).
Proof. destruct k; auto. Qed.

Lemma obj_exec_spec st x c f : exec_post st x f (obj_exec cls g st x c f).
Proof.
  unfold obj_exec. apply kind_cases; [apply exec_post_idle|]. apply exec_post_if; [apply exec_post_idle|].
  apply exec_post_if.
  { destruct (cls _ _ _); try apply exec_post_idle. apply exec_post_if; [apply exec_post_idle|]. apply exec_post_locked.
    destruct (find_idx _ _); [|apply exec_post_idle]. destruct (h_dup_relock g) eqn:D; [|apply exec_post_idle].
    apply exec_post_locked, exec_post_same. congruence. }
  apply exec_post_if.
  { destruct (cls _ _ _); try apply exec_post_idle. apply exec_post_if; [apply exec_post_idle|].
    destruct (find_idx _ _); [apply exec_post_locked|]; apply exec_post_idle. }
  apply exec_post_if; [destruct (cls _ _ _); apply exec_post_idle|].
  destruct (f_act f =? A_terminate) eqn:T; [|destruct (cls _ _ _); apply exec_post_idle].
  destruct (cls _ _ _) eqn:K; try apply exec_post_idle.
  destruct (oid_ok x oid) eqn:O; [|apply exec_post_idle]. cbn [negb].
  destruct (existsb _ _) eqn:E.
  - apply existsb_exists in E as (u & _ & E). now exists (u_conn u).
  - split; [repeat split|]. split; [reflexivity|]. split; [auto|]. right.
    apply N.eqb_eq in T. now exists oid, sig, uid.
Qed.

Definition objs_post (st : hstate) (l : hlabel) (st' : hstate) : Prop :=
  objs st' = objs st \/
  exists o x x', nth_error (objs st) o = Some x /\ objs st' = set_nth (objs st) o x' /\ same_key x x' /\
    (o_alive x' = o_alive x \/ l = LObj o /\ exists c f r, o_mb x = (c, f) :: r /\ terminate_at x f).

Lemma objs_post_at st l o x t mb gor cs cl : nth_error (objs st) o = Some x ->
  objs_post st l {| objs := set_nth (objs st) o {| o_svc := o_svc x; o_id := o_id x; o_kind := o_kind x; o_alive := o_alive x;
                                                   o_table := t; o_mb := mb; o_gor := gor |};
                    conns := cs; closers := cl |}.
Proof. intro E. right. eexists o, x, _. repeat split; auto. Qed.

Lemma hstep_objs st l : match hstep st l with Some st' => objs_post st l st' | None => True end.
Proof.
  destruct l as [c f|c| |c|c|c|c|c|o|o| ]; cbn [Hostile.hstep];
    (* the labels of a connection look up its state x first *)
    try (destruct (nth_error (conns st) _) as [x|]; [|exact I]).
  - (* HSend *) left; reflexivity.
  - (* HRead *) destruct (c_out x); [exact I|left; reflexivity].
  - (* HConnect *) left; reflexivity.
  - (* LProc *) destruct (c_open x), (c_proc x), (c_hlock x), (c_in x); try exact I.
    destruct (negb _); [left; reflexivity|]. destruct (negb _); [left; reflexivity|].
    destruct (Nat.ltb _ _); [left; reflexivity|]. destruct (_ =? _); [destruct (can_write g x)|]; left; reflexivity.
  - (* LProcResume *) destruct (c_proc x); [exact I|]. destruct (can_write g x); [left; reflexivity|exact I].
  - (* LCons *) destruct (c_cons x); try exact I. destruct (c_q x) as [|f rest]; [exact I|].
    destruct (find_obj g st (f_svc f) (f_obj f)) as [o|]; [|destruct (can_write g x); left; reflexivity].
    destruct (nth_error (objs st) o) as [y|] eqn:Ey; [|exact I].
    destruct (Nat.ltb _ _); [|left; reflexivity]. apply objs_post_at, Ey.
  - (* LConsPut *) destruct (c_cons x) as [|o f|]; try exact I. destruct (nth_error (objs st) o) as [y|] eqn:Ey; [|exact I].
    destruct (Nat.ltb _ _); [|exact I]. apply objs_post_at, Ey.
  - (* LConsResume *) destruct (c_cons x); try exact I. destruct (can_write g x); [left; reflexivity|exact I].
  - (* LObj: obj_exec_spec, and blocking in a write changes o_gor only *)
    destruct (nth_error (objs st) o) as [x|] eqn:Ex; [|exact I].
    destruct (o_gor x), (o_mb x) as [|[c f] r] eqn:Em; try exact I.
    pose proof (obj_exec_spec st x c f) as S. destruct (obj_exec cls g st x c f) as [[[x' ws] lk]|]; [|exact I].
    destruct S as (K & _ & _ & A). destruct (do_writes _ _ _) as [cs rest].
    right. eexists o, x, _. split; [exact Ex|]. split; [reflexivity|]. split; [destruct rest, (o_gor x'); exact K|].
    destruct A as [A|T]; [left|right; split; [reflexivity|now exists c, f, r]]. destruct rest, (o_gor x'); exact A.
  - (* LObjResume *) destruct (nth_error (objs st) o) as [x|] eqn:Ex; [|exact I]. destruct (o_gor x); try exact I.
    destruct (do_writes _ _ _) as [cs rest]. destruct (Nat.eqb _ _); [exact I|]. apply objs_post_at, Ex.
  - (* LCloser *) destruct (closers st) as [|[[o uid] c] r]; [exact I|].
    destruct (nth_error (objs st) o) as [x|] eqn:Ex; [|left; reflexivity]. apply objs_post_at, Ex.
Qed.

Lemma hstep_obj_at st l st' o x x' : hstep st l = Some st' -> nth_error (objs st) o = Some x -> nth_error (objs st') o = Some x' ->
  o_alive x' = o_alive x \/ l = LObj o /\ exists c f r, o_mb x = (c, f) :: r /\ terminate_at x f.
Proof.
  intros H Ex Ex'.
  destruct (some_elim _ _ _ H (hstep_objs st l)) as [E|(o0 & y & y' & Ey & E & _ & Moves)]; rewrite E in Ex'.
  - left. congruence.
  - destruct (Nat.eq_dec o0 o) as [->|Ne].
    + rewrite (nth_error_set_nth_eq _ _ _ _ Ey) in Ex'. replace x with y by congruence. replace x' with y' by congruence. exact Moves.
    + left. rewrite nth_error_set_nth_neq in Ex' by exact Ne. congruence.
Qed.

Definition okeys (st : hstate) : list (N * N * okind) := map okey (objs st).

Lemma okeys_step st l st' : hstep st l = Some st' -> okeys st' = okeys st.
Proof.
  intro H. unfold okeys.
  destruct (some_elim _ _ _ H (hstep_objs st l)) as [->|(o & x & x' & Ex & -> & K & _)]; [reflexivity|].
  exact (map_set_nth_same okey _ _ _ x Ex K).
Qed.

Lemma hrun_app st a b : hrun st (a ++ b) = match hrun st a with Some s => hrun s b | None => None end.
Proof. revert st. induction a as [|l a IH]; intro st; cbn; [reflexivity|]. destruct (hstep st l); [apply IH|reflexivity]. Qed.
End Steps.

Section Proofs.
Variable cls : okind -> N -> N -> pcls.
Variable g : hcfg.
Hypothesis Hclean : hclean g.

Notation hstep := (hstep cls g).
Notation hrun := (hrun cls g).

Definition cgood (x : conn) : Prop :=
  c_hlock x = false /\ c_proc x = PIdle /\ (forall d, c_cons x <> CBlockedW d) /\ (List.length (c_q x) <= ConsumerCap)%nat.
Definition ogood (x : obj) : Prop := o_gor x = OIdle /\ (List.length (o_mb x) <= MailboxCap)%nat.
Record HInv (st : hstate) : Prop := {
  hi_conns : Forall cgood (conns st);
  hi_objs : Forall ogood (objs st);
  hi_hold : forall c x o f, nth_error (conns st) c = Some x -> c_cons x = CHold o f -> (o < List.length (objs st))%nat
}.

(* HInv connection by connection: n is the number of objects *)
Definition cinv (n : nat) (x : conn) : Prop := cgood x /\ forall o f, c_cons x = CHold o f -> (o < n)%nat.

Lemma HInv_cinv st : HInv st <-> Forall (cinv (List.length (objs st))) (conns st) /\ Forall ogood (objs st).
Proof.
  split.
  - intros [HC HO HH]. split; [|exact HO]. apply Forall_forall. intros x [c Hc]%In_nth_error.
    split; [exact (Forall_nth_error _ _ _ _ HC Hc)|]. intros o f. exact (HH c x o f Hc).
  - intros [HC HO]. split; [eapply Forall_impl; [|exact HC]; now intros x []|exact HO|].
    intros c x o f Hc. exact (proj2 (Forall_nth_error _ _ _ _ HC Hc) o f).
Qed.

Lemma cinv_mk n op i q cg ou go :
  (List.length q <= ConsumerCap)%nat -> (forall d, cg <> CBlockedW d) -> (forall o f, cg = CHold o f -> (o < n)%nat) ->
  cinv n {| c_open := op; c_in := i; c_q := q; c_proc := PIdle; c_cons := cg; c_hlock := false; c_out := ou; c_got := go |}.
Proof. intros. repeat split; assumption. Qed.

Lemma cinv_with_out n x d : cinv n x -> cinv n (with_out x d).
Proof. unfold with_out. destruct (c_open x); auto. Qed.

Lemma can_write_clean x : can_write g x = true.
Proof. unfold can_write. destruct Hclean as [_ ->]. reflexivity. Qed.

Lemma do_writes_clean n cs ws : Forall (cinv n) cs ->
  exists cs', do_writes g cs ws = (cs', []) /\ Forall (cinv n) cs' /\ List.length cs' = List.length cs.
Proof.
  revert cs. induction ws as [|[c d] ws IH]; intros cs H; cbn [do_writes].
  - exists cs. auto.
  - destruct (nth_error cs c) as [x|] eqn:E.
    + rewrite can_write_clean.
      destruct (IH (set_nth cs c (with_out x d))) as (cs' & E' & F' & L').
      { apply Forall_set_nth; [exact H|]. apply cinv_with_out. eapply Forall_nth_error; eassumption. }
      exists cs'. rewrite set_nth_length in L'. auto.
    + apply IH. exact H.
Qed.

Lemma obj_exec_clean n st x c f : Forall (cinv n) (conns st) ->
  exists x' ws, obj_exec cls g st x c f = Some (x', ws, None) /\ o_gor x' = OIdle /\ o_mb x' = tl (o_mb x).
Proof.
  intro HC. pose proof (obj_exec_spec cls g st x c f) as S. destruct (obj_exec cls g st x c f) as [[[x' ws] lk]|].
  - destruct S as (_ & Em & Hg & _). destruct (Hg (proj1 Hclean)) as [Go ->]. now exists x', ws.
  - destruct S as [c' L]. unfold conn_locked in L. destruct (nth_error (conns st) c') as [y|] eqn:E; [|discriminate].
    destruct (Forall_nth_error _ _ _ _ HC E) as [[L' _] _]. congruence.
Qed.

Lemma ogood_same_gor x mb : o_gor x = OIdle -> (List.length mb <= MailboxCap)%nat ->
  ogood {| o_svc := o_svc x; o_id := o_id x; o_kind := o_kind x; o_alive := o_alive x; o_table := o_table x; o_mb := mb; o_gor := o_gor x |}.
Proof. intros; split; assumption. Qed.

(* the object's goroutine is never stuck: it takes its next mail *)
Lemma obj_takes st o x c f r : HInv st -> nth_error (objs st) o = Some x -> o_mb x = (c, f) :: r ->
  exists st' x', hstep st (LObj o) = Some st' /\ HInv st' /\ nth_error (objs st') o = Some x' /\ o_mb x' = r /\
    List.length (conns st') = List.length (conns st).
Proof.
  intros [HC HO]%HInv_cinv Ex Em. destruct (Forall_nth_error _ _ _ _ HO Ex) as [Y1 Y2].
  destruct (obj_exec_clean _ st x c f HC) as (x' & ws & E & Go & Em').
  destruct (do_writes_clean _ (conns st) ws HC) as (cs' & Ew & Fw & Lw).
  cbn [Hostile.hstep]. rewrite Ex, Y1, Em, E. cbn [lock_conn]. rewrite Ew. rewrite Em in Em', Y2. cbn [tl List.length] in Em', Y2.
  eexists _, x'. split; [reflexivity|]. cbn [objs conns].
  split; [|split; [exact (nth_error_set_nth_eq _ _ _ _ Ex)|split; [exact Em'|exact Lw]]].
  apply HInv_cinv. cbn [objs conns]. rewrite set_nth_length. split; [exact Fw|]. apply Forall_set_nth; [exact HO|].
  split; [exact Go|]. rewrite Em'. lia.
Qed.

Definition with_mb (x : obj) (mb : list (nat * hframe)) : obj :=
  {| o_svc := o_svc x; o_id := o_id x; o_kind := o_kind x; o_alive := o_alive x; o_table := o_table x; o_mb := mb; o_gor := o_gor x |}.

Lemma hstep_inv st l : HInv st -> match hstep st l with Some st' => HInv st' | None => True end.
Proof.
  intro Inv. pose proof Inv as [HC HO]%HInv_cinv. set (n := List.length (objs st)) in HC.
  assert (HS : forall c x' cl, cinv n x' -> HInv {| objs := objs st; conns := set_nth (conns st) c x'; closers := cl |}).
  { intros c x' cl Hx. apply HInv_cinv. split; [apply Forall_set_nth|]; assumption. }
  assert (HP : forall o y m c x' cl, nth_error (objs st) o = Some y -> Nat.ltb (List.length (o_mb y)) MailboxCap = true -> cinv n x' ->
            HInv {| objs := set_nth (objs st) o (with_mb y (o_mb y ++ [m])); conns := set_nth (conns st) c x'; closers := cl |}).
  { intros o y m c x' cl Ey El%Nat.ltb_lt Hx. apply HInv_cinv. cbn [objs conns]. rewrite set_nth_length.
    split; apply Forall_set_nth; try assumption.
    apply ogood_same_gor; [exact (proj1 (Forall_nth_error _ _ _ _ HO Ey))|]. rewrite app_length. cbn. lia. }
  destruct l as [c f|c| |c|c|c|c|c|o|o| ]; cbn [Hostile.hstep];
    try (destruct (nth_error (conns st) _) as [x|] eqn:Ex; [|exact I];
         pose proof (Forall_nth_error _ _ _ _ HC Ex) as Hx; pose proof Hx as [(G1 & G2 & G3 & G4) GH]).
  - (* HSend: only c_in changes *) apply HS, Hx.
  - (* HRead: only c_out and c_got change *) destruct (c_out x); [exact I|apply HS, Hx].
  - (* HConnect *) apply HInv_cinv. split; [apply Forall_app; split; [exact HC|constructor; [|constructor]]|exact HO].
    apply cinv_mk; [apply Nat.le_0_l|discriminate..].
  - (* LProc: c_cons stays, the queue grows only below its capacity *)
    rewrite G1, G2. destruct (c_open x), (c_in x) as [|f rest]; try exact I. rewrite can_write_clean.
    destruct (negb (readable f)); [apply HS, cinv_mk; assumption|].
    destruct (negb (for_server f)); [apply HS, cinv_mk; assumption|].
    destruct (Nat.ltb _ _) eqn:El.
    { apply HS, cinv_mk; try assumption. apply Nat.ltb_lt in El. rewrite app_length. cbn. lia. }
    destruct (_ =? _); [apply HS, cinv_with_out, cinv_mk|apply HS, cinv_mk]; assumption.
  - (* LProcResume: never enabled *) rewrite G2. exact I.
  - (* LCons: the queue shrinks; the consumer is idle again, or holds a mail for an object that exists *)
    rewrite G1, G2. destruct (c_cons x); try exact I. destruct (c_q x) as [|f rest]; [exact I|]. cbn [List.length] in G4.
    destruct (find_obj g st (f_svc f) (f_obj f)) as [o|].
    + destruct (nth_error (objs st) o) as [y|] eqn:Ey; [|exact I]. destruct (Nat.ltb _ _) eqn:El.
      * apply (HP _ _ _ _ _ _ Ey El), cinv_mk; [lia|discriminate..].
      * apply HS, cinv_mk; [lia|discriminate|]. intros o0 f0 [= <- _]. apply nth_error_Some. congruence.
    + rewrite can_write_clean. apply HS, cinv_with_out, cinv_mk; [lia|discriminate..].
  - (* LConsPut *) rewrite G1, G2. destruct (c_cons x) as [|o f|]; try exact I.
    destruct (nth_error (objs st) o) as [y|] eqn:Ey; [|exact I]. destruct (Nat.ltb _ _) eqn:El; [|exact I].
    apply (HP _ _ _ _ _ _ Ey El), cinv_mk; [exact G4|discriminate..].
  - (* LConsResume: never enabled *) destruct (c_cons x); try exact I. now destruct (G3 d).
  - (* LObj *) destruct (nth_error (objs st) o) as [x|] eqn:Ex; [|exact I].
    destruct (o_mb x) as [|[c f] r] eqn:Em; [destruct (o_gor x); exact I|].
    destruct (obj_takes st o x c f r Inv Ex Em) as (st' & x' & E & I' & _).
    cbn [Hostile.hstep] in E. rewrite Ex, Em in E. rewrite E. exact I'.
  - (* LObjResume: never enabled *)
    destruct (nth_error (objs st) o) as [x|] eqn:Ex; [|exact I].
    destruct (Forall_nth_error _ _ _ _ HO Ex) as [-> _]. exact I.
  - (* LCloser: only a table changes *)
    destruct (closers st) as [|[[o uid] c] r]; [exact I|].
    destruct (nth_error (objs st) o) as [x|] eqn:Ex; apply HInv_cinv; cbn [objs conns]; [|now split].
    rewrite set_nth_length. split; [exact HC|]. apply Forall_set_nth; [exact HO|].
    now destruct (Forall_nth_error _ _ _ _ HO Ex).
Qed.

Theorem HInv_step st l st' : HInv st -> hstep st l = Some st' -> HInv st'.
Proof. intros Inv H. exact (some_elim _ _ _ H (hstep_inv st l Inv)). Qed.

Lemma run_inv st0 tr : forall st, HInv st0 -> hrun st0 tr = Some st -> HInv st /\ okeys st = okeys st0.
Proof.
  revert st0. induction tr as [|l r IH]; intros st0 st I H; cbn in H; [injection H as <-; auto|].
  destruct (hstep st0 l) as [st1|] eqn:E; [|discriminate].
  destruct (IH st1 st (HInv_step _ _ _ I E) H) as [I' K]. split; [exact I'|]. rewrite K. exact (okeys_step _ _ _ _ _ E).
Qed.

Lemma drain st o : forall n x, HInv st -> nth_error (objs st) o = Some x -> List.length (o_mb x) = n ->
  exists st1 x1, hrun st (repeat (LObj o) n) = Some st1 /\ nth_error (objs st1) o = Some x1 /\ o_mb x1 = [] /\
                 List.length (conns st1) = List.length (conns st).
Proof.
  intro n. revert st. induction n as [|n IH]; intros st x I Ex Ln.
  - exists st, x. destruct (o_mb x); [now cbn|discriminate].
  - destruct (o_mb x) as [|[c f] r] eqn:Em; [discriminate|]. injection Ln as Ln.
    destruct (obj_takes st o x c f r I Ex Em) as (st' & x' & Es & I' & Ex' & Em' & Lc).
    destruct (IH _ x' I' Ex') as (st1 & x1 & Er & Ex1 & Em1 & L1); [now rewrite Em'|].
    exists st1, x1. cbn [repeat Hostile.hrun]. rewrite Es, L1, Lc. auto.
Qed.

Definition key_of (x : obj) : N * N := (o_svc x, o_id x).
Definition keys_distinct (st : hstate) : Prop := NoDup (map key_of (objs st)).
Lemma keys_distinct_okeys st st' : okeys st' = okeys st -> keys_distinct st -> keys_distinct st'.
Proof.
  unfold keys_distinct. intros E H.
  assert (M : forall s, map key_of (objs s) = map fst (okeys s)) by (intro; unfold okeys; now rewrite map_map).
  now rewrite M, E, <- M.
Qed.

Lemma find_obj_at st o x : keys_distinct st -> nth_error (objs st) o = Some x ->
  (o_alive x || h_removed_answers g) = true -> find_obj g st (o_svc x) (o_id x) = Some o.
Proof.
  intros K Ex Al. apply (find_idx_key key_of _ _ o x K Ex); [now rewrite !N.eqb_refl, Al|].
  intros y [[F1%N.eqb_eq F2%N.eqb_eq]%andb_prop _]%andb_prop. unfold key_of. congruence.
Qed.

Lemma obj_exec_meta st x c f oid sg u : o_kind x <> KAuth -> f_type f = T_call -> f_act f = A_metaObject ->
  cls (o_kind x) A_metaObject (f_pl f) = PArgs oid sg u -> oid_ok x oid = true ->
  obj_exec cls g st x c f =
    Some ({| o_svc := o_svc x; o_id := o_id x; o_kind := o_kind x; o_alive := o_alive x; o_table := o_table x;
             o_mb := tl (o_mb x); o_gor := OIdle |}, [(c, DReply A_metaObject (f_id f))], None).
Proof.
  intros Hk Ht Ha Hc Ho. unfold obj_exec. rewrite Ha. cbn [A_metaObject A_register A_unregister N.eqb Pos.eqb].
  unfold answers, reply. rewrite Ht, Hc, Ho, Ha. cbn [T_call T_post N.eqb Pos.eqb orb negb].
  rewrite andb_false_r. now destruct (o_kind x).
Qed.

(* the probe's connection: open, idle, nothing read by the client yet *)
Definition pconn (i q : list hframe) (ou : list dframe) : conn :=
  {| c_open := true; c_in := i; c_q := q; c_proc := PIdle; c_cons := CIdle; c_hlock := false; c_out := ou; c_got := [] |}.

Lemma p_connect os cs cl : hstep (Build_hstate os cs cl) HConnect = Some (Build_hstate os (cs ++ [conn0]) cl).
Proof. reflexivity. Qed.
Lemma p_send os cs cl f : hstep (Build_hstate os (cs ++ [conn0]) cl) (HSend (List.length cs) f) = Some (Build_hstate os (cs ++ [pconn [f] [] []]) cl).
Proof. cbn [Hostile.hstep conns]. rewrite nth_error_app_last. unfold upd_conn. cbn [conns objs closers]. now rewrite set_nth_app_last. Qed.
Lemma p_proc os cs cl f : readable f = true -> for_server f = true ->
  hstep (Build_hstate os (cs ++ [pconn [f] [] []]) cl) (LProc (List.length cs)) = Some (Build_hstate os (cs ++ [pconn [] [f] []]) cl).
Proof.
  intros R F. cbn [Hostile.hstep conns]. rewrite nth_error_app_last. cbn [pconn c_open c_proc c_hlock c_in c_q].
  rewrite R, F. cbn [negb List.length Nat.ltb Nat.leb ConsumerCap]. unfold upd_conn. cbn [conns objs closers app]. now rewrite set_nth_app_last.
Qed.
Lemma p_cons os cs cl f o y : find_obj g (Build_hstate os (cs ++ [pconn [] [f] []]) cl) (f_svc f) (f_obj f) = Some o ->
  nth_error os o = Some y -> o_mb y = [] ->
  hstep (Build_hstate os (cs ++ [pconn [] [f] []]) cl) (LCons (List.length cs)) =
    Some (Build_hstate (set_nth os o (with_mb y [(List.length cs, f)])) (cs ++ [conn0]) cl).
Proof.
  intros Hf Ey Em. cbn [Hostile.hstep conns]. rewrite nth_error_app_last. cbn [pconn c_cons c_q]. rewrite Hf. cbn [objs].
  rewrite Ey, Em. cbn [List.length Nat.ltb Nat.leb MailboxCap app conns closers]. rewrite set_nth_app_last. reflexivity.
Qed.
Lemma p_obj os cs cl o y f oid sg u :
  nth_error os o = Some y -> o_gor y = OIdle -> o_kind y <> KAuth -> f_type f = T_call -> f_act f = A_metaObject ->
  cls (o_kind y) A_metaObject (f_pl f) = PArgs oid sg u -> oid_ok y oid = true ->
  hstep (Build_hstate (set_nth os o (with_mb y [(List.length cs, f)])) (cs ++ [conn0]) cl) (LObj o) =
    Some (Build_hstate (set_nth os o (with_mb y [])) (cs ++ [pconn [] [] [DReply A_metaObject (f_id f)]]) cl).
Proof.
  intros Ey Hg Hk Ht Ha Hc Ho.
  cbn [Hostile.hstep objs]. rewrite (nth_error_set_nth_eq _ _ _ _ Ey). cbn [with_mb o_gor o_mb]. rewrite Hg.
  rewrite (obj_exec_meta _ (with_mb y [(List.length cs, f)]) _ f oid sg u Hk Ht Ha Hc Ho). cbn [lock_conn do_writes conns].
  rewrite nth_error_app_last, can_write_clean. cbn [with_out conn0 c_open c_in c_q c_proc c_cons c_hlock c_out c_got app o_gor].
  rewrite set_nth_app_last, set_nth_twice. unfold with_mb. now rewrite Hg.
Qed.

Theorem probe_answered_bounded st o x pl oid sg u :
  HInv st -> keys_distinct st -> nth_error (objs st) o = Some x -> o_kind x <> KAuth ->
  cls (o_kind x) A_metaObject pl = PArgs oid sg u -> (oid = 0 \/ oid = o_id x) ->
  (List.length (probe_sched st o x pl) <= MailboxCap + 5)%nat /\
  ((exists st', hrun st (probe_sched st o x pl) = Some st' /\ probe_answered st' (List.length (conns st)) = true) \/
   (exists st1 x1, hrun st (repeat (LObj o) (List.length (o_mb x))) = Some st1 /\ nth_error (objs st1) o = Some x1 /\
                   o_alive x1 = false)).
Proof.
  intros I K Ex Hk Hcls Hoid. split.
  { unfold probe_sched. rewrite app_length, repeat_length. cbn. pose proof (Forall_nth_error _ _ _ _ (hi_objs _ I) Ex) as (_ & L). unfold MailboxCap in *. lia. }
  destruct (drain st o _ x I Ex eq_refl) as (st1 & x1 & Er & Ex1 & Em1 & L1). destruct (run_inv _ _ _ I Er) as [I1 K1].
  destruct (o_alive x1) eqn:Al; [left|right; exists st1, x1; auto].
  pose proof (find_obj_at st1 o x1 (keys_distinct_okeys _ _ K1 K) Ex1) as Hf. rewrite Al in Hf. specialize (Hf eq_refl).
  apply (f_equal (fun k => nth_error k o)) in K1. unfold okeys, okey in K1. rewrite !nth_error_map, Ex1, Ex in K1. injection K1 as Ks Ki Kk.
  pose proof (Forall_nth_error _ _ _ _ (hi_objs _ I1) Ex1) as (G1 & _).
  unfold probe_sched. rewrite hrun_app, Er. rewrite <- L1.
  destruct st1 as [os1 cs1 cl1]. cbn [objs conns closers] in *.
  set (f := probe_frame x pl).
  exists (Build_hstate (set_nth os1 o (with_mb x1 [])) (cs1 ++ [pconn [] [] [DReply A_metaObject 3]]) cl1). split.
  - cbn [Hostile.hrun]. rewrite p_connect, p_send, (p_proc os1 cs1 cl1 f eq_refl eq_refl).
    rewrite (p_cons os1 cs1 cl1 f o x1); [|unfold find_obj in *; cbn [objs f probe_frame f_svc f_obj] in *; now rewrite <- Ks, <- Ki|exact Ex1|exact Em1].
    rewrite (p_obj os1 cs1 cl1 o x1 f oid sg u Ex1 G1); [reflexivity|congruence|reflexivity|reflexivity|now rewrite Kk|].
    unfold oid_ok. rewrite Ki. destruct Hoid as [->| ->]; [reflexivity|rewrite N.eqb_refl; apply orb_true_r].
  - unfold probe_answered. cbn [conns]. rewrite nth_error_app_last. reflexivity.
Qed.
End Proofs.

(* what the theorems over runs ask of the first state: the invariant and distinct (service, object) keys; a server
   that has just started (nothing queued, nobody connected) is such a state, hstart_init *)
Definition hstart (st0 : hstate) : Prop := HInv st0 /\ keys_distinct st0.
Lemma hstart_init id2 : id2 <> 1 -> hstart (hinit_of id2).
Proof.
  intro Hn. split; [split; cbn|].
  - constructor.
  - repeat constructor; cbn; unfold MailboxCap; lia.
  - intros c x o f H. destruct c; discriminate.
  - unfold keys_distinct. cbn. repeat constructor; cbn.
    + intros [H|[H|[H|[]]]]; discriminate H.
    + intros [H|[H|[]]]; discriminate H.
    + intros [[= E]|[]]. exact (Hn E).
    + intros [].
Qed.

Definition hcfg_of (d u w r : bool) : hcfg :=
  {| h_dup_relock := d; h_uid_global := u; h_write_blocks := w; h_removed_answers := r; h_other_types_run := true |}.
Definition hfr (t s o a i pl : N) : hframe := {| f_type := t; f_svc := s; f_obj := o; f_act := a; f_id := i; f_pl := pl |}.
Definition generic_obj : obj := mk_obj 2 1 KGeneric.

(* registerEvent twice with one id: the object's goroutine is dead, the probe schedule cannot run *)
Definition tr_dup : list hlabel :=
  [HConnect; HSend 0 (hfr 1 2 1 0 11 (pack_args 1 200 7)); LProc 0; LCons 0; LObj 2;
   HSend 0 (hfr 1 2 1 0 13 (pack_args 1 200 7)); LProc 0; LCons 0; LObj 2].
Lemma refuted_dup_relock :
  exists st x, hrun std_cls (hcfg_of true false false true) hinit tr_dup = Some st /\
    nth_error (objs st) 2 = Some x /\ o_gor x = ODead /\ o_alive x = true /\
    hrun std_cls (hcfg_of true false false true) st (probe_sched st 2 x (pack_args 1 0 0)) = None.
Proof.
  do 2 eexists. split; [vm_compute; reflexivity|]. split; [reflexivity|]. split; [reflexivity|]. split; [reflexivity|].
  vm_compute. reflexivity.
Qed.

(* a client that does not read: after OutCap answers the object's goroutine is blocked in its write *)
Definition flood (n : nat) : list hlabel :=
  HConnect :: flat_map (fun i => [HSend 0 (hfr 1 2 1 2 (N.of_nat (11 + 2 * i)) (pack_args 1 0 0)); LProc 0; LCons 0; LObj 2]) (seq 0 n).
Lemma refuted_write_blocks :
  exists st x, hrun std_cls (hcfg_of false false true true) hinit (flood (S OutCap)) = Some st /\
    nth_error (objs st) 2 = Some x /\ (exists ws, o_gor x = OBlocked ws) /\ o_alive x = true /\
    hrun std_cls (hcfg_of false false true true) st (probe_sched st 2 x (pack_args 1 0 0)) = None.
Proof.
  do 2 eexists. split; [vm_compute; reflexivity|]. split; [reflexivity|]. split; [eexists; reflexivity|]. split; [reflexivity|].
  vm_compute. reflexivity.
Qed.

(* the same two scripts, one after the other on one server, with both defects off (h_uid_global is on here, hclean leaves it free):
   70 unread answers, more than the S OutCap = 65 that blocked the object above ([tl] drops the second HConnect); the probe is answered *)
Lemma ex_clean_probe :
  exists st x st', hrun std_cls (hcfg_of false true false true) hinit (tr_dup ++ tl (flood 70)) = Some st /\
    nth_error (objs st) 2 = Some x /\
    hrun std_cls (hcfg_of false true false true) st (probe_sched st 2 x (pack_args 1 0 0)) = Some st' /\
    probe_answered st' (List.length (conns st)) = true.
Proof.
  do 3 eexists. split; [vm_compute; reflexivity|]. split; [reflexivity|]. split; vm_compute; reflexivity.
Qed.
