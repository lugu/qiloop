(* WireProofs.v — the typed decoder of the documented format (spec_dec) and the signature
   driven reader (sig_read) on valid encodings, each by one induction over typed values in the
   calculus of PrefixLemmas.v: they consume the encoding exactly, return the value (resp. its
   bytes, with value_reader_no_len off) and refuse every proper prefix (sig_read: with
   string_reader_drops_err off). *)
From QV Require Import Wire WireLemmas PrefixLemmas.
Local Open Scope nat_scope.

Lemma dyn_depth_le_len : forall v t, has_ty v t = true -> dyn_depth v <= List.length (spec_enc v).
Proof. intros v t _. apply dyn_depth_le_len_any. Qed.

Lemma zero_width_val : forall v t, has_ty v t = true -> min_width t = 0 -> v = zero_val t.
Proof. intros v t Hty Hz. now apply zero_width. Qed.

Lemma spec_body_num dyn obj s w : scalar_width s = Some w ->
  spec_body dyn obj (TS s) = fun bs => do '(n, r) <- read_num w bs; ROk (VNum w n, r).
Proof. intro Hw. destruct s; try discriminate Hw; injection Hw as <-; reflexivity. Qed.

Lemma sig_body_num c dyn obj s w : scalar_width s = Some w -> sig_body c dyn obj (TS s) = take_n w.
Proof. intro Hw. destruct s; try discriminate Hw; injection Hw as <-; reflexivity. Qed.

(* ObjectReference holds neither "m" nor "o": its decoder is the same under any handlers, by
   evaluation on the concrete type (ReflProofs.refl_obj_body for refl_body).  The type's constants
   are unfolded first: left to the conversion test alone, the two sides are compared handler
   against handler at every level before they are unfolded. *)
Lemma spec_obj_body dyn bs : spec_obj bs = spec_body dyn spec_obj ty_ObjectReference bs.
Proof.
  lazy [spec_obj ty_ObjectReference ty_MetaObject ty_MetaMethod ty_MetaMethodParameter ty_MetaSignal ty_MetaProperty
        spec_body map snd].
  reflexivity.
Qed.
Lemma sig_obj_body c dyn bs : sig_obj c bs = sig_body c dyn (sig_obj c) ty_ObjectReference bs.
Proof.
  lazy [sig_obj ty_ObjectReference ty_MetaObject ty_MetaMethod ty_MetaMethodParameter ty_MetaSignal ty_MetaProperty
        sig_body map snd].
  reflexivity.
Qed.

(* the members of a tuple or struct, read at every fuel and bound, are read one after the other
   at the fuel and bound of the whole *)
Lemma reads_members {A T} R (D : nat -> ty -> bytes -> res (A * bytes)) (X : tval -> A -> Prop)
    (proj : T -> ty) fuel B l ts :
  Forall2 (fun x t => forall fuel B, Nat.min (dyn_depth x) B <= fuel ->
                        reads R B (D fuel (proj t)) (X x) (spec_enc x)) l ts ->
  Nat.min (fold_right (fun y a => Nat.max (dyn_depth y) a) 0 l) B <= fuel ->
  reads R B (seq_with (map (fun t => D fuel (proj t)) ts)) (Forall2 X l) (flat_map spec_enc l).
Proof.
  intros HF Hd. apply seq_with_reads. revert Hd.
  induction HF as [|x t l ts Hx _ IH]; intro Hd; cbn [map fold_right] in *; constructor;
    [apply Hx|apply IH]; lia.
Qed.
Arguments reads_members {A T R} D {X} proj {fuel B l ts}.

Section P.
  Variable parse : string -> option ty.
  Hypothesis parse_print : forall t, wf_ty t = true -> parse (print t) = Some t.
  Variable c : wcfg.

  (* Why the minimum: NewValue runs sig_read with the length of its input as fuel, which on a cut
     input may be less than dyn_depth v.  A decoder run on fewer than B bytes cannot meet more
     than B nested dynamic values (each takes the four bytes of its signature length), so the
     fuel need only cover the depth that fits into B bytes; with no fuel left, B is 0. *)
  Definition spec_reads_at (v : tval) (t : ty) : Prop :=
    forall fuel B, Nat.min (dyn_depth v) B <= fuel ->
      reads True B (spec_body (spec_dyn parse fuel) spec_obj t) (eq v) (spec_enc v).

  Lemma spec_dec_reads : forall v t, has_ty v t = true -> spec_reads_at v t.
  Proof.
    apply has_ty_ind; unfold spec_reads_at.
    - intros s w b Hw Hb fuel B _. rewrite (spec_body_num _ _ s w Hw).
      exact (reads_val (read_num_reads Hb)).
    - (* VBool (negb (unle [x01] =? 0)) is VBool true by computation, and so for x00 *)
      intros [] fuel B _; exact (reads_val (read_num_bytes (e := [_]) eq_refl)).
    - intros s Hs fuel B _. exact (reads_val (read_str_reads Hs)).
    - intros fuel B _. exact (reads_ret eq_refl).
    - intros t' l Hn HF fuel B Hd. cbn [spec_body spec_enc dyn_depth] in *.
      apply reads_u32; [exact (lt31_lt32 _ Hn)|].
      apply (reads_map (Forall2 eq l)); [|now intros ys <-%Forall2_eq_eq].
      apply rep_reads; [|exact (uniform_elems t' l (proj1 (Forall_and_inv _ _ HF)))].
      rewrite Forall_forall in *. intros x Hin. apply (HF x Hin).
      pose proof (dyn_depth_in x l Hin). lia.
    - intros tk tv kvs Hn HF fuel B Hd. cbn [spec_body spec_enc dyn_depth] in *.
      apply reads_u32; [exact (lt31_lt32 _ Hn)|].
      apply (reads_map (Forall2 eq kvs)); [|now intros ys <-%Forall2_eq_eq].
      apply rep_reads; [|exact (uniform_entries tk tv kvs (proj1 (Forall_and_inv _ _ HF)))].
      rewrite Forall_forall in *. intros kv Hin.
      pose proof (dyn_depth_in_map kv kvs Hin). apply pair_with_val; apply (HF kv Hin); lia.
    - intros ts l HF fuel B Hd. apply (reads_map (Forall2 eq l)); [|now intros ys <-%Forall2_eq_eq].
      exact (reads_members (fun fuel => spec_body (spec_dyn parse fuel) spec_obj) (fun t => t) HF Hd).
    - intros n fs l HF fuel B Hd. apply (reads_map (Forall2 eq l)); [|now intros ys <-%Forall2_eq_eq].
      exact (reads_members (fun fuel => spec_body (spec_dyn parse fuel) spec_obj) snd HF Hd).
    - intros v HQ fuel B Hd. exact (reads_ext (spec_obj_body _) (HQ fuel B Hd)).
    - intros t' v Hty IH fuel B Hd. apply has_ty_VDyn in Hty as (_ & Hg & Hlen & _). cbn [dyn_depth] in Hd.
      destruct fuel as [|f]; [replace B with 0 by lia; apply reads_0|].
      cbn [spec_body spec_dyn spec_enc].
      apply reads_str; [rewrite length_bytes_of_string; exact Hlen|].
      rewrite string_of_bytes_of_string, (parse_print t' Hg), (spec_dec_unfold parse f).
      apply reads_val, IH. lia.
  Qed.

  Theorem spec_dec_enc : forall v t fuel rest,
    wf_ty t = true -> has_ty v t = true -> dyn_depth v <= fuel ->
    spec_dec parse fuel t (spec_enc v ++ rest) = ROk (v, rest).
  Proof.
    intros v t fuel rest _ Hty Hd. rewrite spec_dec_unfold. revert rest.
    refine (reads_exact (fun B => spec_dec_reads v t Hty fuel B _)). lia.
  Qed.

  (* what comes back is the encoding itself unless valueReader drops the length of a signature;
     a failed string read passes for an empty string if stringReader drops the error *)
  Definition sig_reads_at (v : tval) (t : ty) : Prop :=
    forall fuel B, Nat.min (dyn_depth v) B <= fuel ->
      reads (string_reader_drops_err c = false) B (sig_body c (sig_dyn parse c fuel) (sig_obj c) t)
            (given (value_reader_no_len c = false) (spec_enc v)) (spec_enc v).

  Lemma string_reader_reads B s :
    (N.of_nat (List.length s) <= MaxStringSize)%N ->
    reads (string_reader_drops_err c = false) B (string_reader c) (eq (enc_str s)) (enc_str s).
  Proof.
    intro Hs. split.
    - intros rest _. exists (enc_str s). unfold string_reader. now rewrite (read_str_enc s rest Hs).
    - intros Hdrop k Hk HB. destruct (proj2 (read_str_reads (R := True) Hs) I k Hk HB) as [l Hl].
      unfold string_reader. rewrite Hl, Hdrop. apply fails_err.
  Qed.

  Lemma sig_read_reads : forall v t, has_ty v t = true -> sig_reads_at v t.
  Proof.
    apply has_ty_ind; unfold sig_reads_at.
    - intros s w b Hw _ fuel B _. rewrite (sig_body_num c _ _ s w Hw).
      exact (reads_if (take_n_reads (le_length w b))).
    - intros b fuel B _. exact (reads_if (take_n_reads (e := [_]) eq_refl)).
    - intros s Hs fuel B _. exact (reads_if (string_reader_reads B s Hs)).
    - intros fuel B _. apply reads_ret. now intro.
    - intros t' l Hn HF fuel B Hd. cbn [sig_body spec_enc dyn_depth] in *.
      apply reads_u32; [exact (lt31_lt32 _ Hn)|]. unfold cat_res.
      apply (reads_map (given (value_reader_no_len c = false) (flat_map spec_enc l)));
        [|now intros d Hx Hc; rewrite (Hx Hc)].
      apply (reads_map (Forall2 (fun v => given (value_reader_no_len c = false) (spec_enc v)) l));
        [|exact (concat_given _ spec_enc l)].
      apply rep_reads; [|exact (uniform_elems t' l (proj1 (Forall_and_inv _ _ HF)))].
      rewrite Forall_forall in *. intros x Hin. apply (HF x Hin).
      pose proof (dyn_depth_in x l Hin). lia.
    - intros tk tv kvs Hn HF fuel B Hd. cbn [sig_body spec_enc dyn_depth] in *.
      apply reads_u32; [exact (lt31_lt32 _ Hn)|]. unfold cat_res.
      apply (reads_map (given (value_reader_no_len c = false)
                                  (flat_map (fun kv => spec_enc (fst kv) ++ spec_enc (snd kv)) kvs)));
        [|now intros d Hx Hc; rewrite (Hx Hc)].
      apply (reads_map (Forall2 (fun kv => given (value_reader_no_len c = false)
                                                    (spec_enc (fst kv) ++ spec_enc (snd kv))) kvs));
        [|exact (concat_given _ _ kvs)].
      apply rep_reads; [|exact (uniform_entries tk tv kvs (proj1 (Forall_and_inv _ _ HF)))].
      rewrite Forall_forall in *. intros kv Hin. pose proof (dyn_depth_in_map kv kvs Hin).
      eapply reads_map; [eapply pair_with_reads; apply (HF kv Hin); lia|].
      cbv beta. now intros [dk dv] [Hk Hv] Hc; rewrite (Hk Hc), (Hv Hc).
    - intros ts l HF fuel B Hd. unfold cat_res.
      apply (reads_map (Forall2 (fun v => given (value_reader_no_len c = false) (spec_enc v)) l));
        [|exact (concat_given _ spec_enc l)].
      exact (reads_members (fun fuel => sig_body c (sig_dyn parse c fuel) (sig_obj c)) (fun t => t) HF Hd).
    - intros n fs l HF fuel B Hd. unfold cat_res.
      apply (reads_map (Forall2 (fun v => given (value_reader_no_len c = false) (spec_enc v)) l));
        [|exact (concat_given _ spec_enc l)].
      exact (reads_members (fun fuel => sig_body c (sig_dyn parse c fuel) (sig_obj c)) snd HF Hd).
    - intros v HQ fuel B Hd. exact (reads_ext (sig_obj_body c _) (HQ fuel B Hd)).
    - intros t' v Hty IH fuel B Hd. apply has_ty_VDyn in Hty as (_ & Hg & Hlen & _). cbn [dyn_depth] in Hd.
      destruct fuel as [|f]; [replace B with 0 by lia; apply reads_0|].
      cbn [sig_body sig_dyn spec_enc].
      apply reads_str; [rewrite length_bytes_of_string; exact Hlen|].
      rewrite string_of_bytes_of_string, (parse_print t' Hg), (sig_read_unfold parse c f).
      eapply reads_map; [apply IH; lia|]. cbv beta. now intros d Hx Hc; rewrite Hc, (Hx Hc).
  Qed.

  Theorem sig_read_spec : forall v t fuel rest,
    value_reader_no_len c = false ->
    wf_ty t = true -> has_ty v t = true -> dyn_depth v <= fuel ->
    sig_read parse c fuel t (spec_enc v ++ rest) = ROk (spec_enc v, rest).
  Proof.
    intros v t fuel rest Hc _ Hty Hd. rewrite sig_read_unfold. revert rest.
    refine (reads_given (fun B => sig_read_reads v t Hty fuel B _) Hc). lia.
  Qed.
End P.

Print Assumptions dyn_depth_le_len.
Print Assumptions min_width_le_len.
Print Assumptions spec_dec_enc.
Print Assumptions sig_read_spec.
