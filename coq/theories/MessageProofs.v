(* MessageProofs.v — the message frame (Message.v): what Header.Read makes of what Header.Write
   wrote, for any header (dec_enc_header_eq: every field modulo its width, then the three tests);
   round trip of one frame and of a sequence under every positive read schedule, refusal of a
   bad header before the payload is touched, refusal of every proper prefix of a frame; the
   documented layout (doc_frame); Message.Write as one WriteN; the frame determines the message
   (enc_msg_injective).  Properties C01, C08 (messages), C10. *)
From QV Require Import ReaderProofs Message.
Local Open Scope N_scope.

Lemma enc_header_eq h :
  enc_header h = be 4 (h_magic h) ++ le 4 (h_id h) ++ le 4 (h_size h) ++ le 2 (h_version h) ++
                 le 1 (h_type h) ++ le 1 (h_flags h) ++ le 4 (h_service h) ++ le 4 (h_object h) ++
                 le 4 (h_action h).
Proof. reflexivity. Qed.

Lemma enc_header_length h : List.length (enc_header h) = 28%nat.
Proof. reflexivity. Qed.

Definition wrap_header (h : header) : header :=
  {| h_magic := h_magic h mod 2 ^ 32; h_id := h_id h mod 2 ^ 32; h_size := h_size h mod 2 ^ 32;
     h_version := h_version h mod 2 ^ 16; h_type := h_type h mod 2 ^ 8; h_flags := h_flags h mod 2 ^ 8;
     h_service := h_service h mod 2 ^ 32; h_object := h_object h mod 2 ^ 32;
     h_action := h_action h mod 2 ^ 32 |}.

Definition check_header (h : header) : result header :=
  if negb (h_magic h =? Magic) then Err EOther
  else if negb (h_version h =? Version) then Err EOther
  else if (h_type h =? T_Unknown) || (T_Cancelled <? h_type h) then Err EOther
  else Ok h.

(* Header.Read on what Header.Write wrote, for any header at all: every field comes back modulo
   its width (wrap_header), and the three tests are made on those (check_header). *)
Lemma dec_enc_header_eq h : dec_header (enc_header h) = check_header (wrap_header h).
Proof.
  (* a field modulo its width is what unle reads from what le wrote (2 ^ 32 = 2 ^ (8 * 4) ...);
     after that the two sides differ only by take and drop run over the 28 explicit bytes *)
  unfold check_header, wrap_header. cbn [h_magic h_version h_type].
  rewrite <- (unbe_be 4), <- !(unle_le 4), <- !(unle_le 2), <- !(unle_le 1). reflexivity.
Qed.

Lemma dec_enc_header h : valid_header h -> dec_header (enc_header h) = Ok h.
Proof.
  intros (Hm & Hver & Ht & Hid & Hsz & Hfl & Hsv & Hob & Hac). rewrite dec_enc_header_eq.
  assert (Hw : wrap_header h = h).
  { assert (Bm : h_magic h < 2 ^ 32) by now rewrite Hm.
    assert (Bv : h_version h < 2 ^ 16) by now rewrite Hver.
    assert (Bt : h_type h < 2 ^ 8) by (change (2 ^ 8) with 256; lia).
    unfold wrap_header. rewrite !N.mod_small by assumption. now destruct h. }
  rewrite Hw. unfold check_header, T_Unknown, T_Cancelled. rewrite Hm, Hver, !N.eqb_refl.
  now rewrite (proj2 (N.eqb_neq _ 0)), (proj2 (N.ltb_ge 8 _)) by lia.
Qed.

Theorem read_msg_roundtrip :
  forall m rest sch, valid_msg m -> pos_sched sch ->
    exists sch', read_msg {| s_data := enc_msg m ++ rest; s_sched := sch |} =
                   Some (Ok m, {| s_data := rest; s_sched := sch' |}) /\ pos_sched sch'.
Proof.
  intros [h p] rest sch (Hv & Hsz & Hmax) Hpos. unfold read_msg, enc_msg, HeaderSize.
  cbn [m_header m_payload] in *. rewrite <- app_assoc.
  destruct (readN_frag 28 (enc_header h) (p ++ rest) sch Hpos (enc_header_length _)) as (sch1 & Hr1 & Hpos1).
  rewrite Hr1, (dec_enc_header _ Hv), (proj2 (N.ltb_ge _ _) Hmax), Hsz.
  destruct p as [|x p']; [exists sch1; split; [reflexivity|exact Hpos1]|].
  destruct (readN_frag _ (x :: p') rest sch1 Hpos1 eq_refl) as (sch2 & Hr2 & Hpos2).
  rewrite Nat2N.id, Hr2. exists sch2. split; [reflexivity|exact Hpos2].
Qed.

Lemma read_all_S f s : read_all (S f) s =
  match read_msg s with
  | None => None
  | Some (Err e, s') => Some ([], e, s')
  | Some (Ok m, s') => match read_all f s' with None => None | Some (ms, e, s'') => Some (m :: ms, e, s'') end
  end.
Proof. reflexivity. Qed.
Theorem read_all_sequence :
  forall ms sch, Forall valid_msg ms -> pos_sched sch ->
    exists sch', read_all (S (List.length ms)) {| s_data := concat (map enc_msg ms); s_sched := sch |} =
                   Some (ms, EEOF, {| s_data := []; s_sched := sch' |}).
Proof.
  induction ms as [|m ms IH]; intros sch Hv Hpos.
  - cbn [List.length map concat]. rewrite read_all_S. unfold read_msg.
    destruct (readN_full_empty HeaderSize sch) as [sch' Hr]; [unfold HeaderSize; lia|].
    rewrite Hr. eexists; reflexivity.
  - inversion Hv as [|m' ms' Hm Hms]; subst.
    cbn [List.length map concat]. rewrite read_all_S.
    destruct (read_msg_roundtrip m (concat (map enc_msg ms)) sch Hm Hpos) as [sch1 [Hr Hpos1]].
    rewrite Hr. destruct (IH sch1 Hms Hpos1) as [sch' Hall]. rewrite Hall. eexists; reflexivity.
Qed.

Definition header_refused (b : bytes) : Prop :=
  (exists e, dec_header b = Err e) \/ (exists h, dec_header b = Ok h /\ MaxPayloadSize < h_size h).

Theorem refuse_before_payload :
  forall b rest sch, List.length b = 28%nat -> header_refused b -> pos_sched sch ->
    exists sch', read_msg {| s_data := b ++ rest; s_sched := sch |} =
                   Some (Err EOther, {| s_data := rest; s_sched := sch' |}).
Proof.
  intros b rest sch Hlen Href Hpos. unfold read_msg, HeaderSize.
  destruct (readN_frag 28 b rest sch Hpos Hlen) as [sch1 [Hr1 _]]. rewrite Hr1.
  destruct Href as [[e He] | [h [Hh Hbig]]].
  - rewrite He. eexists; reflexivity.
  - rewrite Hh. replace (MaxPayloadSize <? h_size h) with true by (symmetry; now apply N.ltb_lt).
    eexists; reflexivity.
Qed.

(* a wrong magic, version or type is a refusal (a size over MaxPayloadSize is the fourth cause,
   in header_refused) *)
Lemma refused_magic h : h_magic h < 2 ^ 32 -> h_magic h <> Magic -> exists e, dec_header (enc_header h) = Err e.
Proof.
  intros Hb Hne. exists EOther. rewrite dec_enc_header_eq. unfold check_header. cbn [wrap_header h_magic].
  now rewrite N.mod_small, (proj2 (N.eqb_neq _ _) Hne).
Qed.

Lemma refused_version h : h_magic h = Magic -> h_version h < 2 ^ 16 -> h_version h <> Version ->
  exists e, dec_header (enc_header h) = Err e.
Proof.
  intros Hm Hb Hne. exists EOther. rewrite dec_enc_header_eq. unfold check_header.
  cbn [wrap_header h_magic h_version]. rewrite Hm, (N.mod_small (h_version h)) by exact Hb.
  now rewrite (proj2 (N.eqb_neq _ _) Hne).
Qed.

Lemma refused_type h : h_magic h = Magic -> h_version h = Version -> h_type h < 2 ^ 8 ->
  (h_type h = 0 \/ 8 < h_type h) -> exists e, dec_header (enc_header h) = Err e.
Proof.
  intros Hm Hv Hb Hbad. exists EOther. rewrite dec_enc_header_eq. unfold check_header.
  cbn [wrap_header h_magic h_version h_type]. rewrite Hm, Hv, (N.mod_small (h_type h)) by exact Hb.
  replace ((h_type h =? T_Unknown) || (T_Cancelled <? h_type h)) with true; [reflexivity|].
  symmetry. apply orb_true_iff. destruct Hbad; [left; now apply N.eqb_eq|right; now apply N.ltb_lt].
Qed.

Theorem read_msg_prefix_rejected :
  forall m k sch r s', valid_msg m -> (k < List.length (enc_msg m))%nat ->
    read_msg {| s_data := firstn k (enc_msg m); s_sched := sch |} = Some (r, s') -> exists e, r = Err e.
Proof.
  intros m k sch r s' (Hv & Hsz & Hmax) Hk Hrun. destruct r as [m'|e]; [exfalso|eauto].
  pose proof (skipn_length k (enc_msg m)) as Hcut.
  unfold read_msg in Hrun.
  destruct (readN_full HeaderSize _) as [[[[b sb]|e] s1]|] eqn:Hr1; try discriminate.
  (* ReadN returned 28 bytes of the cut frame: they are the header, and the payload is what
     the source still holds followed by what was cut off *)
  apply readN_full_ok in Hr1 as [Hcat Hb]. cbn [s_data] in Hcat.
  assert (Hx : enc_header (m_header m) ++ m_payload m = b ++ s_data s1 ++ skipn k (enc_msg m))
    by (rewrite app_assoc, Hcat; symmetry; apply firstn_skipn).
  destruct (app_eq_len_split _ _ _ _ Hx) as [<- Hp]; [now rewrite enc_header_length|].
  apply (f_equal (@List.length _)) in Hp. rewrite app_length in Hp.
  rewrite (dec_enc_header _ Hv), (proj2 (N.ltb_ge _ _) Hmax) in Hrun.
  destruct (N.eqb_spec (h_size (m_header m)) 0) as [Hz|_]; [lia|].
  (* so the second ReadN cannot find the whole payload *)
  destruct (readN_full (N.to_nat (h_size (m_header m))) s1) as [[[[p sp]|e] s2]|] eqn:Hr2; try discriminate.
  apply readN_full_ok in Hr2 as [Hcat2 Hp2]. rewrite <- Hcat2, app_length in Hp. lia.
Qed.

(* documented layout (doc/about-qimessaging.md, "Message format"),
   written against the documentation, not against enc_header. *)
Definition doc_frame (id size version typ flags service object action : N) (payload : bytes) : bytes :=
  [x42; xde; xad; x42] ++ le 4 id ++ le 4 size ++ le 2 version ++ [byte_of_N typ] ++ [byte_of_N flags] ++
  le 4 service ++ le 4 object ++ le 4 action ++ payload.

Lemma enc_msg_nonempty : forall m, enc_msg m <> [].
Proof.
  intros m He. apply (f_equal (@List.length _)) in He.
  unfold enc_msg in He. rewrite app_length, enc_header_length in He. discriminate He.
Qed.

Lemma write_msg_valid m w : valid_msg m ->
  write_msg m w = writeN (enc_msg m) (List.length (enc_msg m)) w.
Proof.
  intros (Hv & Hsz & Hmax). unfold write_msg, MaxPayloadSize in *.
  rewrite <- Hsz, !N.mod_small, N.eqb_refl by lia. cbn [negb]. f_equal.
  unfold enc_msg. rewrite app_length, enc_header_length, Hsz. lia.
Qed.

Theorem write_msg_once m calls : valid_msg m ->
  write_msg m {| w_calls := calls; w_sched := [] |} =
    Some (Ok {| w_calls := calls ++ [enc_msg m]; w_sched := [] |}).
Proof.
  intro Hv. rewrite write_msg_valid by exact Hv. apply writeN_once.
  apply enc_msg_nonempty.
Qed.

(* non-vacuity: a concrete message with a payload, read back over 1-byte reads with EOF glued to the last byte *)
Definition ex_msg : msg :=
  {| m_header := {| h_magic := Magic; h_id := 0x01020304; h_size := 3; h_version := 0; h_type := T_Call; h_flags := 7;
                    h_service := 1; h_object := 2; h_action := 0xfffffffe |};
     m_payload := [x01; x02; x03] |}.
Lemma ex_msg_valid : valid_msg ex_msg.
Proof. repeat split; reflexivity || discriminate. Qed.
Lemma ex_msg_read :
  read_msg {| s_data := enc_msg ex_msg ++ [xff]; s_sched := repeat (1%nat, true) 31 |} =
    Some (Ok ex_msg, {| s_data := [xff]; s_sched := [] |}).
Proof. vm_compute. reflexivity. Qed.

Lemma enc_msg_injective : forall m1 m2 r1 r2, valid_msg m1 -> valid_msg m2 ->
  enc_msg m1 ++ r1 = enc_msg m2 ++ r2 -> m1 = m2 /\ r1 = r2.
Proof.
  intros m1 m2 r1 r2 H1 H2 He.
  destruct (read_msg_roundtrip m1 r1 [] H1 (Forall_nil _)) as [s1 [E1 _]].
  destruct (read_msg_roundtrip m2 r2 [] H2 (Forall_nil _)) as [s2 [E2 _]].
  rewrite He in E1. rewrite E1 in E2. inversion E2 as [[Hm Hr Hs]]. split; reflexivity.
Qed.
