(* DepthCostProofs.v — theorems about DepthCost.v (C07).  The signature reader copies at most
   nesting * consumed bytes (sig_copy_bound), hence at most (rdepth t + 2 |input|) * |input|
   (sig_copy_quadratic), and no bound linear in the input holds (sig_copy_not_linear).  signature.Parse enters
   its type rule at most (opening brackets + 1) deep and exactly n + 1 deep on n opening brackets and on n nested
   lists (parse_depth_le_open_count, parse_depth_brackets_eq, parse_depth_nested_list_eq); the fuel of the model is that depth (parse_depth_spec). *)
(* TotalProofs: for plain_m (a type that holds no dynamic value); PrefixLemmas: for rep_nat_seq *)
From QV Require Import TotalProofs PrefixLemmas DepthCost.
Local Open Scope N_scope.

(* sig_copy, unfolded once: the reader of dynamic values at this fuel, and the body *)
Definition sig_copy_dyn (parse : string -> option ty) (c : wcfg) (fuel : nat) : bytes -> mres bytes :=
  match fuel with O => fun _ => mfail RFuel | S f => mvalue parse c (sig_copy parse c f) end.
Lemma sig_copy_eq : forall parse c fuel,
  sig_copy parse c fuel = sig_copy_body c (sig_copy_dyn parse c fuel) (sig_copy_obj c).
Proof. intros parse c [|f]; reflexivity. Qed.

(* what a reader has taken from its source: on success and on error the source says what it still
   holds; for the two outcomes the totality theorems exclude, everything *)
Definition used {A} (bs : bytes) (r : Wire.res (A * bytes)) : N :=
  match r with
  | ROk (_, rest) => blen bs - blen rest
  | RErr l => blen bs - blen l
  | _ => blen bs
  end.

Definition fits {A} (size : A -> N) (bs : bytes) (r : Wire.res (A * bytes)) : Prop :=
  match r with
  | ROk (a, rest) => size a + blen rest <= blen bs
  | RErr l => blen l <= blen bs
  | _ => True
  end.

(* u consumed bytes, each copied at most nesting (+ k) times.  k = 0: a reader; k = 1: readers run one after
   the other at one level, their results already written into the enclosing buffer (one copy more than their
   own nesting accounts for) *)
Definition bnd (k : N) (m : meter) (u : N) : Prop := copied m <= (nesting m + k) * u.
Definition clen (ds : list bytes) : N := blen (List.concat ds).

(* how the operations on meters act on the bound: a member's result is written into the buffer
   (charge), two stretches of input follow each other (madd), the count of a varReader is written
   (charge 4), the buffer is returned by the reader that owns it (deeper) *)
Lemma bnd_up : forall m u u', bnd 0 m u -> u <= u' -> bnd 1 m u'.
Proof. unfold bnd. nia. Qed.
Lemma bnd_charge : forall m x u u', bnd 0 m u -> u <= u' -> x <= u' -> bnd 1 (charge x m) u'.
Proof. unfold bnd. cbn [charge copied nesting]. nia. Qed.
Lemma bnd_madd : forall a b u v w, bnd 1 a u -> bnd 1 b v -> u + v <= w -> bnd 1 (madd a b) w.
Proof. unfold bnd. cbn [madd copied nesting]. nia. Qed.
Lemma bnd_count : forall m u w, bnd 1 m u -> u + 4 <= w -> bnd 1 (charge 4 m) w.
Proof. unfold bnd. cbn [charge copied nesting]. nia. Qed.
Lemma bnd_deeper : forall m u, bnd 1 m u -> bnd 0 (deeper m) u.
Proof. unfold bnd. cbn [deeper copied nesting]. intros m u H. rewrite N.add_0_r. exact H. Qed.

Lemma blen_app : forall a b, blen (a ++ b) = blen a + blen b.
Proof. intros a b. unfold blen. rewrite app_length. lia. Qed.
Lemma clen_cons : forall d ds, clen (d :: ds) = blen d + clen ds.
Proof. intros d ds. apply blen_app. Qed.
Lemma clen_app : forall a b, clen (a ++ b) = clen a + clen b.
Proof. intros a b. unfold clen. rewrite concat_app. apply blen_app. Qed.
Lemma clen_repeat_nil : forall k, clen (repeat [] k) = 0.
Proof. induction k as [|k IH]; [reflexivity|]. cbn [repeat]. rewrite clen_cons, IH. reflexivity. Qed.
Lemma blen_0 : forall d, blen d = 0 -> d = [].
Proof. intros [|b d] H; [reflexivity|]. discriminate H. Qed.

Lemma take_n_fits : forall n bs, fits blen bs (take_n n bs).
Proof.
  intros n bs. unfold take_n. destruct (Nat.ltb (List.length bs) n) eqn:E; cbn [fits]; [cbn; lia|].
  apply Nat.ltb_ge in E. unfold blen. rewrite firstn_length, skipn_length. lia.
Qed.
Lemma read_num_fits : forall w bs, fits (fun _ => N.of_nat w) bs (read_num w bs).
Proof.
  intros w bs. unfold read_num, take_n. destruct (Nat.ltb (List.length bs) w) eqn:E; cbn [bind fits]; [cbn; lia|].
  apply Nat.ltb_ge in E. unfold blen. rewrite skipn_length. lia.
Qed.
Lemma read_str_fits : forall bs, fits (fun s => 4 + blen s) bs (read_str bs).
Proof.
  intro bs. unfold read_str. pose proof (read_num_fits 4 bs) as H.
  destruct (read_num 4 bs) as [[n r]|l| |]; cbn [bind fits] in *; try exact H.
  destruct (n =? 0); [cbn [fits]; change (blen []) with 0; lia|]. destruct (MaxStringSize <? n); [cbn [fits]; lia|].
  pose proof (take_n_fits (N.to_nat n) r) as Ht. destruct (take_n (N.to_nat n) r) as [[s rest]|l| |]; cbn [fits] in *; lia.
Qed.
Lemma enc_u32_blen : forall n, blen (enc_u32 n) = 4.
Proof. intro n. unfold blen. rewrite WireLemmas.enc_u32_length. reflexivity. Qed.
Lemma enc_str_blen : forall s, blen (enc_str s) = 4 + blen s.
Proof. intro s. unfold blen. rewrite WireLemmas.enc_str_length. lia. Qed.

Lemma mrep_nat_seq : forall (p : bytes -> mres bytes) k bs, mrep_nat p k bs = mseq_with (repeat p k) bs.
Proof.
  intros p. induction k as [|k IH]; intro bs; cbn [mrep_nat repeat mseq_with]; [reflexivity|].
  destruct (p bs) as [m [[x rest]|l| |]]; try reflexivity. rewrite IH. reflexivity.
Qed.

Lemma map_const_repeat : forall {X Y} (y : Y) k (x : X), map (fun _ => y) (repeat x k) = repeat y k.
Proof. intros X Y y k x. induction k as [|k IH]; [reflexivity|]. cbn [repeat map]. rewrite IH. reflexivity. Qed.
Lemma Forall_repeat : forall {A} (P : A -> Prop) x k, P x -> Forall P (repeat x k).
Proof. intros A P x k Hx. induction k; cbn [repeat]; constructor; assumption. Qed.

Lemma string_of_bytes_length : forall l, String.length (string_of_bytes l) = List.length l.
Proof.
  intro l. unfold string_of_bytes, string_of_list_byte.
  induction l as [|b l IH]; [reflexivity|].
  cbn [map string_of_list_ascii String.length List.length]. now rewrite IH.
Qed.

(* An outcome seen through two numbers: what the source still holds (nothing, for the two outcomes the
   totality theorems exclude) and the size of the result (none, for a failure). *)
Definition remains {A} (r : Wire.res (A * bytes)) : N :=
  match r with ROk (_, rest) => blen rest | RErr l => blen l | _ => 0 end.
Definition psz {A} (size : A -> N) (r : Wire.res (A * bytes)) : N :=
  match r with ROk (a, _) => size a | _ => 0 end.

Lemma used_remains {A} bs (r : Wire.res (A * bytes)) : used bs r = blen bs - remains r.
Proof. destruct r as [[a rest]|l| |]; cbn [used remains]; try reflexivity; symmetry; apply N.sub_0_r. Qed.

Section Met.
  (* what a consumed byte adds to the bound on the nesting: 0 for a type without dynamic values, 2 in general *)
  Variable slope : N.
  (* which of the two bounds are claimed.  The copy bound needs the repaired stringReader, the nesting
     bound does not; the nesting bound needs a parser whose types are no deeper than their text is long,
     the copy bound does not. *)
  Variables cp nb : Prop.

  (* A run from n bytes of input to l, with a result of p bytes and the meter m (in this section n, p, l and
     their primed forms are always these three numbers, B a bound on the nesting).  What is left is no
     longer than the input; (cp) the result fits what was consumed and every consumed byte was copied at
     most nesting (+ k) times; (nb) the nesting is at most B, and slope per consumed byte.
     k = 0: a reader; k = 1: the members of a reader, their results written into its buffer. *)
  Definition met (k B : N) (m : meter) (n p l : N) : Prop :=
    l <= n /\ (cp -> p + l <= n /\ bnd k m (n - l)) /\ (nb -> nesting m <= B + slope * (n - l)).

  Lemma met_ret {B n} : met 1 B mzero n 0 n.
  Proof.
    unfold met. cbn [mzero copied nesting]. rewrite N.sub_diag, !N.mul_0_r.
    split; [apply N.le_refl|split; intros _; [split; apply N.le_refl|apply N.le_0_l]].
  Qed.

  Lemma met_leaf {B n p l} : l <= n -> (cp -> p + l <= n) -> 1 <= B -> met 0 B {| copied := p; nesting := 1 |} n p l.
  Proof.
    intros Hl Hf HB. split; [exact Hl|split]; [|intros _; exact (N.le_trans _ _ _ HB (N.le_add_r _ _))].
    intro Hcp. specialize (Hf Hcp). unfold bnd. cbn [copied nesting]. split; [exact Hf|clear - Hf; lia].
  Qed.

  (* consequence: a larger bound, a smaller result (its size is looked at only under cp), less left *)
  Lemma met_weak {k B B' m n p p' l l'} :
    met k B m n p l -> B <= B' -> (cp -> p' <= p) -> l' <= l -> met k B' m n p' l'.
  Proof.
    intros (Hl & Hc & Hn) HB Hp Hll. pose proof (N.sub_le_mono_l _ _ n Hll) as Hu.
    split; [exact (N.le_trans _ _ _ Hll Hl)|split].
    - intro Hcp. destruct (Hc Hcp) as [Hf Hc']. specialize (Hp Hcp). split; [clear - Hf Hp Hll; lia|].
      exact (N.le_trans _ _ _ Hc' (N.mul_le_mono_l _ _ _ Hu)).
    - intro Hb. apply (N.le_trans _ _ _ (Hn Hb)), N.add_le_mono; [exact HB|apply N.mul_le_mono_l, Hu].
  Qed.
  Lemma met_p {k B m n p p' l} : met k B m n p l -> (cp -> p' <= p) -> met k B m n p' l.
  Proof. intros H Hp. exact (met_weak H (N.le_refl _) Hp (N.le_refl _)). Qed.

  (* a reader as a member: its result is written into the buffer *)
  Lemma met_member {B m n p l} : met 0 B m n p l -> met 1 B (charge p m) n p l.
  Proof.
    intros (Hl & Hc & Hn). split; [exact Hl|split; [|exact Hn]].
    intro Hcp. destruct (Hc Hcp) as [Hf Hc'].
    split; [exact Hf|apply (bnd_charge _ _ _ _ Hc'); lia].
  Qed.
  Lemma met_failed {B m n p l} : met 0 B m n p l -> met 1 B m n 0 l.
  Proof.
    intros (Hl & Hc & Hn). split; [exact Hl|split; [|exact Hn]].
    intro Hcp. destruct (Hc Hcp) as [Hf Hc'].
    split; [exact Hl|exact (bnd_up _ _ _ Hc' (N.le_refl _))].
  Qed.

  (* two stretches of input one after the other *)
  Lemma met_seq {B m m' n p l p' l'} : met 1 B m n p l -> met 1 B m' l p' l' -> met 1 B (madd m m') n (p + p') l'.
  Proof.
    intros (Hl & Hc & Hn) (Hl' & Hc' & Hn').
    assert (Hu : n - l <= n - l' /\ l - l' <= n - l' /\ n - l + (l - l') <= n - l') by (clear - Hl Hl'; lia).
    destruct Hu as (Hu & Hu' & Hw). split; [exact (N.le_trans _ _ _ Hl' Hl)|split].
    - intro Hcp. destruct (Hc Hcp) as [Hf Hb]. destruct (Hc' Hcp) as [Hf' Hb'].
      split; [clear - Hf Hf'; lia|exact (bnd_madd _ _ _ _ _ Hb Hb' Hw)].
    - intro Hb. apply N.max_lub; [apply (N.le_trans _ _ _ (Hn Hb))|apply (N.le_trans _ _ _ (Hn' Hb))];
        apply N.add_le_mono_l, N.mul_le_mono_l; assumption.
  Qed.

  (* the buffer is returned by the reader that owns it *)
  Lemma met_deeper {B m n p l} : met 1 B m n p l -> met 0 (1 + B) (deeper m) n p l.
  Proof.
    intros (Hl & Hc & Hn). split; [exact Hl|split].
    - intro Hcp. destruct (Hc Hcp) as [Hf Hb]. exact (conj Hf (bnd_deeper _ _ Hb)).
    - intro Hb. specialize (Hn Hb). cbn [deeper nesting]. clear - Hn. lia.
  Qed.

  (* the 4 bytes of a count, read before and written once *)
  Lemma met_count {B m n n' p l} : met 1 B m n p l -> 4 + n <= n' -> met 1 B (charge 4 m) n' (4 + p) l.
  Proof.
    intros (Hl & Hc & Hn) H4. assert (Hu : n - l <= n' - l /\ n - l + 4 <= n' - l /\ l <= n') by (clear - Hl H4; lia).
    destruct Hu as (Hu & Hw & Hl'). split; [exact Hl'|split].
    - intro Hcp. destruct (Hc Hcp) as [Hf Hb]. split; [clear - Hf H4; lia|exact (bnd_count _ _ _ Hb Hw)].
    - intro Hb. apply (N.le_trans _ _ _ (Hn Hb)), N.add_le_mono_l, N.mul_le_mono_l, Hu.
  Qed.

  (* an iteration that consumed nothing has copied and (cp) returned nothing, however often it is repeated *)
  Lemma met_stuck {B ma m n0 p l x l'} k : met 1 B ma n0 p l -> met 0 B m l x l' -> l <= l' ->
    (cp -> x = 0) /\
    met 1 B {| copied := copied ma + k * (copied m + x); nesting := N.max (nesting ma) (nesting m) |} n0 p l'.
  Proof.
    intros (Hl0 & Hc0 & Hn0) (Hl & Hc & Hn) Hll. assert (E : l' = l) by (clear - Hl Hll; lia). subst l'. unfold met, bnd in *.
    rewrite N.sub_diag, N.mul_0_r in Hc, Hn. rewrite N.add_0_r in Hn.
    assert (Hx : cp -> x = 0 /\ copied m = 0) by (intro Hcp; specialize (Hc Hcp); clear - Hc; lia).
    split; [intro Hcp; exact (proj1 (Hx Hcp))|]. split; [exact Hl0|split].
    - intro Hcp. destruct (Hx Hcp) as [-> E]. destruct (Hc0 Hcp) as [Hf Hb]. cbn [copied nesting].
      rewrite E, N.mul_0_r, N.add_0_r. split; [exact Hf|].
      apply (N.le_trans _ _ _ Hb), N.mul_le_mono_r, N.add_le_mono_r, N.le_max_l.
    - intro Hb. apply N.max_lub; [exact (Hn0 Hb)|exact (N.le_trans _ _ _ (Hn Hb) (N.le_add_r _ _))].
  Qed.

  (* x on the input bs: the outcome is r, that of the reader without a meter, and the run is within the bounds;
     a reader (rok), a sequence of readers at one level (lk) *)
  Definition rok (B : N) (bs : bytes) (r : Wire.res (bytes * bytes)) (x : mres bytes) : Prop :=
    snd x = r /\ met 0 B (fst x) (blen bs) (psz blen r) (remains r).
  Definition lk (B : N) (bs : bytes) (r : Wire.res (list bytes * bytes)) (x : mres (list bytes)) : Prop :=
    snd x = r /\ met 1 B (fst x) (blen bs) (psz clen r) (remains r).

  Lemma rok_B {B B' bs r x} : rok B bs r x -> B <= B' -> rok B' bs r x.
  Proof. intros [E H] HB. exact (conj E (met_weak H HB (fun _ => N.le_refl _) (N.le_refl _))). Qed.

  Lemma mleaf_met bs r : fits (fun _ => 0) bs r -> (cp -> fits blen bs r) -> rok 1 bs r (mleaf r).
  Proof.
    intros H0 H. destruct r as [[d rest]|l| |]; (split; [reflexivity|]); apply met_leaf; try exact H; try exact H0; try apply N.le_refl; intros; apply N.le_0_l.
  Qed.

  Lemma mcat_met {B bs r x} : lk B bs r x -> rok (1 + B) bs (cat_res r) (mcat x).
  Proof. intros [<- H]. destruct x as [m [[ds rest]|l| |]]; exact (conj eq_refl (met_deeper H)). Qed.

  Lemma mseq_with_met {X} B (l : list X) (f : X -> bytes -> mres bytes) (g : X -> bytes -> Wire.res (bytes * bytes)) :
    Forall (fun x => forall bs, rok B bs (g x bs) (f x bs)) l ->
    forall bs, lk B bs (seq_with (map g l) bs) (mseq_with (map f l) bs).
  Proof.
    intro HF. induction HF as [|x l' Hp HF' IH]; intro bs; cbn [map mseq_with seq_with]; [exact (conj eq_refl met_ret)|].
    destruct (Hp bs) as [E Hm]. rewrite <- E in *. destruct (f x bs) as [m [[d rest]|e| |]]; cbn [fst snd psz remains] in Hm |- *.
    2-4: exact (conj eq_refl (met_failed Hm)).
    destruct (IH rest) as [E' Hm']. rewrite <- E' in *.
    destruct (mseq_with (map f l') rest) as [m' [[xs rest']|e| |]]; cbn [fst snd psz remains] in Hm' |- *; (split; [reflexivity|]).
    2-4: exact (met_p (met_seq (met_member Hm) Hm') (fun _ => N.le_0_l _)).
    apply (met_p (met_seq (met_member Hm) Hm')). intros _. cbn [psz]. rewrite clen_cons. apply N.le_refl.
  Qed.

  Lemma mentry_met B (pk pv : bytes -> mres bytes) qk qv :
    (forall bs, rok B bs (qk bs) (pk bs)) -> (forall bs, rok B bs (qv bs) (pv bs)) ->
    forall b, rok (1 + B) b (do '(kv, r2) <- pair_with qk qv b; ROk (fst kv ++ snd kv, r2)) (mentry pk pv b).
  Proof.
    intros Hk Hv b. unfold mentry, pair_with. destruct (Hk b) as [E Hm]. rewrite <- E in *.
    destruct (pk b) as [mk [[k r1]|l| |]]; cbn [fst snd bind psz remains] in Hm |- *.
    2-4: exact (conj eq_refl (met_deeper (met_failed Hm))).
    destruct (Hv r1) as [E' Hm']. rewrite <- E' in *.
    destruct (pv r1) as [mv [[v r2]|l| |]]; cbn [fst snd bind psz remains] in Hm' |- *; (split; [reflexivity|]); apply met_deeper.
    2-4: exact (met_p (met_seq (met_member Hm) (met_failed Hm')) (fun _ => N.le_0_l _)).
    apply (met_p (met_seq (met_member Hm) (met_member Hm'))). intros _. cbn [psz]. rewrite blen_app. apply N.le_refl.
  Qed.

  Section Loops.
    Variable B : N.
    Variable elt : bytes -> mres bytes.
    Variable q : bytes -> Wire.res (bytes * bytes).
    Hypothesis Hp : forall bs, rok B bs (q bs) (elt bs).

    (* bs0 is where the loop started; ma meters what was read between bs0 and bs *)
    Lemma mrep_slow_met bs0 : forall fuel n bs acc ma,
      met 1 B ma (blen bs0) (clen (rev acc)) (blen bs) ->
      lk B bs0 (rep_slow q fuel n bs acc) (mrep_slow elt fuel n bs acc ma).
    Proof.
      induction fuel as [|f IH]; intros n bs acc ma H; cbn [mrep_slow rep_slow]; (destruct (n =? 0); [exact (conj eq_refl H)|]).
      - exact (conj eq_refl (met_weak H (N.le_refl _) (fun _ => N.le_0_l _) (N.le_0_l _))).
      - destruct (Hp bs) as [E Hb]. rewrite <- E in *. destruct (elt bs) as [m [[d bs']|l| |]]; cbn [fst snd psz remains] in Hb |- *.
        2-4: exact (conj eq_refl (met_p (met_seq H (met_failed Hb)) (fun _ => N.le_0_l _))).
        destruct (Nat.ltb (List.length bs') (List.length bs)) eqn:Hlt.
        + apply IH, (met_p (met_seq H (met_member Hb))). intros _.
          cbn [rev]. rewrite clen_app, clen_cons. change (clen []) with 0. rewrite N.add_0_r. apply N.le_refl.
        + (* no progress *)
          apply Nat.ltb_ge in Hlt. assert (Hl : blen bs <= blen bs') by (unfold blen; lia).
          destruct (met_stuck n H Hb Hl) as [Hd Hm]. split; [reflexivity|]. apply (met_p Hm). intro Hcp.
          apply Hd, blen_0 in Hcp. subst d. cbn [snd psz]. rewrite clen_app, clen_repeat_nil, N.add_0_r. apply N.le_refl.
    Qed.

    Lemma mrep_met n bs : lk B bs (rep q n bs) (mrep elt n bs).
    Proof.
      unfold mrep, rep. destruct (N.of_nat (List.length bs) <? n).
      - apply mrep_slow_met, met_ret.
      - rewrite mrep_nat_seq, rep_nat_seq, <- (map_const_repeat elt _ tt), <- (map_const_repeat q _ tt).
        apply mseq_with_met, Forall_repeat, Hp.
    Qed.

    (* varReader *)
    Lemma mvar_met bs : rok (1 + B) bs
      (do '(n, r) <- read_num 4 bs; do '(d, r') <- cat_res (rep q n r); ROk (enc_u32 n ++ d, r')) (mvar elt bs).
    Proof.
      unfold mvar. pose proof (read_num_fits 4 bs) as E.
      destruct (read_num 4 bs) as [[n r]|l| |]; cbn [fits bind] in E |- *;
        [|split; [reflexivity|]; apply met_leaf; cbn [fst snd psz remains]; lia ..].
      destruct (mrep_met n r) as [Ex H]. rewrite <- Ex in *. destruct (mrep elt n r) as [m x]. cbn [fst snd] in H |- *.
      split; [reflexivity|]. apply met_deeper. refine (met_weak (met_count H E) (N.le_refl _) (fun _ => _) _);
        destruct x as [[ds rest]|l| |]; cbn [cat_res bind psz remains]; try apply N.le_refl; try apply N.le_0_l.
      rewrite blen_app, enc_u32_blen. apply N.le_refl.
    Qed.
  End Loops.

  Section Body.
    Variable c : wcfg.
    (* with stringReader's dropped error (repaired in the tree: 4 result bytes for no input byte) a list
       of strings makes a result of any size from 4 bytes of input: see drops_err_copy_unbounded *)
    Hypothesis Hde : cp -> string_reader_drops_err c = false.
    Variable dyn obj : bytes -> mres bytes.
    Variable dyn' obj' : bytes -> Wire.res (bytes * bytes).
    (* Dd, Do: the nesting of the readers of "m" and "o" *)
    Variables Dd Do : N.
    Hypothesis Hobj : forall bs, rok Do bs (obj' bs) (obj bs).

    Lemma string_reader_met : forall bs, rok 1 bs (string_reader c bs) (mleaf (string_reader c bs)).
    Proof.
      intro bs. pose proof (read_str_fits bs) as H. unfold string_reader. apply mleaf_met; [|intro Hcp; rewrite (Hde Hcp)];
        destruct (read_str bs) as [[sg r]|l| |]; cbn [fits] in *; rewrite ?enc_str_blen; try exact H; [lia|].
      destruct (string_reader_drops_err c); exact H.
    Qed.

    Lemma sig_copy_body_met : forall t, plain_m t = true \/ (forall bs, rok Dd bs (dyn' bs) (dyn bs)) ->
      forall bs, rok (rdepth_g Dd Do t) bs (sig_body c dyn' obj' t bs) (sig_copy_body c dyn obj t bs).
    Proof.
      assert (Hleaf : forall bs r, fits blen bs r -> rok 1 bs r (mleaf r)).
      { intros bs r H. apply mleaf_met; [|intros _; exact H]. destruct r as [[d rest]|l| |]; cbn [fits] in *; lia. }
      induction t as [sc|t' IH|tk tv IHk IHv|ts IH|name fs IH] using ty_ind2; intros Hd bs; cbn [sig_copy_body sig_body rdepth_g].
      - destruct sc; cbn [scalar_width]; try (apply Hleaf, take_n_fits);
          [apply string_reader_met|destruct Hd as [Hd|Hd]; [discriminate Hd|apply Hd]|apply Hobj
          |apply Hleaf; cbn; lia ..].
      - apply mvar_met, IH, Hd.
      - change 2 with (1 + 1). rewrite <- N.add_assoc.
        assert (Hkv : (plain_m tk = true \/ forall bs, rok Dd bs (dyn' bs) (dyn bs)) /\ (plain_m tv = true \/ forall bs, rok Dd bs (dyn' bs) (dyn bs))).
        { destruct Hd as [Hd|Hd]; [|split; right; exact Hd].
          cbn [plain_m] in Hd. apply andb_true_iff in Hd as [Hk Hv]. split; left; assumption. }
        destruct Hkv as [Hk Hv].
        apply mvar_met, mentry_met; intro b; [exact (rok_B (IHk Hk b) (N.le_max_l _ _))|exact (rok_B (IHv Hv b) (N.le_max_r _ _))].
      - apply mcat_met, mseq_with_met, Forall_forall. intros t Hin b. rewrite Forall_forall in IH.
        refine (rok_B (IH t Hin _ b) (fold_Nmax_in (rdepth_g Dd Do) ts t Hin)).
        destruct Hd as [Hd|Hd]; [left|right; exact Hd]. cbn [plain_m] in Hd. rewrite forallb_forall in Hd. apply Hd, Hin.
      - apply mcat_met, (mseq_with_met _ fs (fun f => sig_copy_body c dyn obj (snd f)) (fun f => sig_body c dyn' obj' (snd f))), Forall_forall. intros f Hin b. rewrite Forall_forall in IH.
        refine (rok_B (IH f Hin _ b) (fold_Nmax_in (fun f => rdepth_g Dd Do (snd f)) fs f Hin)).
        destruct Hd as [Hd|Hd]; [left|right; exact Hd]. cbn [plain_m] in Hd. rewrite forallb_forall in Hd. apply (Hd f), Hin.
    Qed.
  End Body.

  Lemma sig_copy_obj_met c : (cp -> string_reader_drops_err c = false) -> forall bs, rok rdepth_obj bs (sig_obj c bs) (sig_copy_obj c bs).
  Proof.
    intros Hde bs. apply (sig_copy_body_met c Hde mno_dyn mno_dyn no_dyn no_dyn 1 1); [|right]; intro b; (split; [reflexivity|]); apply met_leaf; cbn [mno_dyn no_dyn mfail fst snd psz remains]; lia.
  Qed.
End Met.

Arguments met_leaf {slope cp nb B n p l}.
Arguments sig_copy_body_met {slope cp nb} c Hde {dyn obj dyn' obj' Dd Do} Hobj t _ bs.
Arguments sig_copy_obj_met {slope cp nb} c Hde bs.

Section SigCopyMet.
  Variable parse : string -> option ty.
  Variable c : wcfg.
  Variables cp nb : Prop.
  Hypothesis Hde : cp -> string_reader_drops_err c = false.
  (* what signature.Parse satisfies (parse_opt_rdepth) *)
  Hypothesis Hparse : nb -> forall s t, parse s = Some t -> rdepth t <= 2 * N.of_nat (String.length s) + 8.

  (* a dynamic value: q bytes of signature consumed, w of them returned in front of the data; the q
     bytes pay for the nesting Bt of the type they name *)
  Lemma met_value {slope Bt m n n' p l q} w : met slope cp nb 0 Bt m n p l -> n + q <= n' -> w <= q -> (nb -> Bt <= slope * q) ->
    met slope cp nb 0 1 (deeper (charge (w + p) m)) n' (w + p) l /\ met slope cp nb 0 1 (deeper m) n' 0 l.
  Proof.
    intros (Hl & Hc & Hn) Hq Hw HB.
    assert (Hu : n - l <= n' - l /\ q + (n - l) <= n' - l /\ l <= n') by (clear - Hl Hq; lia). destruct Hu as (Hu & Hy & Hl').
    assert (Hnest : nb -> nesting m + 1 <= 1 + slope * (n' - l)).
    { intro Hb. specialize (Hn Hb). specialize (HB Hb).
      pose proof (N.mul_le_mono_l _ _ slope Hy) as Hs. rewrite N.mul_add_distr_l in Hs. clear - Hn HB Hs. lia. }
    split; (split; [exact Hl'|split; [|exact Hnest]]); intro Hcp; destruct (Hc Hcp) as [Hf Hb].
    - split; [clear - Hf Hq Hw; lia|apply bnd_deeper, (bnd_charge _ _ _ _ Hb Hu); clear - Hf Hq Hw; lia].
    - split; [exact Hl'|exact (bnd_deeper _ _ (bnd_up _ _ _ Hb Hu))].
  Qed.

  (* valueReader returns append(signature bytes, data...): one more copy of everything it read; its 4 + |sg|
     bytes pay for the nesting of the type the signature names *)
  Lemma mvalue_met (inner : ty -> bytes -> mres bytes) inner' :
    (forall t b, rok 2 cp nb (rdepth t) b (inner' t b) (inner t b)) ->
    forall b, rok 2 cp nb 1 b
      (do '(sg, r) <- read_str b;
       match parse (string_of_bytes sg) with
       | None => RErr r
       | Some t' => do '(d, r') <- inner' t' r; ROk ((if value_reader_no_len c then sg else enc_str sg) ++ d, r')
       end) (mvalue parse c inner b).
  Proof.
    intros Hin b. unfold mvalue. pose proof (read_str_fits b) as Hs.
    destruct (read_str b) as [[sg r]|l| |]; cbn [fits bind] in Hs |- *;
      [|split; [reflexivity|]; apply met_leaf; cbn [mfail fst snd psz remains]; lia ..].
    destruct (parse (string_of_bytes sg)) as [t'|] eqn:E; [|split; [reflexivity|]; apply met_leaf; cbn [mfail fst snd psz remains]; lia].
    assert (E' : nb -> rdepth t' <= 2 * (4 + blen sg)).
    { intro Hb. apply (Hparse Hb) in E. rewrite string_of_bytes_length in E. fold (blen sg) in E. lia. }
    destruct (Hin t' r) as [Ex Hm]. rewrite <- Ex in *.
    assert (Hq : blen r + (4 + blen sg) <= blen b) by lia.
    assert (Hw : blen (if value_reader_no_len c then sg else enc_str sg) <= 4 + blen sg)
      by (destruct (value_reader_no_len c); [|rewrite enc_str_blen]; lia).
    destruct (inner t' r) as [m [[d r']|l| |]]; cbn [fst snd bind psz remains] in Hm |- *; (split; [reflexivity|cbn [fst psz remains]]).
    2-4: exact (proj2 (met_value 0 Hm Hq (N.le_0_l _) E')).
    rewrite blen_app. exact (proj1 (met_value _ Hm Hq Hw E')).
  Qed.

  (* every fuel, type, input and outcome: the outcome is sig_read's, the result fits what was consumed, every
     consumed byte was copied at most once per reader it is nested in, and the nesting is the type's and two more
     per consumed byte *)
  Lemma sig_copy_met : forall fuel t bs, rok 2 cp nb (rdepth t) bs (sig_read parse c fuel t bs) (sig_copy parse c fuel t bs).
  Proof.
    induction fuel as [|f IH]; intros t bs; rewrite sig_copy_eq, WireLemmas.sig_read_unfold;
      (apply (sig_copy_body_met c Hde); [apply sig_copy_obj_met, Hde|right; intro b; cbn [sig_copy_dyn WireLemmas.sig_dyn]]).
    - split; [reflexivity|]. apply met_leaf; cbn [mfail out_of_fuel fst snd psz remains]; lia.
    - apply mvalue_met, IH.
  Qed.
End SigCopyMet.

Arguments sig_copy_met parse c {cp nb} Hde Hparse fuel t bs.

(* sig_copy is sig_read with a meter: the same value, rest or error on every input and fuel *)
Theorem sig_copy_read : forall parse c fuel t bs, snd (sig_copy parse c fuel t bs) = sig_read parse c fuel t bs.
Proof.
  intros parse c fuel t bs. exact (proj1 (sig_copy_met parse c (cp := False) (nb := False) (False_ind _) (False_ind _) fuel t bs)).
Qed.

Section SigCopyOk.
  Variable parse : string -> option ty.
  Variable c : wcfg.
  Hypothesis Hde : string_reader_drops_err c = false.

  (* upper bound, every input, every fuel, every outcome: what the reader copies is at most the
     nesting it reached times the bytes it consumed *)
  Theorem sig_copy_bound : forall fuel t bs,
    copied (fst (sig_copy parse c fuel t bs)) <= nesting (fst (sig_copy parse c fuel t bs)) * used bs (snd (sig_copy parse c fuel t bs)).
  Proof using Hde.
    intros fuel t bs. destruct (sig_copy_met parse c (cp := True) (nb := False) (fun _ => Hde) (False_ind _) fuel t bs) as (E & _ & H & _).
    destruct (H I) as [_ Hc]. unfold bnd in Hc. rewrite N.add_0_r in Hc. rewrite used_remains, E. exact Hc.
  Qed.

  Lemma used_le : forall {A} bs (r : Wire.res (A * bytes)), used bs r <= blen bs.
  Proof. intros A bs [[a rest]|l| |]; cbn [used]; lia. Qed.

  Corollary sig_copy_bound_len : forall fuel t bs,
    copied (fst (sig_copy parse c fuel t bs)) <= nesting (fst (sig_copy parse c fuel t bs)) * blen bs.
  Proof. intros fuel t bs. eapply N.le_trans; [apply sig_copy_bound|apply N.mul_le_mono_l, used_le]. Qed.
End SigCopyOk.

(* a type that holds no dynamic value: the nesting is the type's, whatever the input and whatever stringReader does *)
Theorem sig_copy_nest_static : forall parse c fuel t bs, plain_m t = true ->
  nesting (fst (sig_copy parse c fuel t bs)) <= rdepth t.
Proof.
  intros parse c fuel t bs Ht. rewrite sig_copy_eq.
  assert (H : rok 0 False True (rdepth t) bs (sig_body c no_dyn (sig_obj c) t bs)
                (sig_copy_body c (sig_copy_dyn parse c fuel) (sig_copy_obj c) t bs)).
  { apply (sig_copy_body_met c (False_ind _)); [apply sig_copy_obj_met, False_ind|left; exact Ht]. }
  destruct H as (_ & _ & _ & H). specialize (H I). rewrite N.mul_0_l, N.add_0_r in H. exact H.
Qed.

Corollary sig_copy_static_linear : forall parse c fuel t bs,
  string_reader_drops_err c = false -> plain_m t = true ->
  copied (fst (sig_copy parse c fuel t bs)) <= rdepth t * blen bs.
Proof.
  intros parse c fuel t bs Hde Ht.
  eapply N.le_trans; [apply (sig_copy_bound_len parse c Hde)|apply N.mul_le_mono_r, sig_copy_nest_static, Ht].
Qed.

Section SigCopyNestLen.
  Variable parse : string -> option ty.
  Variable c : wcfg.
  Hypothesis Hde : string_reader_drops_err c = false.
  (* what signature.Parse satisfies (parse_opt_rdepth) *)
  Hypothesis Hparse : forall s t, parse s = Some t -> rdepth t <= 2 * N.of_nat (String.length s) + 8.

  (* a dynamic value pays, with its 4 + |sg| bytes, for the nesting of the type its signature names *)
  Theorem sig_copy_nest_used : forall fuel t bs,
    nesting (fst (sig_copy parse c fuel t bs)) <= rdepth t + 2 * used bs (snd (sig_copy parse c fuel t bs)).
  Proof.
    intros fuel t bs. destruct (sig_copy_met parse c (cp := False) (nb := True) (False_ind _) (fun _ => Hparse) fuel t bs) as (E & _ & _ & H).
    rewrite used_remains, E. exact (H I).
  Qed.

  Lemma sig_copy_nl : forall fuel t bs, nesting (fst (sig_copy parse c fuel t bs)) <= rdepth t + 2 * blen bs.
  Proof.
    intros fuel t bs. apply (N.le_trans _ _ _ (sig_copy_nest_used fuel t bs)), N.add_le_mono_l, N.mul_le_mono_l, used_le.
  Qed.

  (* closed bound: the reader copies at most (nesting of the type + 2 |input|) * |input| bytes *)
  Theorem sig_copy_quadratic : forall fuel t bs,
    copied (fst (sig_copy parse c fuel t bs)) <= (rdepth t + 2 * blen bs) * blen bs.
  Proof using Hde Hparse.
    intros fuel t bs. eapply N.le_trans; [apply (sig_copy_bound_len parse c Hde)|apply N.mul_le_mono_r, sig_copy_nl].
  Qed.
End SigCopyNestLen.

(* 5 + 10 + ... + 5 (n + 1) *)
Fixpoint copy_m (n : nat) : N :=
  match n with O => 5 | S n' => copy_m n' + 5 * (N.of_nat n + 1) end.
Lemma copy_m_closed : forall n, 2 * copy_m n = 5 * (N.of_nat n + 1) * (N.of_nat n + 2).
Proof.
  induction n as [|n IH]; [reflexivity|]. cbn [copy_m].
  replace (N.of_nat (S n)) with (N.of_nat n + 1) by lia. nia.
Qed.

Lemma nested_m_blen : forall n, blen (nested_m n) = 5 * (N.of_nat n + 1).
Proof.
  induction n as [|n IH]; [reflexivity|]. cbn [nested_m]. rewrite blen_app, IH.
  change (blen str_m) with 5. lia.
Qed.

Lemma parse_opt_m : parse_opt "m" = Some (TS SValue).
Proof. vm_compute. reflexivity. Qed.
Lemma parse_opt_v : parse_opt "v" = Some (TS SVoid).
Proof. vm_compute. reflexivity. Qed.

Lemma read_str_1 : forall b rest, read_str ([x01; x00; x00; x00; b] ++ rest) = ROk ([b], rest).
Proof. intros b rest. apply (WireLemmas.read_str_enc [b]). vm_compute. discriminate. Qed.

Lemma nested_m_copy : forall c, value_reader_no_len c = false ->
  forall n fuel rest, (n < fuel)%nat ->
  sig_copy parse_opt c fuel (TS SValue) (nested_m n ++ rest) =
  ({| copied := copy_m n; nesting := N.of_nat n + 2 |}, ROk (nested_m n, rest)).
Proof.
  intros c Hnl. induction n as [|n IH]; intros fuel rest Hf; (destruct fuel as [|f]; [lia|]).
  - rewrite sig_copy_eq. cbn [sig_copy_body sig_copy_dyn]. unfold mvalue. cbn [nested_m]. rewrite (read_str_1 x76).
    change (string_of_bytes [x76]) with "v"%string. rewrite parse_opt_v, Hnl.
    destruct f as [|f']; reflexivity.
  - rewrite sig_copy_eq. cbn [sig_copy_body sig_copy_dyn]. unfold mvalue. cbn [nested_m]. rewrite <- app_assoc, (read_str_1 x6d).
    change (string_of_bytes [x6d]) with "m"%string. rewrite parse_opt_m, Hnl.
    rewrite (IH f rest) by lia. cbv beta iota zeta. unfold deeper, charge. cbn [copied nesting].
    change (enc_str [x6d]) with str_m. rewrite blen_app, nested_m_blen. change (blen str_m) with 5.
    f_equal. f_equal.
    + cbn [copy_m]. lia.
    + lia.
Qed.

Theorem sig_copied_nested : forall n,
  sig_read parse_opt wclean (S (List.length (nested_m n))) (TS SValue) (nested_m n) = ROk (nested_m n, []) /\
  sig_copied wclean (TS SValue) (nested_m n) = copy_m n /\
  sig_nest wclean (TS SValue) (nested_m n) = N.of_nat n + 2.
Proof.
  intro n. unfold sig_copied, sig_nest. rewrite <- sig_copy_read.
  assert (Hf : (n < S (List.length (nested_m n)))%nat).
  { pose proof (nested_m_blen n) as H. unfold blen in H. lia. }
  pose proof (nested_m_copy wclean eq_refl n (S (List.length (nested_m n))) [] Hf) as H.
  rewrite app_nil_r in H. rewrite H. cbn [fst snd copied nesting]. repeat split.
Qed.

(* no linear bound: for every k there is an input the reader accepts (and returns whole) on which it
   copies more than k times the input length *)
Theorem sig_copy_not_linear : forall k : N, exists bs,
  sig_read parse_opt wclean (S (List.length bs)) (TS SValue) bs = ROk (bs, []) /\
  k * blen bs < sig_copied wclean (TS SValue) bs.
Proof.
  intro k. exists (nested_m (N.to_nat (2 * k))).
  destruct (sig_copied_nested (N.to_nat (2 * k))) as (Hr & Hc & _). split; [exact Hr|].
  rewrite Hc, nested_m_blen. pose proof (copy_m_closed (N.to_nat (2 * k))) as H.
  replace (N.of_nat (N.to_nat (2 * k))) with (2 * k) in * by lia. nia.
Qed.

(* the witness of the finding sig_reader_depth_quadratic: 8000 nested dynamic values, 40,005 bytes on the
   wire, 160,060,005 bytes copied (the harness measures about 200 MB allocated) *)
Example sig_copied_8000 :
  blen (nested_m (N.to_nat 8000)) = 40005 /\ sig_copied wclean (TS SValue) (nested_m (N.to_nat 8000)) = 160060005.
Proof.
  (* instances of nested_m_blen and copy_m_closed; the unary 8000 stays abstract so that nothing unfolds it *)
  generalize (N2Nat.id 8000). generalize (N.to_nat 8000). intros n E.
  destruct (sig_copied_nested n) as (_ & Hc & _). pose proof (copy_m_closed n) as H.
  rewrite Hc, nested_m_blen. rewrite E in *. split; [reflexivity|].
  apply (N.mul_cancel_l _ _ 2); [discriminate|]. rewrite H. reflexivity.
Qed.
(* and the same by evaluation of the model, 200 levels *)
Example sig_copied_200 :
  blen (nested_m 200) = 1005 /\ sig_copied wclean (TS SValue) (nested_m 200) = 101505 /\ sig_nest wclean (TS SValue) (nested_m 200) = 202.
Proof.
  (* the meter is evaluated once; the length is nested_m_blen *)
  assert (H : fst (sig_copy parse_opt wclean (S (List.length (nested_m 200))) (TS SValue) (nested_m 200))
              = {| copied := 101505; nesting := 202 |}) by (vm_compute; reflexivity).
  unfold sig_copied, sig_nest. rewrite H, nested_m_blen. repeat split.
Qed.

(* the hypothesis of the upper bound is needed: with stringReader's dropped error (pinned tree) 4 bytes of
   input -- a count of 1000 and nothing else, read as a list of strings -- make 4004 bytes of result,
   8004 bytes copied *)
Example drops_err_copy_unbounded :
  let c := {| value_reader_no_len := false; string_reader_drops_err := true; refl_drop8 := false;
              refl_struct_ignores_err := false; refl_neg_len_panics := false |} in
  sig_copied c (TList (TS SStr)) [xe8; x03; x00; x00] = 8004 /\ sig_nest c (TList (TS SStr)) [xe8; x03; x00; x00] = 2.
Proof. vm_compute. repeat split. Qed.

(* Second half, independent of the first: the recursion depth of the parser.  It stands in this file, and its
   imports here, because the results of both halves are known under the file's name (C07). *)
From QV Require Import PegProofs SigParseProofs SigParseMerged.
Local Open Scope string_scope.
Local Open Scope nat_scope.

(* more fuel changes no answer: one more level of the grammar, read at [upto False] *)
Lemma decl_m_more : forall f, upto False (decl_m f) (decl_m (S f)).
Proof.
  induction f as [|f IH]; [intros s Hs; exfalso; apply Hs; reflexivity|]. exact (level_m_upto False _ _ IH).
Qed.

(* an answer stays as it is with any larger fuel *)
Lemma decl_m_le : forall d e s, d <= e -> parse_within d s = true -> fst (decl_m e s) = fst (decl_m d s).
Proof.
  intros d e s Hle H. induction Hle as [|e Hle IH]; [reflexivity|].
  rewrite <- IH. apply decl_m_more. rewrite IH. unfold parse_within in H. intro Hn. rewrite Hn in H. discriminate H.
Qed.

Lemma parse_within_more : forall d e s, d <= e -> parse_within d s = true -> parse_within e s = true.
Proof. intros d e s Hle H. unfold parse_within. rewrite (decl_m_le d e s Hle H). exact H. Qed.

(* what a parser leaves is an end of what it was given *)
Definition sfx (r s : string) : Prop := exists pre, s = pre ++ r.
Lemma sfx_refl : forall s, sfx s s.
Proof. intro s. exists "". reflexivity. Qed.
Lemma sfx_trans : forall a b c, sfx a b -> sfx b c -> sfx a c.
Proof. intros a b c [p1 H1] [p2 H2]. exists (p2 ++ p1). subst. now rewrite sapp_assoc. Qed.
Lemma sfx_cons : forall r s c, sfx r s -> sfx r (String c s).
Proof. intros r s c [pre H]. exists (String c pre). subst. reflexivity. Qed.
Lemma sfx_app : forall a b, sfx b (a ++ b).
Proof. intros a b. exists a. reflexivity. Qed.
Lemma sfx_len : forall r s, sfx r s -> String.length r <= String.length s.
Proof. intros r s [pre H]. subst. rewrite slen_app. lia. Qed.
Lemma open_count_app : forall a b, open_count (a ++ b) = open_count a + open_count b.
Proof. induction a as [|c a IH]; intro b; cbn [append open_count]; [reflexivity|]. rewrite IH. lia. Qed.
Lemma sfx_open_count : forall r s, sfx r s -> open_count r <= open_count s.
Proof. intros r s [pre H]. subst. rewrite open_count_app. lia. Qed.

Lemma skip_ws_sfx : forall s, sfx (@skip_ws s) s.
Proof.
  induction s as [|c r IH]; cbn [skip_ws]; [apply sfx_refl|].
  destruct (is_ws c); [apply sfx_cons; exact IH|apply sfx_refl].
Qed.

(* on texts with at most K opening brackets the parser answers Ok or Fail, and what an Ok leaves is an
   end of the text (gd) / a shorter end (gdS): PegProofs.answers at the bound open_count and the order sfx *)
Definition gd (p : sparser) (K : nat) : Prop :=
  forall s, open_count s <= K ->
    match fst (p s) with Ok _ r => sfx r s | Fail => True | _ => False end.
Definition gdS (p : sparser) (K : nat) : Prop :=
  forall s, open_count s <= K ->
    match fst (p s) with Ok _ r => sfx r s /\ String.length r < String.length s | Fail => True | _ => False end.

(* gd and the two lemmas have no user here; design/COST_THEOREMS.md cites gd next to gdS *)
Lemma gd_le : forall p K K', gd p K -> K' <= K -> gd p K'.
Proof. intros p K K' H Hle s Hs. apply H. lia. Qed.
Lemma gdS_le : forall p K K', gdS p K -> K' <= K -> gdS p K'.
Proof. intros p K K' H Hle s Hs. apply H. lia. Qed.

(* the number of opening brackets, with "is an end of", bounds the fuel the grammar needs (SigParseProofs.decl_answers) *)
Lemma open_measures : measures open_count (fun s r => sfx r s).
Proof.
  split; [exact sfx_refl|split; [intros a b c Hb Hc; exact (sfx_trans c b a Hc Hb)|split]].
  - intros s v r E. apply (sfx_trans _ (skip_ws s)); [rewrite E; apply sfx_app|apply skip_ws_sfx].
  - intros s r H. split; [exact (sfx_open_count r s H)|exact (sfx_len r s H)].
Qed.

Lemma decl_m_gdS : forall f K, K < f -> gdS (decl_m f) K.
Proof.
  intros f K HK. apply (answers_feq _ _ (decl f)); [intro s; symmetry; apply decl_m_decl|].
  apply (decl_answers _ _ open_measures); [|exact HK]. intros c s r Hc E.
  pose proof (sfx_open_count _ _ (skip_ws_sfx s)) as H. rewrite E in H. cbn [open_count] in H.
  assert (Ho : is_open c = true) by (destruct Hc as [<-|[<-|[<-|[]]]]; reflexivity). rewrite Ho in H. exact H.
Qed.

Lemma parse_within_open_count : forall s, parse_within (S (open_count s)) s = true.
Proof.
  intro s. unfold parse_within.
  pose proof (decl_m_gdS (S (open_count s)) (open_count s) ltac:(lia) s (le_n _)) as H.
  destruct (fst (decl_m (S (open_count s)) s)); try reflexivity. exfalso. exact H.
Qed.

Lemma open_count_le_length : forall s, open_count s <= String.length s.
Proof. induction s as [|c r IH]; cbn [open_count String.length]; [lia|]. destruct (is_open c); lia. Qed.

Lemma least_from_ge : forall k d s, d <= least_from k d s.
Proof.
  induction k as [|k IH]; intros d s; cbn [least_from]; [lia|].
  destruct (parse_within d s); [lia|]. specialize (IH (S d) s). lia.
Qed.

(* below the answer nothing is enough; the answer is enough if the last candidate is *)
Lemma least_from_spec : forall k d s,
  (forall e, d <= e < least_from k d s -> parse_within e s = false) /\
  (parse_within (d + k) s = true -> parse_within (least_from k d s) s = true).
Proof.
  induction k as [|k IH]; intros d s; cbn [least_from].
  - rewrite Nat.add_0_r. split; [intros; lia|intro H; exact H].
  - destruct (parse_within d s) eqn:E; [split; [intros; lia|intros _; exact E]|].
    destruct (IH (S d) s) as [IH1 IH2]. rewrite <- Nat.add_succ_comm. split; [|exact IH2].
    intros e He. destruct (Nat.eq_dec e d) as [->|Hne]; [exact E|]. apply IH1. lia.
Qed.

(* the type rule with fuel d answers (a node, or a refusal) exactly when d is at least parse_depth s,
   and then always the same *)
Theorem parse_depth_spec : forall s d, parse_within d s = true <-> parse_depth s <= d.
Proof.
  intros s d. unfold parse_depth. destruct (least_from_spec (S (String.length s)) 0 s) as [H1 H2].
  assert (Hd : parse_within (least_from (S (String.length s)) 0 s) s = true).
  { apply H2, (parse_within_more (S (open_count s))); [|apply parse_within_open_count].
    pose proof (open_count_le_length s). lia. }
  split; [|intro Hle; exact (parse_within_more _ _ _ Hle Hd)].
  intro H. destruct (Nat.le_gt_cases (least_from (S (String.length s)) 0 s) d) as [Hle|Hlt]; [exact Hle|].
  rewrite (H1 d) in H by lia. discriminate H.
Qed.
Theorem decl_m_stable : forall s d, parse_depth s <= d -> fst (decl_m d s) = fst (decl_m (parse_depth s) s).
Proof.
  intros s d Hd. apply (decl_m_le _ _ _ Hd), parse_depth_spec, le_n.
Qed.

(* bounded: at most one nested entry of the type rule per opening bracket of the text, and one more;
   hence at most |s| + 1 *)
Theorem parse_depth_le_open_count : forall s, parse_depth s <= open_count s + 1.
Proof. intro s. rewrite Nat.add_1_r. apply parse_depth_spec, parse_within_open_count. Qed.
Corollary parse_depth_le_length : forall s, parse_depth s <= String.length s + 1.
Proof. intro s. pose proof (parse_depth_le_open_count s). pose proof (open_count_le_length s). lia. Qed.

Lemma basic_type_bracket : forall x, fst (basic_type (String "[" x)) = Fail.
Proof. intro x. reflexivity. Qed.
Lemma map_type_bracket : forall d x, fst (map_type d (String "[" x)) = Fail.
Proof. intros d x. reflexivity. Qed.

Lemma decl_m_brackets : forall f n rest, f <= n -> fst (decl_m f (brackets n ++ rest)) = NoFuel.
Proof.
  induction f as [|f IH]; intros n rest Hn; [reflexivity|].
  destruct n as [|n]; [lia|]. cbn [brackets append].
  rewrite decl_m_S, por_fst_cons, basic_type_bracket, por_fst_cons, map_type_bracket, por_fst_cons.
  unfold array_type at 1. rewrite pand_fst, and_loop_fst_cons.
  change (fst (@atom ty "[" (String "[" (brackets n ++ rest)))) with (@Ok (node ty) (NTerm "[") (brackets n ++ rest)).
  cbv beta iota. rewrite and_loop_fst_cons, (IH n rest) by lia. reflexivity.
Qed.

Lemma open_count_brackets : forall n rest, open_count (brackets n ++ rest) = n + open_count rest.
Proof. induction n as [|n IH]; intro rest; cbn [brackets append open_count]; [reflexivity|]. rewrite IH. reflexivity. Qed.

(* attained: n opening square brackets, whatever follows them without a further opening bracket:
   fuel n is not enough (decl_m_brackets), fuel n + 1 is (one per opening bracket, and one) *)
Lemma parse_depth_brackets_app : forall n rest, open_count rest = 0 -> parse_depth (brackets n ++ rest) = n + 1.
Proof.
  intros n rest Hr.
  assert (Hlo : ~ parse_depth (brackets n ++ rest) <= n).
  { intro H. apply parse_depth_spec in H. unfold parse_within in H. rewrite decl_m_brackets in H by lia. discriminate H. }
  pose proof (parse_depth_le_open_count (brackets n ++ rest)) as Hhi. rewrite open_count_brackets, Hr in Hhi. lia.
Qed.
(* the text of n opening square brackets (which Parse refuses) and the signature of n lists around an
   int32 (which it accepts) *)
Theorem parse_depth_brackets_eq : forall n, parse_depth (brackets n) = n + 1.
Proof. intro n. rewrite <- (sapp_nil_r (brackets n)). apply parse_depth_brackets_app. reflexivity. Qed.
Theorem parse_depth_nested_list_eq : forall n, parse_depth (nested_list n) = n + 1.
Proof.
  intro n. apply parse_depth_brackets_app. cbn [append open_count is_open].
  induction n as [|n IH]; [reflexivity|exact IH].
Qed.

Fixpoint list_ty (n : nat) : ty := match n with O => TS SI32 | S n' => TList (list_ty n') end.
Lemma closes_snoc : forall n, closes n ++ "]" = closes (S n).
Proof. induction n as [|n IH]; [reflexivity|]. cbn [closes append] in *. now rewrite IH. Qed.
Lemma print_list_ty : forall n, print (list_ty n) = nested_list n.
Proof.
  induction n as [|n IH]; [reflexivity|]. cbn [list_ty print]. rewrite IH. unfold nested_list.
  cbn [brackets append]. f_equal. rewrite !sapp_assoc. f_equal. cbn [append]. f_equal. apply closes_snoc.
Qed.
Lemma list_ty_wf : forall n, wf_ty (list_ty n) = true.
Proof. induction n as [|n IH]; [reflexivity|exact IH]. Qed.
Lemma parse_m_nested_list : forall n, parse_m (nested_list n) = POk (list_ty n).
Proof. intro n. rewrite parse_m_parse, <- print_list_ty. apply parse_print. apply list_ty_wf. Qed.

(* no constant bound: for every k a signature that Parse accepts and whose parse nests deeper than k *)
Theorem parse_depth_unbounded : forall k, exists s, parse_m s = POk (list_ty k) /\ k < parse_depth s.
Proof.
  intro k. exists (nested_list k). split; [apply parse_m_nested_list|rewrite parse_depth_nested_list_eq; lia].
Qed.

(* the type is no deeper than the parse that made it: a deep type needs a deep parse *)
Theorem parse_depth_ty : forall s t, parse_m s = POk t -> ty_depth t <= parse_depth s.
Proof.
  intros s t H. rewrite parse_m_parse in H. apply parse_ok in H.
  rewrite <- decl_m_decl, (decl_m_stable s (S (String.length s))), decl_m_decl in H
    by (pose proof (parse_depth_le_length s); lia).
  exact (proj1 (proj2 (decl_sound _ _ _ _ H t eq_refl))).
Qed.
Corollary parse_opt_depth : forall s t, parse_opt s = Some t -> ty_depth t <= open_count s + 1.
Proof.
  intros s t H. unfold parse_opt in H. destruct (parse s) as [t'| |] eqn:E; try discriminate. inversion H; subst.
  rewrite <- parse_m_parse in E. pose proof (parse_depth_ty s t E). pose proof (parse_depth_le_open_count s). lia.
Qed.

Local Open Scope N_scope.

Lemma rdepth_obj_eq : rdepth_obj = 8.
Proof. vm_compute. reflexivity. Qed.

(* reader nesting against type depth: a map is two readers, "o" is eight *)
Lemma rdepth_le_depth : forall t, rdepth t <= 2 * N.of_nat (ty_depth t) + 6.
Proof.
  unfold rdepth. rewrite rdepth_obj_eq.
  induction t as [s|t' IH|tk tv IHk IHv|ts IH|name fs IH] using ty_ind2; cbn [rdepth_g ty_depth].
  - destruct s; lia.
  - lia.
  - lia.
  - induction IH as [|t ts' Ht HF IH']; cbn [fold_right]; lia.
  - induction IH as [|f fs' Hf HF IH']; cbn [fold_right]; lia.
Qed.

Lemma parse_opt_rdepth : forall s t, parse_opt s = Some t -> rdepth t <= 2 * N.of_nat (String.length s) + 8.
Proof.
  intros s t H. pose proof (parse_opt_depth s t H) as Hd. pose proof (open_count_le_length s) as Ho.
  pose proof (rdepth_le_depth t) as Hr. lia.
Qed.

Print Assumptions sig_copy_read.
Print Assumptions sig_copy_bound.
Print Assumptions sig_copy_static_linear.
Print Assumptions sig_copy_quadratic.
Print Assumptions sig_copied_nested.
Print Assumptions sig_copy_not_linear.
Print Assumptions parse_depth_spec.
Print Assumptions decl_m_stable.
Print Assumptions parse_depth_le_open_count.
Print Assumptions parse_depth_brackets_eq.
Print Assumptions parse_depth_nested_list_eq.
Print Assumptions parse_depth_unbounded.
Print Assumptions parse_depth_ty.
