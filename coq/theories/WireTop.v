(* WireTop.v — the round-trip theorems instantiated at the PEG model of signature.Parse
   (spec_dec_enc_top, sig_read_spec_top, value_roundtrip_top) and what follows from them there:
   a decoder that is exact on an encoding makes it injective (exact_injective; dynamic values,
   typed data), the reflection encoder composed with the typed decoder, generated decoders as
   instances of the typed decoder; the example values of the props files. *)
From QV Require Import GenDec WireProofs ReflProofs ValueProofs ParseOpt WireRefute.
Local Open Scope N_scope.

Definition spec_dec_enc_top := spec_dec_enc parse_opt parse_opt_print.
Definition sig_read_spec_top := sig_read_spec parse_opt parse_opt_print.
Definition value_roundtrip_top := value_roundtrip parse_opt parse_opt_print.

(* A decoder that returns the value and what follows its encoding makes the encoding
   injective. *)
Section Code.
  Context {A : Type} (enc : A -> bytes) (ok : A -> Prop).

  Lemma exact_injective (dec : bytes -> res (A * bytes)) :
    (forall a r, ok a -> dec (enc a ++ r) = ROk (a, r)) ->
    forall a1 a2 r1 r2, ok a1 -> ok a2 -> enc a1 ++ r1 = enc a2 ++ r2 -> a1 = a2 /\ r1 = r2.
  Proof.
    intros Hdec a1 a2 r1 r2 H1 H2 He. pose proof (Hdec a1 r1 H1) as E.
    rewrite He, (Hdec a2 r2 H2) in E. inversion E. split; reflexivity.
  Qed.
End Code.

(* the encoding is injective: two well-formed values followed by any bytes that produce the
   same byte string are the same value followed by the same bytes (prefix-freeness follows,
   Bytes.injective_not_prefix) *)
Lemma value_enc_injective : forall v1 v2 r1 r2, wf_dval v1 -> wf_dval v2 ->
  enc_dval v1 ++ r1 = enc_dval v2 ++ r2 -> v1 = v2 /\ r1 = r2.
Proof.
  exact (exact_injective enc_dval wf_dval _ (fun v r => value_roundtrip_top wclean v r eq_refl)).
Qed.

(* typed data: for a fixed signature the documented encoding is injective and prefix-free on
   well-typed values, and what the reflection encoder writes is read back by the typed decoder
   of the documented format (the two serializers compose to the identity) *)
Lemma spec_enc_injective : forall t v1 v2 r1 r2, wf_ty t = true -> has_ty v1 t = true -> has_ty v2 t = true ->
  spec_enc v1 ++ r1 = spec_enc v2 ++ r2 -> v1 = v2 /\ r1 = r2.
Proof.
  intros t v1 v2 r1 r2 Ht H1 H2. set (F := Nat.max (dyn_depth v1) (dyn_depth v2)).
  apply (exact_injective spec_enc (fun v => has_ty v t = true /\ (dyn_depth v <= F)%nat) (spec_dec parse_opt F t)).
  - intros v r [Hv Hd]. now apply spec_dec_enc_top.
  - split; [exact H1|apply PeanoNat.Nat.le_max_l].
  - split; [exact H2|apply PeanoNat.Nat.le_max_r].
Qed.
Lemma refl_enc_spec_dec : forall c v t fuel rest, refl_drop8 c = false -> wf_ty t = true ->
  has_ty v t = true -> refl_domain t = true -> (dyn_depth v <= fuel)%nat ->
  spec_dec parse_opt fuel t (refl_enc c v ++ rest) = ROk (v, rest).
Proof.
  intros c v t fuel rest Hc Ht Hv Hd Hf. rewrite (refl_enc_spec c v t Hc Hv Hd). now apply spec_dec_enc_top.
Qed.

(* generated decoders (MetaObject, ObjectReference, ServiceInfo ...): instances of the typed decoder *)
Lemma gen_dec_exact : forall t v rest, wf_ty t = true -> has_ty v t = true -> dyn_depth v = 0%nat ->
  gen_dec parse_opt t (spec_enc v ++ rest) = ROk (v, rest).
Proof. intros t v rest Ht Hv Hd. unfold gen_dec. apply spec_dec_enc_top; auto. rewrite Hd. apply le_n. Qed.

(* non-vacuity: a nested value with a dynamic member, a map and an 8-bit field *)
Definition ex_ty := TStruct "Rec" [("id"%string, TS SU8); ("tags"%string, TMap (TS SStr) (TS SValue)); ("pts"%string, TList (TTuple [TS SI16; TS SF64]))].
Definition ex_val := VTup [VNum 1 200; VMap [(VStr [x61], VDyn (TList (TS SI32)) (VList [VNum 4 7]))]; VList [VTup [VNum 2 65535; VNum 8 1]]].
Lemma ex_val_ok : good_ty ex_ty = true /\ has_ty ex_val ex_ty = true /\ dyn_depth ex_val = 1%nat /\ (List.length (spec_enc ex_val) = 39)%nat.
Proof. vm_compute. repeat split. Qed.
Definition ex_dval := DList [DNum KI32 5; DOpaque (bytes_of_string "{sm}") (spec_enc (VMap [(VStr [x61], dyn5)])); DStr [x62]].

(* non-vacuity of the theorems outside wfz: containers of zero-width elements, alone, nested,
   as map entries and next to sized members, inside a dynamic value as well *)
Definition zw_ty := TTuple [TList (TS SVoid); TS SI32; TList (TTuple []); TList (TList (TS SVoid));
                            TMap (TS SVoid) (TStruct "E" []); TS SValue; TS SU8].
Definition zw_val := VTup [VList [VTup []; VTup []; VTup []]; VNum 4 7; VList [VTup []; VTup []];
                           VList [VList [VTup []]; VList []]; VMap [(VTup [], VTup [])];
                           VDyn (TList (TTuple [TS SVoid])) (VList [VTup [VTup []]]); VNum 1 9].
Lemma zw_val_ok : wf_ty zw_ty = true /\ wfz zw_ty = false /\ has_ty zw_val zw_ty = true /\
  dyn_depth zw_val = 1%nat /\ (List.length (spec_enc zw_val) = 42)%nat.
Proof. vm_compute. repeat split. Qed.
