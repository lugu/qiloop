(* SigParseProofs.v — the signature parser of SigParse.v against the printer of Sig.v: the terminals by one
   specification each; result and number of parser invocations of the grammar on every printed signature
   (decl_runs), hence parse (print t) = t and the exponential step count; termination for any bound that the three
   brackets lower (decl_answers), hence parse never runs out of fuel; whatever parse accepts is well formed, no deeper
   than the fuel, and its text the printed signature (decl_sound), so printing is a fixed point.  Last, Type() as a
   kind tree (go_type) against the signature. *)
From QV Require Import SigFacts PegProofs SigParse.
Import ListNotations.
Local Open Scope string_scope.

Definition token_of (cls : string -> bool) (w : string) (x : res snode * N) : Prop :=
  snd x = 1%N /\
  match fst x with
  | Ok n r => exists v, n = NTerm v /\ cls v = true /\ w = v ++ r
  | Fail => True
  | _ => False
  end.

Lemma ident_spec s : token_of is_ident (skip_ws s) (ident s).
Proof.
  unfold ident, token1. destruct (skip_ws s) as [|c r]; [now split|].
  destruct (is_alpha c) eqn:Hc; [|now split].
  destruct (span is_alnum_ r) as [a b] eqn:E. apply span_spec in E as (-> & Ha & _).
  split; [reflexivity|]. exists (String c a). cbn. now rewrite Hc.
Qed.

Lemma struct_name_spec s : token_of is_struct_name (skip_ws s) (struct_name s).
Proof.
  unfold struct_name. destruct (skip_ws s) as [|c r]; [now split|].
  destruct (is_alpha c) eqn:Hc; [|now split].
  destruct (span is_alnum_ r) as [a b] eqn:E. apply span_spec in E as (-> & Ha & _).
  assert (Hplain : token_of is_struct_name (String c (a ++ b)) (Ok (NTerm (String c a)) b, 1%N)).
  { split; [reflexivity|]. exists (String c a). repeat split.
    apply shape_is_struct_name. left. cbn. now rewrite Hc. }
  destruct b as [|x [|c2 r2]]; cbv beta iota zeta; try exact Hplain;
    rewrite match_lt; destruct (Ascii.eqb_spec x "<") as [->|_]; try exact Hplain.
  destruct (is_alpha c2) eqn:Hc2; [|exact Hplain].
  destruct (span is_alnum_ r2) as [a2 b2] eqn:E2. apply span_spec in E2 as (-> & Ha2 & _).
  destruct b2 as [|y b3]; [exact Hplain|].
  rewrite match_gt. destruct (Ascii.eqb_spec y ">") as [->|_]; [|exact Hplain].
  split; [reflexivity|]. eexists. repeat split.
  - apply shape_is_struct_name. right. exists (String c a), (String c2 a2). cbn. now rewrite Hc, Hc2.
  - now autorewrite with sapp.
Qed.

Lemma struct_name_words : words struct_name.
Proof.
  intro s. destruct (struct_name_spec s) as [_ H]. destruct (fst (struct_name s)); try exact H.
  destruct H as (v & _ & Hv & E). exists v. split; [intros ->; discriminate|exact E].
Qed.

Lemma ident_ok f d x : is_ident f = true -> is_alnum_ d = false ->
  ident (f ++ String d x) = (Ok (NTerm f) (String d x), 1%N).
Proof.
  intros Hf Hd. destruct (is_ident_inv f Hf) as (c & r & -> & Hc & Hr).
  apply token1_run; [assumption|now apply alpha_not_ws|assumption|assumption].
Qed.

Lemma struct_name_ok n d x : is_struct_name n = true -> (d = "," \/ d = ">")%char ->
  struct_name (n ++ String d x) = (Ok (NTerm n) (String d x), 1%N).
Proof.
  intros Hn Hd. assert (Hdn : is_alnum_ d = false) by (destruct Hd; subst d; reflexivity).
  apply is_struct_name_shape in Hn as [Hn|(a & b & -> & Ha & Hb)].
  - destruct (is_ident_inv n Hn) as (c & r & -> & Hc & Hr).
    unfold struct_name. cbn [append]. rewrite skip_ws_alpha, Hc, span_app by assumption.
    destruct Hd; subst d; reflexivity.
  - destruct (is_ident_inv a Ha) as (c & r & -> & Hc & Hr).
    destruct (is_ident_inv b Hb) as (c2 & r2 & -> & Hc2 & Hr2).
    autorewrite with sapp. unfold struct_name.
    rewrite skip_ws_alpha, Hc, span_app, Hc2, span_app by auto. reflexivity.
Qed.

(* the only follow condition: no '<' (after white space) behind a printed type, so that the
   struct alternative, tried first, fails after the closing parenthesis of a tuple *)
Definition follow (rest : string) : bool :=
  match skip_ws rest with String c _ => negb (Ascii.eqb "<" c) | EmptyString => true end.

Lemma follow_atom_lt rest : follow rest = true -> @atom ty "<" rest = (Fail, 1%N).
Proof.
  unfold follow, atom. destruct (skip_ws rest) as [|c r]; [reflexivity|].
  cbn [strip_prefix]. destruct (Ascii.eqb "<" c); [discriminate|reflexivity].
Qed.

Lemma print_head t : exists c r, print t = String c r /\ @is_ws c = false /\ Ascii.eqb "<" c = false.
Proof.
  destruct t as [s|t|k v|ts|n fs]; [destruct s| | | |destruct fs]; cbn; eexists _, _; repeat split.
Qed.

Lemma follow_print t x : follow (print t ++ x) = true.
Proof.
  destruct (print_head t) as (c & r & E & Hw & Hc). rewrite E. unfold follow. cbn [append skip_ws]. now rewrite Hw, Hc.
Qed.

Lemma print_len t : 1 <= String.length (print t).
Proof. destruct (print_head t) as (c & r & E & _). rewrite E. cbn. lia. Qed.

Definition tnode (t : ty) : snode := NList [NVal t].

Lemma extract_types_tnodes ts : extract_types (map tnode ts) = Some ts.
Proof. induction ts as [|t ts IH]; cbn; [reflexivity|now rewrite IH]. Qed.

Lemma extract_names_terms ns : extract_names (map (@NTerm ty) ns) = Some ns.
Proof. induction ns as [|n ns IH]; cbn; [reflexivity|now rewrite IH]. Qed.

Definition members_str (ts : list ty) : string := String.concat "" (map print ts).
Definition names_str (l : list string) : string := String.concat "" (map (fun f => "," ++ f) l).

Lemma members_str_cons t ts : members_str (t :: ts) = print t ++ members_str ts.
Proof. unfold members_str. cbn [map]. apply sconcat_cons. Qed.

Lemma names_str_cons f l : names_str (f :: l) = String "," (f ++ names_str l).
Proof. unfold names_str. cbn [map]. now rewrite sconcat_cons. Qed.

Lemma follow_members ts tail : follow tail = true -> follow (members_str ts ++ tail) = true.
Proof.
  destruct ts as [|t ts]; [trivial|]. intros _. rewrite members_str_cons, sapp_assoc. apply follow_print.
Qed.

Lemma join_names f l : "," ++ join "," (f :: l) = names_str (f :: l).
Proof.
  revert f; induction l as [|g l IH]; intro f; [reflexivity|].
  rewrite names_str_cons, <- IH. reflexivity.
Qed.

Lemma print_tuple ts : print (TTuple ts) = String "(" (members_str ts ++ ")").
Proof. reflexivity. Qed.

Lemma print_struct n fs :
  print (TStruct n fs) = String "(" (members_str (map snd fs) ++ String ")" (String "<" (n ++ names_str (map fst fs) ++ ">"))).
Proof.
  unfold members_str. rewrite map_map. destruct fs as [|f fs]; [reflexivity|].
  cbn [map]. rewrite <- join_names. reflexivity.
Qed.

Local Open Scope N_scope.

Fixpoint place (x : string) (l : list string) : N :=
  match l with [] => 0 | y :: r => if String.eqb x y then 1 else 1 + place x r end.

(* the parser invocations of signature.Parse on the printed signature of t (decl_runs).  A letter is found at its
   place among the basic types; a tuple is parsed twice, first as the beginning of a struct, which fails for want
   of a '<' after the closing parenthesis: 83 = 2 * (1 + 26) for the two list loops and their last, failing
   attempt, 21 for the alternatives that miss, 8 for the two Ands and their atoms *)
Fixpoint print_steps (t : ty) : N :=
  match t with
  | TS s => 2 + place (scalar_letter s) basic_letters
  | TList t => print_steps t + 23
  | TMap k v => print_steps k + print_steps v + 21
  | TTuple ts => 2 * fold_right (fun t a => print_steps t + a) 0 ts + 83
  | TStruct _ fs => fold_right (fun f a => print_steps (snd f) + a) 0 fs + 3 * N.of_nat (List.length fs) + 58
  end.
Notation members_steps := (fold_right (fun t a => print_steps t + a) 0).

Definition prints (d : sparser) (t : ty) : Prop :=
  forall rest, follow rest = true -> d (print t ++ rest) = (Ok (tnode t) rest, print_steps t).


Section Alternatives.
Variable d : sparser.

Lemma array_type_run t rest : prints d t ->
  array_type d (print (TList t) ++ rest) = (Ok (NVal (TList t)) rest, print_steps t + 3).
Proof.
  intro Ht. unfold array_type. rewrite pand_run. cbn [print]. autorewrite with sapp.
  erewrite and_loop_run by reflexivity. erewrite and_loop_run by now apply Ht.
  erewrite and_loop_run by reflexivity. run_done.
Qed.

Lemma map_type_run k v rest : prints d k -> prints d v ->
  map_type d (print (TMap k v) ++ rest) = (Ok (NVal (TMap k v)) rest, print_steps k + print_steps v + 3).
Proof.
  intros Hk Hv. unfold map_type. rewrite pand_run. cbn [print]. autorewrite with sapp.
  erewrite and_loop_run by reflexivity. erewrite and_loop_run by apply Hk, follow_print.
  erewrite and_loop_run by now apply Hv. erewrite and_loop_run by reflexivity. run_done.
Qed.

Lemma members_run ts tail : Forall (prints d) ts -> follow tail = true ->
  many_run d (members_str ts ++ tail) (map tnode ts) tail (members_steps ts).
Proof.
  intros HF Hfo. induction HF as [|t ts Ht _ IH]; [constructor|].
  rewrite members_str_cons, sapp_assoc. apply (many_run_cons _ _ _ (members_str ts ++ tail)); [|..|exact IH].
  - apply Ht. now apply follow_members.
  - rewrite (slen_app (print t)). pose proof (print_len t). lia.
Qed.

Lemma list_type_run ts tail kf : Forall (prints d) ts -> follow tail = true -> d tail = (Fail, kf) ->
  list_type d (members_str ts ++ tail) = (Ok (NList (map tnode ts)) tail, 1 + (members_steps ts + kf)).
Proof. intros HF Hfo Hfail. apply (kleene_run None d); [now apply members_run|exact Hfail]. Qed.

Variable ts : list ty.
Variable rest : string.
Variable kf : N.
Hypothesis Hts : Forall (prints d) ts.
Hypothesis Hclose : d (String ")" rest) = (Fail, kf).

Lemma tuple_type_run : tuple_type d (print (TTuple ts) ++ rest) = (Ok (NVal (TTuple ts)) rest, members_steps ts + kf + 4).
Proof.
  unfold tuple_type. rewrite pand_run, print_tuple. autorewrite with sapp.
  erewrite and_loop_run by reflexivity.
  erewrite and_loop_run by (apply list_type_run; [exact Hts|reflexivity|exact Hclose]).
  erewrite and_loop_run by reflexivity.
  unfold after; cbn [and_loop fst snd lift docb nodify_tuple]. rewrite extract_types_tnodes. run_done.
Qed.

(* the struct alternative goes through the whole member list of a tuple before it fails *)
Lemma struct_type_tuple_run : follow rest = true ->
  struct_type d (print (TTuple ts) ++ rest) = (Fail, members_steps ts + kf + 5).
Proof.
  intro Hfo. unfold struct_type. rewrite pand_run, print_tuple. autorewrite with sapp.
  erewrite and_loop_run by reflexivity.
  erewrite and_loop_run by (apply list_type_run; [exact Hts|reflexivity|exact Hclose]).
  erewrite and_loop_run by reflexivity.
  rewrite (and_loop_stop _ _ _ _ (follow_atom_lt rest Hfo)). run_done.
Qed.

End Alternatives.

Definition member_p : sparser := pand (Some nodify_member) [atom ","; ident].

Lemma names_next l x : exists d y, (names_str l ++ String ">" x)%string = String d y /\ (d = "," \/ d = ">")%char.
Proof.
  destruct l as [|g l]; [exists ">"%char, x; auto|]. rewrite names_str_cons. eexists _, _; split; [reflexivity|auto].
Qed.

Lemma names_run l x : forallb is_ident l = true ->
  many_run member_p (names_str l ++ String ">" x) (map (@NTerm ty) l) (String ">" x) (3 * N.of_nat (List.length l)).
Proof.
  induction l as [|f l IH]; intro Hl; [constructor|].
  cbn in Hl. apply andb_prop in Hl as [Hf Hl]. rewrite names_str_cons. autorewrite with sapp.
  cbn [List.length]. rewrite Nat2N.inj_succ, N.mul_succ_r, N.add_comm.
  apply (many_run_cons _ _ _ (names_str l ++ String ">" x)); [| |exact (IH Hl)].
  - unfold member_p. rewrite pand_run. erewrite and_loop_run by reflexivity.
    destruct (names_next l x) as (d & y & -> & Hd).
    erewrite and_loop_run by (apply ident_ok; [assumption|destruct Hd; now subst d]). reflexivity.
  - cbn. rewrite !slen_app. lia.
Qed.

Lemma member_list_run l x : forallb is_ident l = true ->
  member_list (names_str l ++ String ">" x) =
  (Ok (NList (map (@NTerm ty) l)) (String ">" x), 3 * N.of_nat (List.length l) + 3).
Proof.
  intro H. replace (3 * N.of_nat (List.length l) + 3) with (1 + (3 * N.of_nat (List.length l) + 2)) by lia.
  apply (kleene_run None member_p); [now apply names_run|reflexivity].
Qed.

Lemma struct_type_run (d : sparser) n fs rest kf :
  is_struct_name n = true -> forallb is_ident (map fst fs) = true -> Forall (prints d) (map snd fs) ->
  (forall x, d (String ")" x) = (Fail, kf)) ->
  struct_type d (print (TStruct n fs) ++ rest) =
  (Ok (NVal (TStruct n fs)) rest, members_steps (map snd fs) + kf + 3 * N.of_nat (List.length fs) + 10).
Proof.
  intros Hn Hids HF Hclose. unfold struct_type. rewrite pand_run, print_struct. autorewrite with sapp.
  erewrite and_loop_run by reflexivity.
  erewrite and_loop_run by (apply list_type_run; [exact HF|reflexivity|apply Hclose]).
  erewrite and_loop_run by reflexivity. erewrite and_loop_run by reflexivity.
  destruct (names_next (map fst fs) rest) as (c & y & E & Hc).
  rewrite E. erewrite and_loop_run by now apply struct_name_ok. rewrite <- E.
  erewrite and_loop_run by now apply member_list_run. erewrite and_loop_run by reflexivity.
  unfold after; cbn [and_loop fst snd lift docb nodify_struct].
  rewrite extract_types_tnodes, extract_names_terms, !map_length, Nat.eqb_refl, combine_fst_snd. run_done.
Qed.

Lemma decl_S f s : decl (S f) s =
  por None [basic_type; map_type (decl f); array_type (decl f); struct_type (decl f); tuple_type (decl f)] s.
Proof. reflexivity. Qed.

Lemma decl_close f x : decl (S f) (String ")" x) = (Fail, 26).
Proof. reflexivity. Qed.

Local Open Scope nat_scope.

Notation max_depth := (fold_right (fun t a => Nat.max (ty_depth t) a) 0).

Lemma fields_wf (fs : list (string * ty)) :
  forallb (fun f => is_ident (fst f) && wf_ty (snd f)) fs = forallb is_ident (map fst fs) && forallb wf_ty (map snd fs).
Proof.
  induction fs as [|x fs IH]; cbn; [reflexivity|]. rewrite IH.
  destruct (is_ident (fst x)), (wf_ty (snd x)), (forallb is_ident (map fst fs)); reflexivity.
Qed.

Lemma fields_depth (fs : list (string * ty)) :
  fold_right (fun f a => Nat.max (ty_depth (snd f)) a) 0 fs = max_depth (map snd fs).
Proof. induction fs as [|x fs IH]; cbn; [reflexivity|now rewrite IH]. Qed.

Lemma fields_steps (fs : list (string * ty)) : fold_right (fun f a => (print_steps (snd f) + a)%N) 0%N fs = members_steps (map snd fs).
Proof. induction fs as [|x fs IH]; cbn; [reflexivity|now rewrite IH]. Qed.

Definition decl_prints (t : ty) : Prop := wf_ty t = true -> forall f, ty_depth t < f -> prints (decl f) t.

Lemma members_print f ts : Forall decl_prints ts -> forallb wf_ty ts = true -> max_depth ts < f ->
  Forall (prints (decl f)) ts.
Proof.
  rewrite !Forall_forall, forallb_forall. intros IH Hwf Hf t Hin.
  pose proof (fold_max_in ty_depth t ts Hin). apply IH; auto. lia.
Qed.

(* result and steps of the grammar on a printed signature, with fuel above its depth and in front of anything
   but a '<' *)
Lemma decl_runs t : decl_prints t.
Proof.
  induction t as [s|t IHt|k v IHk IHv|ts IH|n fs IH] using ty_ind2; intros Hwf f Hf rest Hfo;
    cbn [wf_ty ty_depth print_steps] in Hwf, Hf |- *; [destruct f; [lia|]; destruct s; reflexivity|..];
    (destruct f as [|[|f]]; try lia; rewrite decl_S).
  - do 2 erewrite por_skip by reflexivity. erewrite por_run by (apply array_type_run, IHt; [assumption|lia]).
    run_done.
  - apply andb_prop in Hwf as [Hk Hv]. erewrite por_skip by reflexivity.
    erewrite por_run by (apply map_type_run; [apply IHk|apply IHv]; auto; lia). run_done.
  - assert (HF : Forall (prints (decl (S f))) ts) by (apply members_print; auto; lia).
    do 3 erewrite por_skip by reflexivity.
    erewrite por_skip by (apply struct_type_tuple_run; [exact HF|apply decl_close|exact Hfo]).
    erewrite por_run by (apply tuple_type_run; [exact HF|apply decl_close]). run_done.
  - apply andb_prop in Hwf as [Hn Hfs]. rewrite fields_wf in Hfs. apply andb_prop in Hfs as [Hids Hwfs]. rewrite fields_depth in Hf.
    apply Forall_map in IH. rewrite fields_steps.
    pose proof (struct_type_run (decl (S f)) n fs rest 26 Hn Hids) as Hs.
    rewrite print_struct, sapp_cons in Hs |- *.
    do 3 erewrite por_skip by reflexivity.
    erewrite por_run by (apply Hs; [apply members_print; auto; lia|intro x; apply decl_close]). run_done.
Qed.

Lemma members_depth_len ts :
  Forall (fun t => ty_depth t <= String.length (print t)) ts -> max_depth ts <= String.length (members_str ts).
Proof.
  induction 1 as [|t ts Ht HF IH]; [cbn; lia|].
  rewrite members_str_cons, slen_app. cbn [fold_right]. lia.
Qed.

Lemma depth_le_len t : ty_depth t <= String.length (print t).
Proof.
  induction t as [s|t IHt|k v IHk IHv|ts IH|n fs IH] using ty_ind2.
  - destruct s; cbn; lia.
  - cbn [print ty_depth]. cbn [append String.length]. rewrite slen_app. cbn. lia.
  - cbn [print ty_depth]. cbn [append String.length]. rewrite !slen_app. cbn. lia.
  - rewrite print_tuple. cbn [ty_depth String.length]. rewrite slen_app.
    pose proof (members_depth_len ts IH). lia.
  - rewrite print_struct. cbn [ty_depth String.length]. rewrite slen_app, fields_depth.
    apply (Forall_map snd (fun t => ty_depth t <= String.length (print t))) in IH.
    pose proof (members_depth_len _ IH). lia.
Qed.

Lemma parse_eq s : parse s = parse_fuel (S (String.length s)) s.
Proof. unfold parse, parse_c, parse_fuel. destruct (decl (S (String.length s)) s). reflexivity. Qed.

Theorem parse_print : forall t, wf_ty t = true -> parse (print t) = POk t.
Proof.
  intros t Hwf. rewrite parse_eq. unfold parse_fuel.
  pose proof (decl_runs t Hwf (S (String.length (print t)))) as H.
  rewrite <- (sapp_nil_r (print t)) at 2. rewrite H; [reflexivity| |reflexivity].
  pose proof (depth_le_len t). lia.
Qed.

(* Termination for any bound m and order R (PegProofs.measures) that the three brackets lower, behind which the
   grammar calls itself: with fuel above the bound of the input the grammar answers Ok or Fail, and an Ok leaves a
   shorter rest below the input.  The length is such a bound (parse_total), the number of opening brackets another. *)
Section Terminates.
Variable m : string -> nat.
Variable R : string -> string -> Prop.
Hypothesis HmR : measures m R.
Hypothesis Hopen : forall c s r, In c ["{"; "["; "("]%char -> skip_ws s = String c r -> m r < m s.
Notation below L := (fun s => m s <= L).
Notation strict := (fun s r => R s r /\ String.length r < String.length s).

Lemma word_answers (p : sparser) L : words p -> answers (below L) R p.
Proof. intro H. apply (answers_imp _ strict); [tauto|]. now apply (words_answers m R HmR). Qed.

Lemma basic_type_answers L : answers (below L) strict basic_type.
Proof.
  unfold basic_type. apply por_answers. cbn [map basic_letters].
  repeat constructor; apply (words_answers m R HmR), atom_words; discriminate.
Qed.

Lemma member_p_answers L : answers (below L) strict member_p.
Proof.
  apply (pand_answers_strict m R HmR); [apply (words_answers m R HmR), atom_words; discriminate|].
  repeat constructor. apply word_answers, token1_words.
Qed.

Lemma bracket_answers c L : In c ["{"; "["; "("]%char ->
  answers (below L) (fun s r => strict s r /\ m r < m s) (@atom ty (String c "")).
Proof.
  intros Hc s Hs.
  pose proof (words_answers m R HmR (@atom ty (String c "")) (below L) (atom_words (String c "") ltac:(discriminate)) s Hs) as H.
  unfold atom in *. destruct (strip_prefix (String c "") (skip_ws s)) as [r|] eqn:E; cbn [fst] in *; [|exact I].
  split; [exact H|]. apply strip_prefix_spec in E. exact (Hopen c s r Hc E).
Qed.

Theorem decl_answers f : forall L, L < f -> answers (below L) strict (decl f).
Proof.
  induction f as [|f IH]; intros L HL; [lia|].
  assert (Hd : forall L', L' < L -> answers (below L') R (decl f)).
  { intros L' HL'. apply (answers_imp _ strict); [tauto|]. apply IH. lia. }
  assert (Hlist : forall L', L' < L -> answers (below L') R (list_type (decl f))).
  { intros L' HL'. apply (kleene_answers m R HmR), IH. lia. }
  assert (HA : forall a L', a <> "" -> answers (below L') R (@atom ty a)) by (intros; now apply word_answers, atom_words).
  apply (por_answers None [basic_type; map_type (decl f); array_type (decl f); struct_type (decl f); tuple_type (decl f)]).
  repeat constructor; [apply basic_type_answers|..].
  all: apply (pand_answers_lower m R HmR); [apply bracket_answers; cbn; auto|]; intros L' HL'; repeat constructor; auto;
    try (apply HA; discriminate).
  - apply word_answers, struct_name_words.
  - apply (kleene_answers m R HmR), member_p_answers.
Qed.

End Terminates.

Lemma basic_type_goodS L : goodS basic_type L.
Proof. apply strict_goodS, (basic_type_answers _ _ length_measures). Qed.

Lemma member_p_goodS L : goodS member_p L.
Proof. apply strict_goodS, (member_p_answers _ _ length_measures). Qed.

Lemma struct_name_goodS L : goodS struct_name L.
Proof. apply strict_goodS, (words_answers _ _ length_measures), struct_name_words. Qed.

Lemma decl_goodS f L : L < f -> goodS (decl f) L.
Proof. intro HL. apply strict_goodS, (decl_answers _ _ length_measures (fun c s r _ => length_opens c s r) f L HL). Qed.

Theorem parse_total : forall s, parse s <> PFuel.
Proof.
  intro s. rewrite parse_eq. unfold parse_fuel.
  pose proof (decl_goodS (S (String.length s)) (String.length s) (Nat.lt_succ_diag_r _) s (le_n _)) as H.
  destruct (fst (decl (S (String.length s)) s)) as [root rest| | |]; cbn; try tauto; try discriminate.
  destruct (is_empty rest); [|discriminate].
  destruct root as [| | | |[|[] []]]; discriminate.
Qed.


Lemma unspace_app a b : unspace (a ++ b) = unspace a ++ unspace b.
Proof. induction a as [|c a IH]; cbn; [reflexivity|]. destruct (is_ws c); cbn; now rewrite IH. Qed.

Lemma unspace_skip_ws s : unspace (skip_ws s) = unspace s.
Proof. induction s as [|c s IH]; cbn; [reflexivity|]. destruct (is_ws c) eqn:E; cbn; [exact IH|now rewrite E]. Qed.

Lemma unspace_alnum a : all_chars is_alnum_ a = true -> unspace a = a.
Proof.
  induction a as [|c a IH]; cbn; intro H; [reflexivity|]. apply andb_prop in H as [Hc Ha].
  now rewrite (alnum_not_ws c Hc), IH.
Qed.

Lemma unspace_ident v : is_ident v = true -> unspace v = v.
Proof.
  intro H. destruct (is_ident_inv v H) as (c & r & -> & Hc & Hr). apply unspace_alnum.
  cbn. now rewrite (alpha_alnum c Hc), Hr.
Qed.

Lemma unspace_struct_name v : is_struct_name v = true -> unspace v = v.
Proof.
  intro H. apply is_struct_name_shape in H as [H|(a & b & -> & Ha & Hb)]; [now apply unspace_ident|].
  rewrite !unspace_app, (unspace_ident a Ha), (unspace_ident b Hb). reflexivity.
Qed.

Lemma atom_canon {m s n r} : fst (@atom ty m s) = Ok n r -> unspace s = unspace m ++ unspace r.
Proof.
  unfold atom. destruct (strip_prefix m (skip_ws s)) as [r'|] eqn:E; cbn [fst]; [|discriminate].
  intro H. inversion H; subst. apply strip_prefix_spec in E.
  rewrite <- unspace_skip_ws, E. apply unspace_app.
Qed.

Lemma token_canon cls (p : sparser) s n r : (forall v, cls v = true -> unspace v = v) ->
  token_of cls (skip_ws s) (p s) -> fst (p s) = Ok n r ->
  exists v, n = NTerm v /\ cls v = true /\ unspace s = v ++ unspace r.
Proof.
  intros Hu [_ T] E. rewrite E in T. destruct T as (v & -> & Hv & Ew). exists v. repeat split; [assumption|].
  now rewrite <- unspace_skip_ws, Ew, unspace_app, Hu.
Qed.

Lemma scalar_of_letter_spec l sc : scalar_of_letter l = Some sc -> l = scalar_letter sc.
Proof.
  unfold scalar_of_letter.
  repeat match goal with
         | |- context [String.eqb ?a ?b] => destruct (String.eqb_spec a b); [intro H; inversion H; subst; reflexivity|]
         end.
  discriminate.
Qed.

(* what the grammar with fuel f accepts: a type of the grammar, no deeper than f, whose printed signature is the
   accepted text without its white space *)
Definition sound (f : nat) (s : string) (n : snode) (r : string) : Prop :=
  forall t, extract_value n = Some t -> wf_ty t = true /\ ty_depth t <= f /\ unspace s = print t ++ unspace r.

Lemma basic_sound f s n r : fst (basic_type s) = Ok n r -> sound (S f) s (NList [n]) r.
Proof.
  intros H t Ht. unfold basic_type in H. apply por_inv in H as (p & m & Hin & Hp & ->).
  apply in_map_iff in Hin as (l & <- & Hl). rewrite (atom_canon Hp).
  unfold atom in Hp. destruct (strip_prefix l (skip_ws s)); cbn [fst] in Hp; [|discriminate].
  inversion Hp; subst. cbn in Ht. destruct (scalar_of_letter l) as [sc|] eqn:E; [|discriminate].
  inversion Ht; subst. apply scalar_of_letter_spec in E. subst l. split; [reflexivity|split; [cbn; lia|]].
  f_equal. destruct sc; reflexivity.
Qed.

Lemma members_sound (d : sparser) f : (forall s n r, fst (d s) = Ok n r -> sound f s n r) ->
  forall s xs r ts, many_ok d s xs r -> extract_types xs = Some ts ->
  forallb wf_ty ts = true /\ max_depth ts <= f /\ unspace s = members_str ts ++ unspace r.
Proof.
  intros Hd s xs r ts [k Hm]. revert ts. induction Hm as [s|s x s1 k xs r k' Hx _ Hm IH]; intros ts Hts.
  - inversion Hts; subst. repeat split. apply Nat.le_0_l.
  - cbn in Hts. destruct (extract_value x) as [t|] eqn:Ex; [|discriminate].
    destruct (extract_types xs) as [ts'|]; [|discriminate]. inversion Hts; subst.
    destruct (Hd _ _ _ (f_equal fst Hx) t Ex) as (Hw & Hdp & Hc). destruct (IH ts' eq_refl) as (Hws & Hdps & Hcs).
    split; [cbn; now rewrite Hw|split; [cbn [fold_right]; lia|]]. now rewrite members_str_cons, sapp_assoc, <- Hcs.
Qed.

Lemma names_sound s ms r names : many_ok member_p s ms r -> extract_names ms = Some names ->
  forallb is_ident names = true /\ unspace s = names_str names ++ unspace r.
Proof.
  intros [k Hm]. revert names. induction Hm as [s|s x s1 k xs r k' Hx _ Hm IH]; intros names Hn.
  - inversion Hn; subst. split; reflexivity.
  - apply (f_equal fst), pand_ok in Hx as (x1 & u1 & H1 & x2 & u2 & H2 & -> & ->).
    apply (token_canon _ _ _ _ _ unspace_ident (ident_spec _)) in H2 as (v & -> & Hv & Hc).
    cbn in Hn. destruct (extract_names xs) as [vs|]; [|discriminate]. inversion Hn; subst.
    destruct (IH vs eq_refl) as [Hvs Hrest]. split; [cbn; now rewrite Hv, Hvs|].
    rewrite names_str_cons, (atom_canon H1), Hc, Hrest. now autorewrite with sapp.
Qed.

Lemma decl_sound f : forall s n r, fst (decl f s) = Ok n r -> sound f s n r.
Proof.
  induction f as [|f IH]; intros s n r H; [discriminate|].
  rewrite decl_S in H. apply por_inv in H as (p & m & Hin & Hp & ->).
  cbn [In] in Hin. destruct Hin as [<-|[<-|[<-|[<-|[<-|[]]]]]]; [now apply basic_sound|..];
    intros t Ht.
  - apply pand_ok in Hp as (x1 & s1 & H1 & x2 & s2 & H2 & x3 & s3 & H3 & x4 & s4 & H4 & -> & ->).
    cbn in Ht.
    destruct (extract_value x2) as [a|] eqn:Ea; [|discriminate].
    destruct (extract_value x3) as [b|] eqn:Eb; [|discriminate]. inversion Ht; subst.
    destruct (IH _ _ _ H2 a Ea) as (Hwa & Hda & Hca). destruct (IH _ _ _ H3 b Eb) as (Hwb & Hdb & Hcb).
    split; [cbn; now rewrite Hwa|split; [cbn [ty_depth]; lia|]].
    rewrite (atom_canon H1), Hca, Hcb, (atom_canon H4). cbn. now autorewrite with sapp.
  - apply pand_ok in Hp as (x1 & s1 & H1 & x2 & s2 & H2 & x3 & s3 & H3 & -> & ->).
    cbn in Ht. destruct (extract_value x2) as [a|] eqn:Ea; [|discriminate]. inversion Ht; subst.
    destruct (IH _ _ _ H2 a Ea) as (Hwa & Hda & Hca). split; [exact Hwa|split; [cbn [ty_depth]; lia|]].
    rewrite (atom_canon H1), Hca, (atom_canon H3). cbn. now autorewrite with sapp.
  - apply pand_ok in Hp as (x1 & s1 & H1 & x2 & s2 & H2 & x3 & s3 & H3 & x4 & s4 & H4 &
                            x5 & s5 & H5 & x6 & s6 & H6 & x7 & s7 & H7 & -> & ->).
    apply kleene_chain in H2 as (xs & -> & Hxs).
    apply (token_canon _ _ _ _ _ unspace_struct_name (struct_name_spec _)) in H5 as (name & -> & Hname & Hc5).
    apply kleene_chain in H6 as (ms & -> & Hms).
    cbn in Ht.
    destruct (extract_types xs) as [ts|] eqn:Ets; [|discriminate].
    destruct (extract_names ms) as [names|] eqn:Ens; [|discriminate].
    destruct (Nat.eqb (List.length ts) (List.length names)) eqn:El; [|discriminate].
    apply Nat.eqb_eq in El. inversion Ht; subst.
    destruct (members_sound _ _ IH _ _ _ _ Hxs Ets) as (Hwts & Hdts & Hcts).
    destruct (names_sound _ _ _ _ Hms Ens) as [Hids Hc6].
    split; [cbn; now rewrite Hname, fields_wf, map_fst_combine, map_snd_combine, Hids, Hwts by easy|].
    split; [cbn [ty_depth]; rewrite fields_depth, map_snd_combine by lia; lia|].
    rewrite print_struct, map_fst_combine, map_snd_combine by lia.
    rewrite (atom_canon H1), Hcts, (atom_canon H3), (atom_canon H4), Hc5, Hc6, (atom_canon H7).
    cbn. now autorewrite with sapp.
  - apply pand_ok in Hp as (x1 & s1 & H1 & x2 & s2 & H2 & x3 & s3 & H3 & -> & ->).
    apply kleene_chain in H2 as (xs & -> & Hxs).
    cbn in Ht. destruct (extract_types xs) as [ts|] eqn:Ets; [|discriminate]. inversion Ht; subst.
    destruct (members_sound _ _ IH _ _ _ _ Hxs Ets) as (Hwts & Hdts & Hcts).
    split; [exact Hwts|split; [cbn [ty_depth]; lia|]].
    rewrite print_tuple, (atom_canon H1), Hcts, (atom_canon H3). cbn. now autorewrite with sapp.
Qed.

Lemma parse_ok s t : parse s = POk t -> fst (decl (S (String.length s)) s) = Ok (tnode t) "".
Proof.
  rewrite parse_eq. unfold parse_fuel.
  destruct (fst (decl _ s)) as [root rest| | |]; cbn; try discriminate.
  destruct rest; [|discriminate]. cbn.
  destruct root as [| | | |[|[|x| | |] []]]; try discriminate. intro H. now inversion H.
Qed.

Lemma parse_wf s t : parse s = POk t -> wf_ty t = true.
Proof. intro H. apply parse_ok in H. exact (proj1 (decl_sound _ _ _ _ H t eq_refl)). Qed.

(* an accepted input is the printed signature of its type with white space between tokens *)
Theorem parse_canonical : forall s t, parse s = POk t -> unspace s = print t.
Proof.
  intros s t H. apply parse_ok in H. rewrite (proj2 (proj2 (decl_sound _ _ _ _ H t eq_refl))). apply sapp_nil_r.
Qed.

Theorem parse_fixed_point : forall s t, parse s = POk t -> parse (print t) = POk t.
Proof. intros s t H. apply parse_print. now apply parse_wf in H. Qed.

Corollary print_inj t u : wf_ty t = true -> wf_ty u = true -> print t = print u -> t = u.
Proof.
  intros Ht Hu E. pose proof (parse_print t Ht) as H1. pose proof (parse_print u Hu) as H2.
  rewrite E in H1. rewrite H1 in H2. now inversion H2.
Qed.

Corollary parse_outcomes s : (exists t, parse s = POk t) \/ parse s = PErr.
Proof. pose proof (parse_total s). destruct (parse s); eauto. congruence. Qed.

Local Open Scope N_scope.

Lemma parse_steps_eq s : parse_steps s = snd (decl (S (String.length s)) s).
Proof. unfold parse_steps, parse_c. destruct (decl (S (String.length s)) s). reflexivity. Qed.

Fixpoint rep (c : ascii) (n : nat) : string := match n with O => ""%string | S n' => String c (rep c n') end.
Definition nest (n : nat) : string := (rep "(" n ++ rep ")" n)%string.
Fixpoint tn (n : nat) : ty := match n with O => TTuple [] | S n' => TTuple [tn n'] end.

Lemma rep_snoc c n : rep c (S n) = (rep c n ++ String c "")%string.
Proof. induction n as [|n IH]; [reflexivity|]. cbn [rep append] in *. f_equal. exact IH. Qed.

Lemma print_tn n : print (tn n) = nest (S n).
Proof.
  induction n as [|n IH]; [reflexivity|].
  cbn [tn print map String.concat]. rewrite IH. unfold nest.
  rewrite (rep_snoc ")" (S n)). cbn [rep append]. now rewrite !sapp_assoc.
Qed.

Lemma tn_wf n : wf_ty (tn n) = true.
Proof. induction n as [|n IH]; [reflexivity|]. cbn. now rewrite IH. Qed.

Lemma tn_depth n : ty_depth (tn n) = S n.
Proof. induction n as [|n IH]; [reflexivity|]. cbn [tn ty_depth fold_right]. rewrite IH. lia. Qed.

Lemma print_steps_tn n : print_steps (tn n) = 83 * (2 ^ N.of_nat (S n) - 1).
Proof.
  induction n as [|n IH]; [reflexivity|]. cbn [tn print_steps fold_right]. rewrite IH, (Nat2N.inj_succ (S n)), N.pow_succ_r'.
  assert (2 ^ N.of_nat (S n) <> 0) by (apply N.pow_nonzero; lia). lia.
Qed.

(* signature.Parse on n + 1 nested empty tuples: 83 parser invocations per node of a full binary
   tree with n + 1 levels *)
Theorem nest_steps n : parse_steps (nest (S n)) = 83 * (2 ^ N.of_nat (S n) - 1).
Proof.
  rewrite parse_steps_eq, <- print_tn, <- print_steps_tn. rewrite <- (sapp_nil_r (print (tn n))) at 2.
  rewrite (decl_runs (tn n) (tn_wf n)); [reflexivity| |reflexivity].
  pose proof (depth_le_len (tn n)). rewrite tn_depth in *. lia.
Qed.

(* the lower bound that C07 and C09 cite; nest 0 is the empty text, refused in 26 invocations *)
Theorem nest_steps_exponential : forall n, 2 ^ N.of_nat n <= parse_steps (nest n).
Proof.
  intros [|n]; [change (1 <= 26); lia|]. rewrite nest_steps, Nat2N.inj_succ, N.pow_succ_r'.
  assert (2 ^ N.of_nat n <> 0) by (apply N.pow_nonzero; lia). lia.
Qed.

Local Open Scope nat_scope.
Local Open Scope string_scope.

Lemma tuple_fields_snd {A} i (l : list A) : map snd (tuple_fields i l) = l.
Proof. revert i; induction l as [|x l IH]; intro i; cbn; [reflexivity|now rewrite IH]. Qed.

Lemma go_type_object : go_type (TS SObject) = go_type ty_ObjectReference.
Proof. vm_compute. reflexivity. Qed.

(* reading the kind tree back as a signature gives the signature of t with names dropped *)
Theorem go_type_consistent : forall t, shape_sig (go_type t) = print (anon t).
Proof.
  induction t as [s|t IHt|k v IHk IHv|ts IH|n fs IH] using ty_ind2.
  - destruct s; vm_compute; reflexivity.
  - cbn [go_type shape_sig anon anon_with print] in *. unfold anon in IHt. now rewrite IHt.
  - cbn [go_type shape_sig anon anon_with print] in *. unfold anon in IHk, IHv. now rewrite IHk, IHv.
  - cbn [go_type shape_sig anon anon_with print]. f_equal. f_equal.
    rewrite <- (map_map snd shape_sig), tuple_fields_snd, !map_map. f_equal.
    now apply map_ext_Forall.
  - cbn [go_type shape_sig anon anon_with print]. f_equal. f_equal.
    rewrite !map_map. cbn [snd]. f_equal. now apply map_ext_Forall.
Qed.

(* member names of the Go struct: the cleaned member names, P0, P1, ... for a tuple *)
Lemma go_type_fields_struct n fs : shape_fields (go_type (TStruct n fs)) = map (fun f => clean_name (fst f)) fs.
Proof. cbn. now rewrite map_map. Qed.
Lemma go_type_fields_tuple ts : shape_fields (go_type (TTuple ts)) = map fst (tuple_fields 0 ts).
Proof.
  cbn [go_type shape_fields]. generalize 0.
  induction ts as [|t ts IH]; intro i; cbn [map tuple_fields fst]; [reflexivity|]. now rewrite IH.
Qed.

(* Type() with the two reflect panics repaired is total *)
Lemma go_type_total cfg t : c_key_panic cfg = false -> c_dup_panic cfg = false -> go_type_result cfg t <> None.
Proof.
  intros H1 H2. induction t as [s|t IHt|k v IHk IHv|ts IH|n fs IH] using ty_ind2; cbn [go_type_result].
  - discriminate.
  - destruct (go_type_result cfg t); [discriminate|congruence].
  - destruct (go_type_result cfg k) as [ks|]; [|congruence]. rewrite H1.
    destruct (shape_comparable ks); [|discriminate].
    destruct (go_type_result cfg v); [discriminate|congruence].
  - assert (E : res_list (go_type_result cfg) ts <> None).
    { induction IH as [|t ts Ht HF IHl]; cbn [res_list]; [discriminate|].
      destruct (go_type_result cfg t); [|congruence]. destruct (res_list (go_type_result cfg) ts); [discriminate|congruence]. }
    destruct (res_list (go_type_result cfg) ts); [discriminate|congruence].
  - assert (E : res_fields (go_type_result cfg) fs <> None).
    { induction IH as [|f fs Hf HF IHl]; cbn [res_fields]; [discriminate|].
      destruct (go_type_result cfg (snd f)); [|congruence]. destruct (res_fields (go_type_result cfg) fs); [discriminate|congruence]. }
    destruct (res_fields (go_type_result cfg) fs); [|congruence]. rewrite H2.
    destruct (has_dup _); discriminate.
Qed.

Lemma forallb_map' {A B} (f : A -> B) (p : B -> bool) l : forallb p (map f l) = forallb (fun x => p (f x)) l.
Proof. induction l as [|x l IH]; cbn; [reflexivity|now rewrite IH]. Qed.

Lemma go_type_comparable t : shape_comparable (go_type t) = comparable t.
Proof.
  induction t as [s|t IHt|k v IHk IHv|ts IH|n fs IH] using ty_ind2.
  - destruct s; vm_compute; reflexivity.
  - reflexivity.
  - reflexivity.
  - cbn [go_type shape_comparable comparable]. rewrite <- (forallb_map' snd), tuple_fields_snd, forallb_map'.
    induction IH as [|t ts Ht HF IHl]; [reflexivity|]. cbn [forallb]. now rewrite Ht, IHl.
  - cbn [go_type shape_comparable comparable]. rewrite forallb_map'. cbn [snd].
    induction IH as [|f fs Hf HF IHl]; [reflexivity|]. cbn [forallb]. now rewrite Hf, IHl.
Qed.

Lemma combine_map_pair {A B C} (f : A -> B) (g : A -> C) (l : list A) :
  combine (map f l) (map g l) = map (fun x => (f x, g x)) l.
Proof. induction l as [|x l IH]; cbn; [reflexivity|now rewrite IH]. Qed.

(* on a type without an uncomparable key and without clashing member names Type() is the kind
   tree go_type t, whether the repairs are in or not *)
Lemma go_type_good cfg t : bad_key t = false -> dup_member t = false -> go_type_result cfg t = Some (go_type t).
Proof.
  induction t as [s|t IHt|k v IHk IHv|ts IH|n fs IH] using ty_ind2; intros Hb Hd; cbn [go_type_result go_type].
  - reflexivity.
  - cbn [bad_key dup_member] in *. now rewrite IHt.
  - cbn [bad_key dup_member] in *. apply orb_false_elim in Hb as [Hb Hbv]. apply orb_false_elim in Hb as [Hc Hbk].
    apply orb_false_elim in Hd as [Hdk Hdv]. apply negb_false_iff in Hc.
    rewrite IHk, IHv by assumption. rewrite go_type_comparable, Hc. now destruct (c_key_panic cfg).
  - cbn [bad_key dup_member] in *.
    assert (E : res_list (go_type_result cfg) ts = Some (map go_type ts)).
    { induction IH as [|t ts Ht HF IHl]; [reflexivity|]. cbn [existsb] in Hb, Hd.
      apply orb_false_elim in Hb as [Hb1 Hb2]. apply orb_false_elim in Hd as [Hd1 Hd2].
      cbn [res_list map]. now rewrite Ht, IHl. }
    now rewrite E.
  - cbn [bad_key dup_member] in *. apply orb_false_elim in Hd as [Hdup Hd].
    assert (E : res_fields (go_type_result cfg) fs = Some (map (fun f => go_type (snd f)) fs)).
    { clear Hdup. induction IH as [|f fs Hf HF IHl]; [reflexivity|]. cbn [existsb] in Hb, Hd.
      apply orb_false_elim in Hb as [Hb1 Hb2]. apply orb_false_elim in Hd as [Hd1 Hd2].
      cbn [res_fields map]. now rewrite Hf, IHl. }
    rewrite E, Hdup. now rewrite combine_map_pair.
Qed.
