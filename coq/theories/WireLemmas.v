(* WireLemmas.v — what the wire proofs share.  A decoder is [exact] on an encoding when it returns
   the value and leaves what follows: the leaves of Wire.v (take_n, read_num, read_str) on what
   the encoders write (the calculus over the combinators is PrefixLemmas.reads; of the exact
   lemmas over them bind_exact, take_n_exact and rep_nat_exact stand here).  The members'
   encodings of one container are [uniform] (all sized or all empty).  Typing: inversion of
   has_ty per value constructor, and induction over typed values (has_ty_ind); [plain] types have no "m", no "o".  Size facts: an encoding is at
   least as long as the minimal width of its type and as the nesting of its dynamic values; a
   type of width 0 has one value, written as nothing, which is why members are uniform.
   spec_dec and sig_read as their bodies under handlers (spec_dyn, sig_dyn). *)
From QV Require Import Wire.
Local Open Scope nat_scope.

Definition exact {A} (p : bytes -> res (A * bytes)) (x : A) (e : bytes) : Prop :=
  forall rest, p (e ++ rest) = ROk (x, rest).
Definition fails {A} (r : res A) : Prop := exists l, r = RErr l.

Lemma take_n_app_len : forall n (a rest : bytes),
  List.length a = n -> take_n n (a ++ rest) = ROk (a, rest).
Proof.
  intros n a rest Hn. subst n. unfold take_n.
  assert (Hlt : Nat.ltb (List.length (a ++ rest)) (List.length a) = false)
    by (apply Nat.ltb_ge; rewrite app_length; lia).
  rewrite Hlt, firstn_app_exact, skipn_app_exact. reflexivity.
Qed.

Lemma take_n_app : forall (a rest : bytes), take_n (List.length a) (a ++ rest) = ROk (a, rest).
Proof. intros a rest. now apply take_n_app_len. Qed.

Lemma take_n_exact : forall (a : bytes), exact (take_n (List.length a)) a a.
Proof. intros a rest. apply take_n_app. Qed.

Lemma read_num_le : forall w x rest,
  (x < 2 ^ (8 * N.of_nat w))%N -> read_num w (le w x ++ rest) = ROk (x, rest).
Proof.
  intros w x rest Hx. unfold read_num.
  rewrite (take_n_app_len w (le w x) rest (le_length w x)). cbn [bind].
  now rewrite unle_le_small.
Qed.

Lemma read_u32_enc : forall n rest,
  (n < 2 ^ 32)%N -> read_num 4 (enc_u32 n ++ rest) = ROk (n, rest).
Proof. intros n rest Hn. unfold enc_u32. apply read_num_le. exact Hn. Qed.

Lemma MaxStringSize_lt : (MaxStringSize < 2 ^ 32)%N.
Proof. reflexivity. Qed.

Lemma read_str_enc : forall s rest,
  (N.of_nat (List.length s) <= MaxStringSize)%N -> read_str (enc_str s ++ rest) = ROk (s, rest).
Proof.
  intros s rest Hs. unfold read_str, enc_str. rewrite <- app_assoc.
  pose proof MaxStringSize_lt as HM.
  rewrite read_u32_enc by lia. cbn [bind].
  destruct s as [|b s']; [reflexivity|].
  rewrite (proj2 (N.eqb_neq _ 0%N)) by (cbn [List.length]; lia).
  rewrite (proj2 (N.ltb_ge _ _) Hs). apply take_n_app_len. now rewrite Nat2N.id.
Qed.

Lemma enc_u32_length : forall n, List.length (enc_u32 n) = 4.
Proof. intro n. apply le_length. Qed.

Lemma enc_str_length : forall s, List.length (enc_str s) = 4 + List.length s.
Proof. intro s. unfold enc_str. now rewrite app_length, enc_u32_length. Qed.

Lemma bind_exact : forall {A B} (p : bytes -> res (A * bytes)) (g : A -> B) x e,
  exact p x e -> exact (fun bs => do '(a, r) <- p bs; ROk (g a, r)) (g x) e.
Proof. intros A B p g x e Hp rest. rewrite (Hp rest). reflexivity. Qed.

Lemma rep_nat_exact : forall {A} (enc : A -> bytes) p (l : list A),
  Forall (fun v => exact p v (enc v)) l -> exact (rep_nat p (List.length l)) l (flat_map enc l).
Proof.
  intros A enc p l HF. induction HF as [|v l' Hp HF' IH]; intro rest.
  - reflexivity.
  - cbn [rep_nat List.length flat_map].
    rewrite <- app_assoc, (Hp (flat_map enc l' ++ rest)), (IH rest). reflexivity.
Qed.

Lemma concat_len_ge (es : list bytes) :
  Forall (fun e => 1 <= List.length e) es -> List.length es <= List.length (concat es).
Proof.
  intro H. induction H as [|e es He Hes IH]; [cbn; lia|].
  cbn [concat List.length]. rewrite app_length. lia.
Qed.

(* the encodings of the members of one container: all of at least one byte (the count fits
   in the input, [rep] is the plain loop), or all empty (zero-width elements: lists of void,
   of empty tuples ...; [rep] may take either branch) *)
Definition uniform (es : list bytes) : Prop :=
  Forall (fun e => 1 <= List.length e) es \/ Forall (fun e => e = []) es.

Lemma flat_map_nil : forall {B} (enc : B -> bytes) (l : list B),
  Forall (fun e => e = []) (map enc l) -> flat_map enc l = [].
Proof. intros B enc l HF. rewrite flat_map_concat_map. now apply concat_nil_Forall. Qed.

Lemma fold_max_le_flat_map : forall {A} (f : A -> nat) (g : A -> bytes) (l : list A),
  Forall (fun x => f x <= List.length (g x)) l ->
  fold_right (fun x a => Nat.max (f x) a) 0 l <= List.length (flat_map g l).
Proof.
  intros A f g l HF. induction HF as [|x l' Hx _ IH]; cbn [fold_right flat_map]; [lia|].
  rewrite app_length. lia.
Qed.

Lemma has_ty_obj : forall v, has_ty v (TS SObject) = has_ty v ty_ObjectReference.
Proof. intro v. destruct v; reflexivity. Qed.

Lemma has_ty_expand1 : forall v t, has_ty v (expand1 t) = has_ty v t.
Proof.
  intros v t. destruct t as [s| | | |]; try reflexivity.
  destruct s; try reflexivity. cbn [expand1]. symmetry. apply has_ty_obj.
Qed.

Lemma expand1_cases : forall t, t = TS SObject \/ expand1 t = t.
Proof. intro t. destruct t as [[]| | | |]; auto. Qed.

Lemma has_ty_tuple_cons : forall x l t ts,
  has_ty (VTup (x :: l)) (TTuple (t :: ts)) = has_ty x t && has_ty (VTup l) (TTuple ts).
Proof. intros x l t ts. destruct l; reflexivity. Qed.

Lemma has_ty_struct_cons : forall x l n f fs,
  has_ty (VTup (x :: l)) (TStruct n (f :: fs)) = has_ty x (snd f) && has_ty (VTup l) (TStruct n fs).
Proof. intros x l n f fs. destruct l; reflexivity. Qed.

Lemma has_ty_tuple_iff : forall l ts,
  has_ty (VTup l) (TTuple ts) = true <-> Forall2 (fun x t => has_ty x t = true) l ts.
Proof.
  induction l as [|x l IH]; intros [|t ts]; split; intro H;
    try discriminate H; try solve [inversion H]; auto.
  - rewrite has_ty_tuple_cons in H. apply andb_true_iff in H as [Hx Hl].
    constructor; [exact Hx|]. now apply IH.
  - inversion H as [|x' t' l' ts' Hx Hl]; subst. rewrite has_ty_tuple_cons, Hx. cbn [andb]. now apply IH.
Qed.

Lemma has_ty_struct_iff : forall n l fs,
  has_ty (VTup l) (TStruct n fs) = true <-> Forall2 (fun x f => has_ty x (snd f) = true) l fs.
Proof.
  intro n. induction l as [|x l IH]; intros [|f fs]; split; intro H;
    try discriminate H; try solve [inversion H]; auto.
  - rewrite has_ty_struct_cons in H. apply andb_true_iff in H as [Hx Hl].
    constructor; [exact Hx|]. now apply IH.
  - inversion H as [|x' t' l' ts' Hx Hl]; subst. rewrite has_ty_struct_cons, Hx. cbn [andb]. now apply IH.
Qed.

Lemma has_ty_VNum : forall w b t, has_ty (VNum w b) t = true ->
  exists s, t = TS s /\ scalar_width s = Some w /\ (b < 2 ^ (8 * N.of_nat w))%N.
Proof.
  intros w b t H. destruct t as [s| | | |]; try discriminate H.
  destruct (expand1_cases (TS s)) as [[= ->]|E]; [discriminate H|].
  cbn [has_ty] in H. rewrite E in H. destruct (scalar_width s) as [w'|] eqn:Hw; [|discriminate H].
  apply andb_true_iff in H as [Hw' Hb]. apply Nat.eqb_eq in Hw' as <-. apply N.ltb_lt in Hb. eauto.
Qed.

Lemma has_ty_VBool : forall b t, has_ty (VBool b) t = true -> t = TS SBool.
Proof.
  intros b t H. destruct t as [s| | | |]; try discriminate H.
  destruct s; try discriminate H. reflexivity.
Qed.

Lemma has_ty_VStr : forall s t, has_ty (VStr s) t = true ->
  t = TS SStr /\ (N.of_nat (List.length s) <= MaxStringSize)%N.
Proof.
  intros s t H. destruct t as [s0| | | |]; try discriminate H.
  destruct s0; try discriminate H. cbn [has_ty expand1] in H.
  split; [reflexivity|]. apply N.leb_le. exact H.
Qed.

Lemma has_ty_VList : forall l t, has_ty (VList l) t = true ->
  exists t', t = TList t' /\ (N.of_nat (List.length l) < 2 ^ 31)%N /\ Forall (fun x => has_ty x t' = true) l.
Proof.
  intros l t H. destruct t as [s|t'| | |]; try discriminate H.
  - destruct s; discriminate H.
  - cbn [has_ty expand1] in H. apply andb_true_iff in H as [Hn Hl].
    exists t'. split; [reflexivity|]. split; [apply N.ltb_lt; exact Hn|].
    apply Forall_forall. intros x Hx. exact (proj1 (forallb_forall _ _) Hl x Hx).
Qed.

Lemma has_ty_VMap : forall kvs t, has_ty (VMap kvs) t = true ->
  exists tk tv, t = TMap tk tv /\ (N.of_nat (List.length kvs) < 2 ^ 31)%N /\
    Forall (fun kv => has_ty (fst kv) tk = true /\ has_ty (snd kv) tv = true) kvs.
Proof.
  intros kvs t H. destruct t as [s| |tk tv| |]; try discriminate H.
  - destruct s; discriminate H.
  - cbn [has_ty expand1] in H. apply andb_true_iff in H as [Hn Hl].
    exists tk, tv. split; [reflexivity|]. split; [apply N.ltb_lt; exact Hn|].
    apply Forall_forall. intros kv Hkv.
    pose proof (proj1 (forallb_forall _ _) Hl kv Hkv) as Hb. cbv beta in Hb.
    apply andb_true_iff in Hb. exact Hb.
Qed.

Lemma has_ty_VTup : forall l t, has_ty (VTup l) t = true ->
  (exists ts, t = TTuple ts /\ Forall2 (fun x t' => has_ty x t' = true) l ts) \/
  (exists n fs, t = TStruct n fs /\ Forall2 (fun x f => has_ty x (snd f) = true) l fs) \/
  (t = TS SVoid /\ l = []) \/
  (t = TS SObject /\ has_ty (VTup l) ty_ObjectReference = true).
Proof.
  intros l t H. destruct t as [s| | |ts|n fs].
  - destruct s; try (destruct l; discriminate H).
    + right; right; right. split; [reflexivity|]. rewrite <- has_ty_obj. exact H.
    + right; right; left. split; [reflexivity|]. destruct l as [|x l']; [reflexivity|discriminate H].
  - destruct l; discriminate H.
  - destruct l; discriminate H.
  - left. exists ts. split; [reflexivity|]. now apply has_ty_tuple_iff.
  - right; left. exists n, fs. split; [reflexivity|]. now apply (has_ty_struct_iff n).
Qed.

Lemma has_ty_VDyn_eq : forall t' v',
  has_ty (VDyn t' v') (TS SValue) =
  wf_ty t' && (N.of_nat (String.length (print t')) <=? MaxStringSize)%N && has_ty v' t'.
Proof. reflexivity. Qed.

Lemma has_ty_VDyn : forall t' v' t, has_ty (VDyn t' v') t = true ->
  t = TS SValue /\ wf_ty t' = true /\
  (N.of_nat (String.length (print t')) <= MaxStringSize)%N /\ has_ty v' t' = true.
Proof.
  intros t' v' t H. destruct t as [s| | | |]; try discriminate H.
  destruct s; try discriminate H. rewrite has_ty_VDyn_eq in H.
  apply andb_true_iff in H as [H Hv]. apply andb_true_iff in H as [Hg Hn].
  split; [reflexivity|]. split; [exact Hg|]. split; [apply N.leb_le; exact Hn|exact Hv].
Qed.

Lemma Forall2_members : forall {T} (proj : T -> ty) (Q : tval -> ty -> Prop) (l : list tval) (ts : list T),
  Forall (fun v => forall t, has_ty v t = true -> Q v t) l ->
  Forall2 (fun x t => has_ty x (proj t) = true) l ts ->
  Forall2 (fun x t => Q x (proj t)) l ts.
Proof.
  intros T proj Q l ts IH HF. induction HF as [|x t l' ts' Hx HF' IHF]; [constructor|].
  inversion IH; subst. constructor; auto.
Qed.

(* A relation between values and types holds of every typed value if it holds of the scalars and
   of every container built from members it holds of; what happens at "o" and "m" is what
   distinguishes the uses. *)
Theorem has_ty_ind : forall Q : tval -> ty -> Prop,
  (forall s w b, scalar_width s = Some w -> (b < 2 ^ (8 * N.of_nat w))%N -> Q (VNum w b) (TS s)) ->
  (forall b, Q (VBool b) (TS SBool)) ->
  (forall s, (N.of_nat (List.length s) <= MaxStringSize)%N -> Q (VStr s) (TS SStr)) ->
  Q (VTup []) (TS SVoid) ->
  (forall t' l, (N.of_nat (List.length l) < 2 ^ 31)%N ->
    Forall (fun x => has_ty x t' = true /\ Q x t') l -> Q (VList l) (TList t')) ->
  (forall tk tv kvs, (N.of_nat (List.length kvs) < 2 ^ 31)%N ->
    Forall (fun kv => (has_ty (fst kv) tk = true /\ has_ty (snd kv) tv = true) /\
                      Q (fst kv) tk /\ Q (snd kv) tv) kvs -> Q (VMap kvs) (TMap tk tv)) ->
  (forall ts l, Forall2 Q l ts -> Q (VTup l) (TTuple ts)) ->
  (forall n fs l, Forall2 (fun x f => Q x (snd f)) l fs -> Q (VTup l) (TStruct n fs)) ->
  (forall v, Q v ty_ObjectReference -> Q v (TS SObject)) ->
  (forall t' v', has_ty (VDyn t' v') (TS SValue) = true -> Q v' t' -> Q (VDyn t' v') (TS SValue)) ->
  forall v t, has_ty v t = true -> Q v t.
Proof.
  intros Q Hnum Hbool Hstr Hvoid Hlist Hmap Htup Hstruct Hobj Hdyn.
  induction v as [w b|b|s|l IH|kvs IH|l IH|t' v IH] using tval_ind2; intros t Hty.
  - apply has_ty_VNum in Hty as (s & -> & Hw & Hb). now apply Hnum.
  - apply has_ty_VBool in Hty as ->. apply Hbool.
  - apply has_ty_VStr in Hty as [-> Hs]. now apply Hstr.
  - apply has_ty_VList in Hty as (t' & -> & Hn & HF). apply Hlist; [exact Hn|].
    rewrite Forall_forall in *. auto.
  - apply has_ty_VMap in Hty as (tk & tv & -> & Hn & HF). apply Hmap; [exact Hn|].
    rewrite Forall_forall in *. intros kv Hin. destruct (IH kv Hin), (HF kv Hin). auto.
  - apply has_ty_VTup in Hty as [(ts & -> & HF)|[(n & fs & -> & HF)|[[-> ->]|[-> Ho]]]].
    + apply Htup. exact (Forall2_members (fun t => t) Q l ts IH HF).
    + apply Hstruct. exact (Forall2_members (@snd string ty) Q l fs IH HF).
    + exact Hvoid.
    + apply Hobj, Hstruct. apply (has_ty_struct_iff "ObjectReference") in Ho.
      exact (Forall2_members (@snd string ty) Q l _ IH Ho).
  - pose proof Hty as Hty'. apply has_ty_VDyn in Hty' as (-> & _ & _ & Hv). auto.
Qed.

Lemma good_ty_wf : forall t, good_ty t = true -> wf_ty t = true.
Proof. intros t H. unfold good_ty in H. now apply andb_true_iff in H as [H _]. Qed.
Lemma good_ty_wfz : forall t, good_ty t = true -> wfz t = true.
Proof. intros t H. unfold good_ty in H. now apply andb_true_iff in H as [_ H]. Qed.

Lemma length_bytes_of_string : forall s, List.length (bytes_of_string s) = String.length s.
Proof.
  intro s. unfold bytes_of_string, list_byte_of_string. rewrite map_length.
  induction s as [|a s' IH]; [reflexivity|]. cbn [list_ascii_of_string List.length String.length]. now rewrite IH.
Qed.
Lemma string_of_bytes_of_string : forall s, string_of_bytes (bytes_of_string s) = s.
Proof. intro s. unfold string_of_bytes, bytes_of_string. apply string_of_list_byte_of_string. Qed.

Fixpoint plain (t : ty) : bool :=
  match t with
  | TS SValue | TS SObject => false
  | TS _ => true
  | TList t' => plain t'
  | TMap k v => plain k && plain v
  | TTuple ts => forallb plain ts
  | TStruct _ fs => forallb (fun f => plain (snd f)) fs
  end.

Lemma plain_ObjectReference : plain ty_ObjectReference = true.
Proof. reflexivity. Qed.
Lemma wfz_ObjectReference : wfz ty_ObjectReference = true.
Proof. reflexivity. Qed.
Lemma good_ObjectReference : good_ty ty_ObjectReference = true.
Proof. vm_compute. reflexivity. Qed.

Lemma min_width_expand1 : forall t, min_width (expand1 t) = min_width t.
Proof. intro t. destruct t as [[]| | | |]; reflexivity. Qed.

Lemma plain_expand1 : forall t, plain t = true -> expand1 t = t.
Proof. intros t H. destruct t as [[]| | | |]; try reflexivity. cbn in H; discriminate. Qed.

Lemma dyn_depth_le_len_any : forall v, dyn_depth v <= List.length (spec_enc v).
Proof.
  induction v as [w b|b|s|l IH|kvs IH|l IH|t v IH] using tval_ind2;
    cbn [dyn_depth spec_enc]; rewrite ?app_length, ?enc_str_length; try lia.
  - pose proof (fold_max_le_flat_map dyn_depth spec_enc l IH). lia.
  - enough (fold_right (fun kv a => Nat.max (Nat.max (dyn_depth (fst kv)) (dyn_depth (snd kv))) a) 0 kvs
            <= List.length (flat_map (fun kv => spec_enc (fst kv) ++ spec_enc (snd kv)) kvs)) by lia.
    apply (fold_max_le_flat_map (fun kv => Nat.max (dyn_depth (fst kv)) (dyn_depth (snd kv)))).
    eapply Forall_impl; [|exact IH]. intros kv [Hk Hv]. rewrite app_length. lia.
  - exact (fold_max_le_flat_map dyn_depth spec_enc l IH).
Qed.

Lemma scalar_width_min : forall s w, scalar_width s = Some w -> min_width (TS s) = w /\ 1 <= w.
Proof. intros s w H. destruct s; try discriminate H; injection H as <-; split; (reflexivity || apply Nat.lt_0_succ). Qed.

Lemma min_width_le_len : forall v t, has_ty v t = true -> min_width t <= List.length (spec_enc v).
Proof.
  apply has_ty_ind.
  - intros s w b Hw _. cbn [spec_enc]. rewrite le_length. now destruct (scalar_width_min s w Hw) as [-> _].
  - intros b. cbn. lia.
  - intros s _. cbn [min_width spec_enc]. rewrite enc_str_length. lia.
  - cbn. lia.
  - intros t' l _ _. cbn [min_width spec_enc]. rewrite app_length, enc_u32_length. lia.
  - intros tk tv kvs _ _. cbn [min_width spec_enc]. rewrite app_length, enc_u32_length. lia.
  - intros ts l HF. cbn [min_width spec_enc].
    induction HF as [|x t l' ts' Hx _ IH]; cbn [fold_right flat_map]; [lia|rewrite app_length; lia].
  - intros n fs l HF. cbn [min_width spec_enc].
    induction HF as [|x t l' ts' Hx _ IH]; cbn [fold_right flat_map]; [lia|rewrite app_length; lia].
  - intros v H. exact H.
  - intros t' v' _ _. cbn [min_width spec_enc]. rewrite app_length, enc_str_length. lia.
Qed.

(* a type of minimal width 0 that has a value at all is made of void and of tuples / structs
   of such types; it has exactly one value, the zero value of the type, written as nothing *)
Lemma zero_width : forall v t, has_ty v t = true -> min_width t = 0 -> v = zero_val t /\ spec_enc v = [].
Proof.
  apply (has_ty_ind (fun v t => min_width t = 0 -> v = zero_val t /\ spec_enc v = []));
    try (intros; discriminate).
  - intros s w b Hw _ Hz. destruct (scalar_width_min s w Hw). lia.
  - now split.
  - intros ts l HF Hz. cbn [min_width] in Hz. cbn [zero_val spec_enc].
    enough (l = map zero_val ts /\ flat_map spec_enc l = []) as [-> ->] by now split.
    induction HF as [|x t l' ts' Hx _ IH]; [now split|]. cbn [fold_right] in Hz.
    destruct Hx as [-> Hx]; [lia|]. destruct IH as [-> IH]; [lia|]. cbn [map flat_map]. now rewrite Hx, IH.
  - intros n fs l HF Hz. cbn [min_width] in Hz. cbn [zero_val spec_enc].
    enough (l = map (fun f => zero_val (snd f)) fs /\ flat_map spec_enc l = []) as [-> ->] by now split.
    induction HF as [|x t l' ts' Hx _ IH]; [now split|]. cbn [fold_right] in Hz.
    destruct Hx as [-> Hx]; [lia|]. destruct IH as [-> IH]; [lia|]. cbn [map flat_map]. now rewrite Hx, IH.
Qed.

Lemma uniform_elems : forall t' (l : list tval),
  Forall (fun x => has_ty x t' = true) l -> uniform (map spec_enc l).
Proof.
  intros t' l HF. destruct (Nat.eq_dec (min_width t') 0) as [Hz|Hnz].
  - right. apply Forall_map.
    eapply Forall_impl; [|exact HF]. intros x Hx. now apply (zero_width x t').
  - left. apply Forall_map.
    eapply Forall_impl; [|exact HF]. intros x Hx. cbv beta in *.
    pose proof (min_width_le_len x t' Hx) as Hm. lia.
Qed.

Lemma uniform_entries : forall tk tv (kvs : list (tval * tval)),
  Forall (fun kv => has_ty (fst kv) tk = true /\ has_ty (snd kv) tv = true) kvs ->
  uniform (map (fun kv => spec_enc (fst kv) ++ spec_enc (snd kv)) kvs).
Proof.
  intros tk tv kvs HF. destruct (Nat.eq_dec (min_width tk + min_width tv) 0) as [Hz|Hnz].
  - right. apply Forall_map.
    eapply Forall_impl; [|exact HF]. intros kv [Hk Hv]. cbv beta.
    destruct (zero_width _ tk Hk) as [_ ->]; [lia|]. destruct (zero_width _ tv Hv) as [_ ->]; [lia|]. reflexivity.
  - left. apply Forall_map.
    eapply Forall_impl; [|exact HF]. intros kv [Hk Hv]. cbv beta in *.
    pose proof (min_width_le_len _ tk Hk) as Hm1. pose proof (min_width_le_len _ tv Hv) as Hm2.
    rewrite app_length. lia.
Qed.

Lemma dyn_depth_in : forall x (l : list tval),
  In x l -> dyn_depth x <= fold_right (fun y a => Nat.max (dyn_depth y) a) 0 l.
Proof. intros x l. apply fold_max_in. Qed.

Lemma dyn_depth_in_map : forall kv (kvs : list (tval * tval)),
  In kv kvs ->
  Nat.max (dyn_depth (fst kv)) (dyn_depth (snd kv)) <=
  fold_right (fun y a => Nat.max (Nat.max (dyn_depth (fst y)) (dyn_depth (snd y))) a) 0 kvs.
Proof. intros kv kvs. apply (fold_max_in (fun kv => Nat.max (dyn_depth (fst kv)) (dyn_depth (snd kv)))). Qed.

Lemma lt31_lt32 : forall n : N, (n < 2 ^ 31 -> n < 2 ^ 32)%N.
Proof.
  intros n Hn. change (2 ^ 31)%N with 2147483648%N in Hn. change (2 ^ 32)%N with 4294967296%N. lia.
Qed.

(* the "m" handlers of the two fuelled decoders, so that each is its body under handlers *)
Section Handlers.
  Variable parse : string -> option ty.
  Variable c : wcfg.

  Definition spec_dyn (fuel : nat) : bytes -> res (tval * bytes) :=
    match fuel with
    | O => out_of_fuel
    | S f => fun bs =>
        do '(sg, r) <- read_str bs;
        match parse (string_of_bytes sg) with
        | None => RErr r
        | Some t' => do '(v, r') <- spec_dec parse f t' r; ROk (VDyn t' v, r')
        end
    end.

  Lemma spec_dec_unfold : forall fuel, spec_dec parse fuel = spec_body (spec_dyn fuel) (spec_obj).
  Proof. intro fuel. destruct fuel; reflexivity. Qed.

  Definition sig_dyn (fuel : nat) : bytes -> res (bytes * bytes) :=
    match fuel with
    | O => out_of_fuel
    | S f => fun bs =>
        do '(sg, r) <- read_str bs;
        match parse (string_of_bytes sg) with
        | None => RErr r
        | Some t' =>
            do '(d, r') <- sig_read parse c f t' r;
            ROk ((if value_reader_no_len c then sg else enc_str sg) ++ d, r')
        end
    end.

  Lemma sig_read_unfold : forall fuel, sig_read parse c fuel = sig_body c (sig_dyn fuel) (sig_obj c).
  Proof. intro fuel. destruct fuel; reflexivity. Qed.
End Handlers.
