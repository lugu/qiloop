(* PrefixLemmas.v — what a decoder does on a valid encoding and on its proper prefixes: one
   notion, [reads], kept by sequencing (a header, then what the header announces), by
   post-processing and by the loops seq_with / pair_with / rep.  The round trips (C02, C03) and
   "truncation is never accepted" (C08) are its two halves. *)
From QV Require Import Wire WireLemmas.
Local Open Scope nat_scope.

Lemma firstn_cut {X} k (a b : list X) :
  (k < List.length a /\ firstn k (a ++ b) = firstn k a) \/
  (List.length a <= k /\ firstn k (a ++ b) = a ++ firstn (k - List.length a) b).
Proof.
  rewrite firstn_app. destruct (Nat.lt_ge_cases k (List.length a)) as [H|H]; [left|right]; (split; [exact H|]).
  - replace (k - List.length a) with 0 by lia. apply app_nil_r.
  - rewrite firstn_all2 by exact H. reflexivity.
Qed.

Lemma fails_err {A} (l : bytes) : fails (@RErr A l).
Proof. exists l. reflexivity. Qed.

Lemma fails_bind {A C} (r : res A) (f : A -> res C) : fails r -> fails (bind r f).
Proof. intros [l Hl]. rewrite Hl. apply fails_err. Qed.

Lemma take_n_fail n bs : List.length bs < n -> take_n n bs = RErr [].
Proof.
  intro Hlen. unfold take_n. rewrite (proj2 (Nat.ltb_lt _ _) Hlen). reflexivity.
Qed.

(* the same statement as WireLemmas.read_str_enc *)
Lemma read_str_ok s r :
  (N.of_nat (List.length s) <= MaxStringSize)%N -> read_str (enc_str s ++ r) = ROk (s, r).
Proof. exact (read_str_enc s r). Qed.

Lemma rep_nat_seq {A} (p : bytes -> res (A * bytes)) n bs : rep_nat p n bs = seq_with (repeat p n) bs.
Proof.
  revert bs. induction n as [|n IH]; intro bs; [reflexivity|].
  cbn [rep_nat repeat seq_with]. destruct (p bs) as [[x r]|l| |]; try reflexivity.
  rewrite IH. reflexivity.
Qed.

Lemma rep_slow_S {A} (p : bytes -> res (A * bytes)) f n bs acc :
  n <> 0%N ->
  rep_slow p (S f) n bs acc =
    match p bs with
    | ROk (d, bs') =>
        if Nat.ltb (List.length bs') (List.length bs) then rep_slow p f (n - 1) bs' (d :: acc)
        else ROk (rev acc ++ repeat d (N.to_nat n), bs')
    | RErr l => RErr l
    | RPanic => RPanic
    | RFuel => RFuel
    end.
Proof. intro Hn. cbn [rep_slow]. rewrite (proj2 (N.eqb_neq _ _) Hn). reflexivity. Qed.

(* the value, if P *)
Definition given {A} (P : Prop) (x y : A) : Prop := P -> x = y.

(* every proper prefix of e (shorter than B) is refused *)
Definition strict {A} (B : nat) (p : bytes -> res (A * bytes)) (e : bytes) : Prop :=
  forall k, k < List.length e -> k < B -> fails (p (firstn k e)).

Section Reads.
  Variable R : Prop.

  (* [reads R B p X e]: on e followed by anything p returns some x with X x and leaves exactly
     what follows; and, if R holds, p refuses every proper prefix of e.
     X = eq v is exactness.  A switch that changes the value returned and not the bytes consumed
     (value_reader_no_len, equal map keys) weakens X to [given P v].  A switch that lets a
     failed read pass (string_reader_drops_err, refl_struct_ignores_err) changes what is refused
     and nothing on a valid encoding: its absence is R, which the first half never needs.
     B bounds the length of the input p is run on: both halves speak of inputs shorter than B
     only.  The fuelled decoders are stated for every B, because NewValue runs them with the
     length of its input as fuel (WireProofs.spec_reads_at). *)
  Definition reads {A} (B : nat) (p : bytes -> res (A * bytes)) (X : A -> Prop) (e : bytes) : Prop :=
    (forall rest, List.length (e ++ rest) < B -> exists x, p (e ++ rest) = ROk (x, rest) /\ X x) /\
    (R -> strict B p e).

  Lemma reads_ret {A} B (X : A -> Prop) (x : A) : X x -> reads B (fun bs => ROk (x, bs)) X [].
  Proof. intro HX. split; [intros rest _; exists x; now split|intros _ k Hk; inversion Hk]. Qed.

  Section One.
    Context {A : Type}.
    Implicit Types (p : bytes -> res (A * bytes)) (X : A -> Prop).

    Lemma reads_le B B' p X e : B' <= B -> reads B p X e -> reads B' p X e.
    Proof. intros HB [He Hs]. split; [intros rest H; apply He|intros HR k Hk H; apply (Hs HR)]; lia. Qed.

    Lemma reads_ext B p q X e : (forall bs, p bs = q bs) -> reads B q X e -> reads B p X e.
    Proof.
      intros Heq [He Hs]. split; [intros rest H|intros HR k Hk H]; rewrite Heq; [exact (He rest H)|exact (Hs HR k Hk H)].
    Qed.

    Lemma reads_0 p X e : reads 0 p X e.
    Proof. split; [intros rest H|intros _ k _ H]; inversion H. Qed.

    Lemma reads_post B p X (Y : A -> Prop) e : reads B p X e -> (forall x, X x -> Y x) -> reads B p Y e.
    Proof.
      intros [He Hs] HXY. split; [|exact Hs]. intros rest H. destruct (He rest H) as (x & Hx & HX). eauto.
    Qed.

    (* sequencing: p on e1, then, with the value p returned, f on e2.  A cut inside e1 is
       refused by p; a cut after it leaves p the whole of e1 and f a proper prefix of e2.
       What follows e1 is shorter than the input by the length of e1. *)
    Lemma reads_bind {C} B p X (f : A -> bytes -> res (C * bytes)) (Y : C -> Prop) e1 e2 :
      reads B p X e1 -> (forall x, X x -> reads (B - List.length e1) (f x) Y e2) ->
      reads B (fun bs => do '(a, r) <- p bs; f a r) Y (e1 ++ e2).
    Proof.
      intros [He Hs] Hf. split.
      - intros rest Hlen. rewrite <- app_assoc in Hlen |- *. destruct (He _ Hlen) as (x & -> & HX).
        apply (Hf x HX). rewrite app_length in Hlen. lia.
      - intros HR k Hk HB. rewrite app_length in Hk. destruct (firstn_cut k e1 e2) as [[Hlt ->]|[Hge ->]].
        + apply fails_bind. exact (Hs HR k Hlt HB).
        + destruct (He (firstn (k - List.length e1) e2)) as (x & -> & HX).
          { rewrite app_length, firstn_length. lia. }
          apply (Hf x HX); [exact HR|lia..].
    Qed.

    Lemma reads_map {C} B p X (g : A -> C) (Y : C -> Prop) e :
      reads B p X e -> (forall x, X x -> Y (g x)) -> reads B (fun bs => do '(a, r) <- p bs; ROk (g a, r)) Y e.
    Proof.
      intros H HXY. rewrite <- (app_nil_r e). apply (reads_bind B p X (fun a bs => ROk (g a, bs)) Y e [] H).
      intros x HX. apply reads_ret, HXY, HX.
    Qed.

    Lemma reads_val {C} B p (g : A -> C) x e :
      reads B p (eq x) e -> reads B (fun bs => do '(a, r) <- p bs; ROk (g a, r)) (eq (g x)) e.
    Proof. intro H. apply (reads_map B p (eq x)); [exact H|]. now intros _ <-. Qed.
  End One.

  Lemma take_n_reads B w e : List.length e = w -> reads B (take_n w) (eq e) e.
  Proof.
    intros <-. split.
    - intros rest _. exists e. split; [apply take_n_app|reflexivity].
    - intros _ k Hk _. rewrite take_n_fail; [apply fails_err|]. rewrite firstn_length. lia.
  Qed.

  Lemma read_num_reads B w x : (x < 2 ^ (8 * N.of_nat w))%N -> reads B (read_num w) (eq x) (le w x).
  Proof.
    intro Hx. apply (reads_map B (take_n w) (eq (le w x)) unle); [apply take_n_reads, le_length|].
    intros _ <-. symmetry. exact (unle_le_small w x Hx).
  Qed.

  Lemma reads_u32 {C} B n (K : N -> bytes -> res (C * bytes)) Y e :
    (n < 2 ^ 32)%N -> reads (B - 4) (K n) Y e ->
    reads B (fun bs => do '(m, r) <- read_num 4 bs; K m r) Y (enc_u32 n ++ e).
  Proof.
    intros Hn HK. apply (reads_bind B (read_num 4) (eq n)); [exact (read_num_reads B 4 n Hn)|].
    intros _ <-. unfold enc_u32. rewrite le_length. exact HK.
  Qed.

  Lemma read_str_reads B s :
    (N.of_nat (List.length s) <= MaxStringSize)%N -> reads B read_str (eq s) (enc_str s).
  Proof.
    intro Hs. apply reads_u32; [apply (N.le_lt_trans _ _ _ Hs); reflexivity|].
    destruct s as [|b s']; [now apply reads_ret|].
    rewrite (proj2 (N.eqb_neq _ 0%N)) by (cbn [List.length]; lia).
    rewrite (proj2 (N.ltb_ge _ _) Hs), Nat2N.id. apply take_n_reads. reflexivity.
  Qed.

  Lemma reads_str {C} B s (K : bytes -> bytes -> res (C * bytes)) Y e :
    (N.of_nat (List.length s) <= MaxStringSize)%N -> reads (B - 4) (K s) Y e ->
    reads B (fun bs => do '(x, r) <- read_str bs; K x r) Y (enc_str s ++ e).
  Proof.
    intros Hs HK. apply (reads_bind B read_str (eq s)); [exact (read_str_reads B s Hs)|].
    intros _ <-. apply (reads_le (B - 4)); [rewrite enc_str_length; lia|exact HK].
  Qed.

  (* the members of a container: v is written enc v, and read as some x with X v x *)
  Section Loops.
    Context {A V : Type} (X : V -> A -> Prop) (enc : V -> bytes).
    Implicit Types p : bytes -> res (A * bytes).

    Lemma seq_with_reads B (ps : list (bytes -> res (A * bytes))) l :
      Forall2 (fun p v => reads B p (X v) (enc v)) ps l -> reads B (seq_with ps) (Forall2 X l) (flat_map enc l).
    Proof.
      induction 1 as [|p v ps l Hp _ IH]; [now apply reads_ret|]. cbn [flat_map].
      apply (reads_bind B p (X v) (fun x bs => do '(xs, r) <- seq_with ps bs; ROk (x :: xs, r))); [exact Hp|].
      intros x Hx. apply (reads_map _ _ (Forall2 X l)); [apply (reads_le B); [lia|exact IH]|]. now constructor.
    Qed.

    Lemma rep_nat_reads B p l :
      Forall (fun v => reads B p (X v) (enc v)) l -> reads B (rep_nat p (List.length l)) (Forall2 X l) (flat_map enc l).
    Proof.
      intro Hl. apply (reads_ext B _ _ _ _ (rep_nat_seq p _)), seq_with_reads.
      induction Hl; constructor; assumption.
    Qed.

    (* the bounded loop on a cut input: every element before the cut makes progress, so the
       loop goes on until it reaches the element that is cut *)
    Lemma rep_slow_cut B p l : R ->
      Forall (fun v => reads B p (X v) (enc v)) l -> Forall (fun v => 1 <= List.length (enc v)) l ->
      forall k fuel acc, k < List.length (flat_map enc l) -> k < B -> k < fuel ->
        fails (rep_slow p fuel (N.of_nat (List.length l)) (firstn k (flat_map enc l)) acc).
    Proof.
      intros HR Hl Hsz. induction Hl as [|v l [Heat Hstr] Hl IH]; intros k fuel acc Hk HB Hfuel.
      - inversion Hk.
      - inversion Hsz as [|v' l' Hne Hsz']; subst. destruct fuel as [|f]; [lia|].
        rewrite rep_slow_S by (cbn [List.length]; lia).
        cbn [flat_map] in Hk |- *. rewrite app_length in Hk.
        destruct (firstn_cut k (enc v) (flat_map enc l)) as [[Hlt ->]|[Hge ->]].
        + destruct (Hstr HR k Hlt HB) as [l0 ->]. apply fails_err.
        + destruct (Heat (firstn (k - List.length (enc v)) (flat_map enc l))) as (x & -> & _).
          { rewrite app_length, firstn_length. lia. }
          rewrite (proj2 (Nat.ltb_lt _ _)) by (rewrite app_length; lia).
          replace (N.of_nat (List.length (v :: l)) - 1)%N with (N.of_nat (List.length l))
            by (cbn [List.length]; lia).
          apply IH; [exact Hsz'|lia..].
    Qed.

    (* members all of at least one byte: the count fits in an uncut input, and the plain loop
       runs; on a cut input either loop.  Zero-width members: the encoding is empty and has
       no proper prefix; with the count beyond the input the bounded loop stops at the first
       element, which consumed nothing, and answers as many copies of what it returned: p
       would have returned the same for every member. *)
    Lemma rep_reads B p l :
      Forall (fun v => reads B p (X v) (enc v)) l -> uniform (map enc l) ->
      reads B (rep p (N.of_nat (List.length l))) (Forall2 X l) (flat_map enc l).
    Proof.
      intros Hl Hu. destruct (rep_nat_reads B p l Hl) as [Hne Hns]. split.
      - intros rest Hlen. unfold rep.
        destruct (N.ltb_spec (N.of_nat (List.length (flat_map enc l ++ rest))) (N.of_nat (List.length l))) as [Hlt|_];
          [|rewrite Nat2N.id; exact (Hne rest Hlen)].
        destruct Hu as [Hsz|Hnil].
        + pose proof (concat_len_ge _ Hsz) as Hge.
          rewrite map_length, <- flat_map_concat_map in Hge. rewrite app_length in Hlt. lia.
        + rewrite (flat_map_nil enc l Hnil) in Hlen |- *. cbn [app] in *.
          destruct l as [|v l']; [exists []; now split|].
          rewrite rep_slow_S by (cbn [List.length]; lia).
          assert (Hall : forall u, In u (v :: l') -> exists x, p rest = ROk (x, rest) /\ X u x).
          { intros u Hu. rewrite Forall_forall in Hl, Hnil. destruct (Hl u Hu) as [Hu1 _].
            rewrite (Hnil (enc u) (in_map enc _ u Hu)) in Hu1. exact (Hu1 rest Hlen). }
          destruct (Hall v (or_introl eq_refl)) as (d & Hd & _). rewrite Hd.
          rewrite (proj2 (Nat.ltb_ge _ _) (le_n _)), Nat2N.id. eexists. split; [reflexivity|].
          cbn [rev app]. generalize (v :: l') Hall. clear - Hd. intros l Hall.
          induction l as [|u l IH]; [constructor|]. cbn [List.length repeat]. constructor.
          * destruct (Hall u (or_introl eq_refl)) as (x & Hx & HX). rewrite Hd in Hx. now injection Hx as <-.
          * apply IH. intros w Hw. apply Hall. now right.
      - intros HR k Hk HB. unfold rep.
        destruct (N.ltb _ _); [|rewrite Nat2N.id; exact (Hns HR k Hk HB)].
        destruct Hu as [Hsz|Hnil]; [|rewrite (flat_map_nil enc l Hnil) in Hk; inversion Hk].
        apply (rep_slow_cut B p l HR Hl (proj1 (Forall_map _ _ _) Hsz) k _ [] Hk HB). rewrite firstn_length. lia.
    Qed.
  End Loops.

  Lemma pair_with_reads {A C} B (p : bytes -> res (A * bytes)) (q : bytes -> res (C * bytes)) X Y ek ev :
    reads B p X ek -> reads B q Y ev -> reads B (pair_with p q) (fun kv => X (fst kv) /\ Y (snd kv)) (ek ++ ev).
  Proof.
    intros Hk Hv. apply (reads_bind B p X (fun k b => do '(v, r) <- q b; ROk ((k, v), r))); [exact Hk|].
    intros k HX. apply (reads_map _ _ Y); [apply (reads_le B); [lia|exact Hv]|]. now split.
  Qed.

  Lemma reads_exact {A} (p : bytes -> res (A * bytes)) x e : (forall B, reads B p (eq x) e) -> exact p x e.
  Proof. intros H rest. destruct (proj1 (H _) rest (le_n _)) as (y & -> & <-). reflexivity. Qed.

  Lemma reads_given {A} (p : bytes -> res (A * bytes)) (P : Prop) x e :
    (forall B, reads B p (given P x) e) -> P -> exact p x e.
  Proof. intros H HP rest. destruct (proj1 (H _) rest (le_n _)) as (y & -> & Hy). now rewrite (Hy HP). Qed.

  Lemma reads_strict {A} (p : bytes -> res (A * bytes)) X e k :
    R -> reads (S k) p X e -> k < List.length e -> fails (p (firstn k e)).
  Proof. intros HR [_ Hs] Hk. exact (Hs HR k Hk (le_n _)). Qed.

  Lemma read_num_bytes B w e : List.length e = w -> reads B (read_num w) (eq (unle e)) e.
  Proof. intro He. exact (reads_val B _ unle _ _ (take_n_reads B w e He)). Qed.

  Lemma reads_if {A} B (p : bytes -> res (A * bytes)) x (P : Prop) e :
    reads B p (eq x) e -> reads B p (given P x) e.
  Proof. intro H. apply (reads_post B p (eq x)); [exact H|]. now intros y <- _. Qed.

  Lemma pair_with_val {A C} B (p : bytes -> res (A * bytes)) (q : bytes -> res (C * bytes)) kv ek ev :
    reads B p (eq (fst kv)) ek -> reads B q (eq (snd kv)) ev -> reads B (pair_with p q) (eq kv) (ek ++ ev).
  Proof.
    intros Hk Hv. apply (reads_post B _ _ _ _ (pair_with_reads B p q _ _ ek ev Hk Hv)).
    destruct kv as [k v]. intros [k' v'] [Hk' Hv']. cbn [fst snd] in *. now subst.
  Qed.

  (* a decoder that takes its fuel from the length of its input *)
  Lemma reads_by_length {A} (D : nat -> bytes -> res (A * bytes)) X e :
    (forall fuel B, B <= fuel -> reads B (D fuel) X e) ->
    forall B, reads B (fun bs => D (S (List.length bs)) bs) X e.
  Proof.
    intros H B. split.
    - intros rest _. exact (proj1 (H _ _ (le_n _)) rest (le_n _)).
    - intros HR k Hk _. rewrite firstn_length_le by lia. exact (proj2 (H _ _ (le_n _)) HR k Hk (le_n _)).
  Qed.
End Reads.
Arguments reads R {A} B p X e.
Arguments reads_ret {R A B X x}.
Arguments reads_le {R A B B' p X e}.
Arguments reads_ext {R A B p q X e}.
Arguments reads_0 {R A p X e}.
Arguments reads_post {R A B p X Y e}.
Arguments reads_bind {R A C B p X f Y e1 e2}.
Arguments reads_map {R A C B p} X {g Y e}.
Arguments reads_val {R A C B p g x e}.
Arguments take_n_reads {R B w e}.
Arguments read_num_reads {R B w x}.
Arguments read_num_bytes {R B w e}.
Arguments reads_u32 {R C B n K Y e}.
Arguments read_str_reads {R B s}.
Arguments reads_str {R C B s K Y e}.
Arguments seq_with_reads {R A V X enc B ps l}.
Arguments rep_nat_reads {R A V X enc B p l}.
Arguments rep_reads {R A V X enc B p l}.
Arguments pair_with_reads {R A C B p q X Y ek ev}.
Arguments pair_with_val {R A C B p q kv ek ev}.
Arguments reads_if {R A B p x P e}.
Arguments reads_exact {R A p x e}.
Arguments reads_given {R A p P x e}.
Arguments reads_strict {R A p X e k}.
Arguments reads_by_length {R A} D {X e}.

(* members read back as they are, or under a condition on the member *)
Lemma Forall2_given {V A} (P : V -> Prop) (f : V -> A) l ys :
  Forall2 (fun v => given (P v) (f v)) l ys -> Forall P l -> map f l = ys.
Proof.
  induction 1 as [|v y l ys Hv _ IH]; intro HP; [reflexivity|]. inversion HP; subst.
  cbn [map]. now rewrite Hv, IH.
Qed.

Lemma Forall2_given_id {A} (P : A -> Prop) (l ys : list A) :
  Forall2 (fun v => given (P v) v) l ys -> Forall P l -> l = ys.
Proof. intros HF HP. rewrite <- (map_id l). exact (Forall2_given P (fun v => v) l ys HF HP). Qed.

Lemma Forall2_eq_eq {A} (l ys : list A) : Forall2 eq l ys -> l = ys.
Proof. induction 1; now subst. Qed.

Lemma concat_given {V} (P : Prop) (enc : V -> bytes) l ds :
  Forall2 (fun v => given P (enc v)) l ds -> given P (flat_map enc l) (concat ds).
Proof.
  intros HF HP. rewrite flat_map_concat_map. f_equal.
  apply (Forall2_given (fun _ => P)); [exact HF|]. apply Forall_forall. auto.
Qed.
