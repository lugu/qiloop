(* LinProofs.v — the checker of Lin.v is sound and complete for the declarative definition,
   linearizability transfers along a simulation between two specs, and every history of an
   object with atomic operations is linearizable. *)
From Coq Require Import List NArith Bool Permutation Lia.
From QV Require Export ListFacts.
From QV Require Import Lin.
Import ListNotations.
Local Open Scope N_scope.

(* any and all are existsb and forallb, evaluated left to right *)
Lemma any_exists : forall A (f : A -> bool) l, any f l = true <-> exists x, In x l /\ f x = true.
Proof.
  intros A f l. rewrite <- existsb_exists.
  induction l as [|a l IH]; simpl; [tauto|]. destruct (f a); [tauto | exact IH].
Qed.

Lemma all_forall : forall A (f : A -> bool) l, all f l = true <-> forall x, In x l -> f x = true.
Proof.
  intros A f l. rewrite <- forallb_forall.
  induction l as [|a l IH]; simpl; [tauto|]. destruct (f a); [exact IH | tauto].
Qed.

Definition keys_nodup {V} (m : list (N * V)) : Prop := NoDup (map fst m).

Lemma picks_perm : forall A (l : list A) x r, In (x, r) (picks l) -> Permutation l (x :: r).
Proof.
  intros A l; induction l as [|a l IH]; simpl; intros x r H.
  - destruct H.
  - destruct H as [H|H].
    + inversion H; subst; apply Permutation_refl.
    + apply in_map_iff in H. destruct H as [[y r'] [Heq Hin]]. simpl in Heq. inversion Heq; subst.
      apply IH in Hin. eapply perm_trans; [apply perm_skip; exact Hin | apply perm_swap].
Qed.

Lemma picks_mid : forall A (l1 l2 : list A) x, In (x, l1 ++ l2) (picks (l1 ++ x :: l2)).
Proof.
  intros A l1; induction l1 as [|a l1 IH]; simpl; intros l2 x.
  - left; reflexivity.
  - right. apply in_map_iff. exists (x, l1 ++ l2). split; [reflexivity | apply IH].
Qed.

Lemma picks_complete : forall A (l : list A) x r',
  Permutation l (x :: r') -> exists r, In (x, r) (picks l) /\ Permutation r r'.
Proof.
  intros A l x r' HP.
  assert (Hin : In x l) by (eapply Permutation_in; [apply Permutation_sym; exact HP | left; reflexivity]).
  apply in_split in Hin. destruct Hin as [l1 [l2 ->]].
  exists (l1 ++ l2). split; [apply picks_mid|].
  apply Permutation_sym in HP. apply Permutation_cons_app_inv in HP. apply Permutation_sym; exact HP.
Qed.

Section LinProofs.
  Variables St Op Res : Type.
  Variable step : St -> Op -> St * Res.
  Variable res_eqb : Res -> Res -> bool.
  Notation orec := (orec Op Res).
  Notation lin_search := (lin_search step res_eqb).
  Notation legal := (legal step).

  Lemma all_pending : forall rem : list orec, all pending rem = true <-> Forall (fun x => o_ret x = None) rem.
  Proof.
    intros rem. rewrite all_forall, Forall_forall. unfold pending.
    split; intros H x Hx; specialize (H x Hx); destruct (o_ret x); congruence.
  Qed.

  Lemma precedes_pending : forall a b : orec, o_ret a = None -> precedes a b = false.
  Proof. intros a b H; unfold precedes; rewrite H; reflexivity. Qed.

  Lemma lin_search_sound :
    (forall a b, res_eqb a b = true -> a = b) ->
    forall f s rem, lin_search f s rem = true -> linearizable step s rem.
  Proof.
    intros Heq f; induction f as [|f IH]; intros s rem H; simpl in H; destruct (all pending rem) eqn:Hp.
    (* only pending calls are left: the empty sequence will do *)
    1, 3: exists [], rem; (split; [reflexivity|]); (split; [apply all_pending, Hp|]); split; constructor.
    1: discriminate.
    apply any_exists in H. destruct H as [[x r] [Hin Hb]]. simpl in Hb.
    destruct (all (fun y => negb (precedes y x)) r) eqn:Hmin; [|discriminate].
    destruct (ok_result res_eqb x (snd (step s (o_op x)))) eqn:Hok; [|discriminate].
    apply IH in Hb. destruct Hb as [lin [rest [HP [Hrest [Hleg Hrt]]]]].
    exists (x :: lin), rest. split; [|split; [exact Hrest|split]].
    - simpl. eapply perm_trans; [apply picks_perm; exact Hin | apply perm_skip; exact HP].
    - simpl. split; [|exact Hleg].
      unfold ok_result in Hok. destruct (o_ret x) as [[u r0]|]; auto.
    - constructor; [|exact Hrt].
      apply Forall_forall. intros b Hb. apply negb_true_iff. rewrite all_forall in Hmin. apply Hmin.
      eapply Permutation_in; [apply Permutation_sym; exact HP | apply in_or_app; left; exact Hb].
  Qed.

  Lemma lin_search_complete :
    (forall a, res_eqb a a = true) ->
    forall lin s rem rest f,
      Permutation rem (lin ++ rest) -> Forall (fun x : orec => o_ret x = None) rest ->
      legal s lin -> rt_ok lin -> (List.length lin <= f)%nat -> lin_search f s rem = true.
  Proof.
    intros Hrefl lin; induction lin as [|x l IH]; intros s rem rest f HP Hrest Hleg Hrt Hf.
    - apply (Permutation_Forall (Permutation_sym HP)), all_pending in Hrest.
      destruct f; simpl; rewrite Hrest; reflexivity.
    - destruct f as [|f]; [simpl in Hf; lia|]. simpl.
      destruct (all pending rem) eqn:Hp; [reflexivity|].
      apply any_exists.
      simpl in HP. destruct (picks_complete _ _ _ _ HP) as [r [Hin Hr]].
      exists (x, r). split; [exact Hin|]. simpl.
      inversion Hrt as [|? ? Hhd Htl]; subst.
      assert (Hmin : all (fun y => negb (precedes y x)) r = true).
      { apply all_forall. intros y Hy. apply negb_true_iff.
        apply (Permutation_in _ Hr), in_app_or in Hy. destruct Hy as [Hy|Hy].
        - rewrite Forall_forall in Hhd. apply Hhd; exact Hy.
        - apply precedes_pending. rewrite Forall_forall in Hrest. apply Hrest; exact Hy. }
      rewrite Hmin. simpl in Hleg. destruct Hleg as [Hres Hleg].
      assert (Hok : ok_result res_eqb x (snd (step s (o_op x))) = true).
      { unfold ok_result. destruct (o_ret x) as [[u r0]|]; auto. rewrite Hres. apply Hrefl. }
      rewrite Hok. eapply IH; eauto. simpl in Hf; lia.
  Qed.

  Theorem lin_check_sound :
    (forall a b, res_eqb a b = true -> a = b) ->
    forall init h, lin_check step res_eqb init h = true -> linearizable step init h.
  Proof. intros Heq init h. exact (lin_search_sound Heq _ init h). Qed.

  Theorem lin_check_complete :
    (forall a, res_eqb a a = true) ->
    forall init h, linearizable step init h -> lin_check step res_eqb init h = true.
  Proof.
    intros Hrefl init h [lin [rest [HP [Hrest [Hleg Hrt]]]]]. unfold lin_check.
    eapply lin_search_complete; eauto.
    apply Permutation_length in HP. rewrite HP, app_length. lia.
  Qed.

  Theorem lin_check_iff :
    (forall a b, res_eqb a b = true <-> a = b) ->
    forall init h, lin_check step res_eqb init h = true <-> linearizable step init h.
  Proof.
    intros Heq init h; split.
    - apply lin_check_sound. intros a b; apply Heq.
    - apply lin_check_complete. intros a; apply Heq; reflexivity.
  Qed.

  Notation tmap := (tmap Op Res).
  Notation tstate := (tstate Op Res).

  Definition unlin (m : tmap) (h : list (tevent Op Res)) : list orec :=
    flat_map (fun p => match snd p with
                       | TPend o i => [Build_orec (fst p) o i (first_ret (fst p) h)]
                       | TDone _ _ _ => []
                       end) m.

  Lemma tget_tdel : forall t t' (m : tmap), tget t' (tdel t m) = if t =? t' then None else tget t' m.
  Proof. exact (aget_adel N.eqb_spec). Qed.

  Lemma tget_tset : forall t t' v (m : tmap), tget t' (tset t v m) = if t =? t' then Some v else tget t' m.
  Proof. exact (aget_aset N.eqb_spec). Qed.

  Lemma unlin_skip : forall (m : tmap) e h t,
    (match snd e with EInv t' _ => t' | ERet t' _ => t' end) = t ->
    (forall k o i, In (k, TPend o i) m -> k <> t) ->
    unlin m (e :: h) = unlin m h.
  Proof.
    intros m e h t He; induction m as [|[k v] m IH]; simpl; intros Hm; [reflexivity|].
    rewrite IH by (intros k' o i Hin; eapply Hm; right; exact Hin).
    destruct v as [o i|o i r]; simpl; [|reflexivity].
    assert (Hk : k <> t) by (eapply Hm; left; reflexivity).
    destruct e as [u [t' o'|t' r']]; simpl in *; subst t';
      (destruct (N.eqb_spec t k); [congruence | reflexivity]).
  Qed.

  Lemma stamped_lt : forall A (tr : list (N * A)) lb u x, stamped lb tr -> In (u, x) tr -> lb < u.
  Proof.
    intros A tr; induction tr as [|[u' x'] tr IH]; simpl; intros lb u x Hs Hin; [destruct Hin|].
    destruct Hs as [Hlt Hs]. destruct Hin as [Hin|Hin].
    - inversion Hin; subst; exact Hlt.
    - apply IH with (lb := u') in Hin; auto. lia.
  Qed.

  Lemma stamped_weaken : forall A (tr : list (N * A)) lb lb', lb <= lb' -> stamped lb' tr -> stamped lb tr.
  Proof. intros A [|[u x] r] lb lb' Hle H; [exact I|]. split; [exact (N.le_lt_trans _ _ _ Hle (proj1 H))|apply H]. Qed.

  Lemma erase_app : forall a b : list (N * alabel Op Res), erase (a ++ b) = erase a ++ erase b.
  Proof. induction a as [|[u [t o|t|t r]] a IH]; intros b; simpl; auto; now rewrite IH. Qed.

  Lemma first_ret_in : forall (tr : list (N * alabel Op Res)) t u r,
    first_ret t (erase tr) = Some (u, r) -> In (u, LRet t r) tr.
  Proof.
    intros tr; induction tr as [|[u' [t' o|t'|t' r']] tr IH]; simpl; intros t u r H; [discriminate| | |].
    - destruct (t' =? t); [discriminate | right; auto].
    - right; auto.
    - destruct (N.eqb_spec t' t) as [->|]; [inversion H; left; reflexivity | right; auto].
  Qed.

  Lemma arun_cons : forall st e tr st'', arun step st (e :: tr) st'' ->
    exists st', astep step st e st' /\ arun step st' tr st''.
  Proof. intros st e tr st'' H. inversion H; subst. eauto. Qed.

  Lemma arun_one : forall a b x, astep step a x b -> arun step a [x] b.
  Proof. intros a b x H. econstructor; [exact H|constructor]. Qed.

  Lemma arun_app : forall a b c t1 t2, arun step a t1 b -> arun step b t2 c -> arun step a (t1 ++ t2) c.
  Proof. intros a b c t1 t2 H1 H2. induction H1; simpl; auto. econstructor; eauto. Qed.

  Lemma astep_by_label : forall s (m : tmap) u l st', astep step (s, m) (u, l) st' ->
    match l with
    | LInv t o => tget t m = None /\ st' = (s, tset t (TPend o u) m)
    | LLin t => exists o i, tget t m = Some (TPend o i) /\
                            st' = (fst (step s o), tset t (TDone o i (snd (step s o))) m)
    | LRet t r => exists o i, tget t m = Some (TDone o i r) /\ st' = (s, tdel t m)
    end.
  Proof. intros s m u l st' H. inversion H; subst; eauto. Qed.

  Lemma run_first_ret : forall tr s (m : tmap) st' t o i r u r0,
    arun step (s, m) tr st' -> tget t m = Some (TDone o i r) ->
    first_ret t (erase tr) = Some (u, r0) -> r0 = r.
  Proof.
    intros tr; induction tr as [|[u' l] tr IH]; intros s m st' t o i r u r0 Hrun Hg Hf; [discriminate|].
    apply arun_cons in Hrun. destruct Hrun as [st1 [Hstep Hrun]]. apply astep_by_label in Hstep.
    destruct l as [t0 o0|t0|t0 r1]; simpl in Hf.
    - destruct Hstep as [Hn ->]. destruct (N.eqb_spec t0 t) as [->|Hne]; [discriminate|].
      eapply IH; [exact Hrun | rewrite tget_tset, (proj2 (N.eqb_neq _ _) Hne); eauto | exact Hf].
    - destruct Hstep as (o0 & i0 & Hp & ->). assert (Hne : t0 <> t) by (intros ->; congruence).
      eapply IH; [exact Hrun | rewrite tget_tset, (proj2 (N.eqb_neq _ _) Hne); eauto | exact Hf].
    - destruct Hstep as (o0 & i0 & Hd & ->). destruct (N.eqb_spec t0 t) as [->|Hne].
      + rewrite Hg in Hd. inversion Hd; subst. inversion Hf; reflexivity.
      + eapply IH; [exact Hrun | rewrite tget_tdel, (proj2 (N.eqb_neq _ _) Hne); eauto | exact Hf].
  Qed.

  Definition ret_after (lb : N) (x : orec) : Prop := forall u r, o_ret x = Some (u, r) -> lb < u.

  Lemma ret_after_weaken : forall lb lb' l, lb <= lb' -> Forall (ret_after lb') l -> Forall (ret_after lb) l.
  Proof.
    intros lb lb' l Hle H. eapply Forall_impl; [|exact H]. intros x Hx u r Hr. specialize (Hx u r Hr). lia.
  Qed.

  (* The thread map m holds the calls in flight; [unlin m h] are those among them that have not
     taken effect yet, with what the rest h of the history returns to them.  The calls are
     linearized in the order of their atomic steps.  A call that takes effect at stamp u was
     invoked before u, and everything linearized after it returns after u, so none of those
     precedes it. *)
  Lemma atomic_lin_gen : forall tr s (m : tmap) st' lb,
    arun step (s, m) tr st' -> stamped lb tr -> keys_nodup m ->
    (forall t o i, tget t m = Some (TPend o i) -> i <= lb) ->
    exists lin rest,
      Permutation (unlin m (erase tr) ++ ops_of (erase tr)) (lin ++ rest) /\
      Forall (fun x : orec => o_ret x = None) rest /\
      legal s lin /\ rt_ok lin /\ Forall (ret_after lb) lin.
  Proof.
    intros tr; induction tr as [|[u l] tr IH]; intros s m st' lb Hrun Hst Hnd Hinv.
    - exists [], (unlin m []). simpl. rewrite app_nil_r. repeat split; auto; try constructor.
      unfold unlin. apply Forall_forall. intros x Hx. apply in_flat_map in Hx.
      destruct Hx as [[k v] [_ Hx]]. destruct v; simpl in Hx; [|destruct Hx].
      destruct Hx as [<-|[]]. reflexivity.
    - apply arun_cons in Hrun. destruct Hrun as [st1 [Hstep Hrun]]. apply astep_by_label in Hstep.
      destruct Hst as [Hlt Hst]. assert (Hle : lb <= u) by lia.
      assert (Hinv' : forall t o i, tget t m = Some (TPend o i) -> i <= u)
        by (intros t o i H; exact (N.le_trans _ _ _ (Hinv _ _ _ H) Hle)).
      destruct l as [t o|t|t r]; simpl erase; simpl ops_of.
      + destruct Hstep as [Hn ->]. apply (aget_none N.eqb_spec) in Hn.
        destruct (IH _ _ _ u Hrun Hst) as [lin [rest [HP [Hrest [Hleg [Hrt Hret]]]]]].
        { apply (aset_nodup N.eqb_spec); exact Hnd. }
        { intros t' o' i'. rewrite tget_tset. destruct (t =? t'); [intros [= _ <-]; apply N.le_refl | apply Hinv']. }
        exists lin, rest. split; [|repeat split; auto; exact (ret_after_weaken _ _ _ Hle Hret)].
        rewrite (unlin_skip m (u, EInv t o) (erase tr) t) by
          (auto; intros k o' i Hin ->; apply Hn, (in_map fst _ _ Hin)).
        unfold tset in HP. simpl in HP. rewrite (adel_absent N.eqb_spec _ _ Hn : tdel t m = m) in HP.
        eapply perm_trans; [|exact HP]. apply Permutation_sym. apply Permutation_middle.
      + destruct Hstep as (o & i & Hp & ->).
        pose proof (Hinv _ _ _ Hp) as Hi.
        destruct (IH _ _ _ u Hrun Hst) as [lin [rest [HP [Hrest [Hleg [Hrt Hret]]]]]].
        { apply (aset_nodup N.eqb_spec); exact Hnd. }
        { intros t' o' i'. rewrite tget_tset. destruct (t =? t'); [discriminate | apply Hinv']. }
        set (x := Build_orec t o i (first_ret t (erase tr))).
        exists (x :: lin), rest. split; [|split; [exact Hrest|split; [|split]]].
        * unfold tset in HP. simpl in HP.
          eapply perm_trans; [apply Permutation_app_tail, Permutation_flat_map, (adel_perm N.eqb_spec _ _ _ Hnd Hp)|].
          apply perm_skip. exact HP.
        * simpl. split; [|exact Hleg].
          destruct (first_ret t (erase tr)) as [[u' r0]|] eqn:Hf; [|exact I].
          symmetry. eapply run_first_ret; [exact Hrun | | exact Hf].
          unfold tset. simpl. rewrite N.eqb_refl. reflexivity.
        * constructor; [|exact Hrt]. eapply Forall_impl; [|exact Hret]. intros b Hb. unfold precedes.
          destruct (o_ret b) as [[ub rb]|] eqn:E; [|reflexivity].
          apply N.ltb_ge. specialize (Hb _ _ E). simpl. lia.
        * constructor; [|exact (ret_after_weaken _ _ _ Hle Hret)].
          intros u' r' Hf. apply first_ret_in in Hf. pose proof (stamped_lt _ _ _ _ _ Hst Hf). lia.
      + destruct Hstep as (o & i & Hd & ->).
        destruct (IH _ _ _ u Hrun Hst) as [lin [rest [HP [Hrest [Hleg [Hrt Hret]]]]]].
        { apply adel_nodup; exact Hnd. }
        { intros t' o' i'. rewrite tget_tdel. destruct (t =? t'); [discriminate | apply Hinv']. }
        exists lin, rest. split; [|repeat split; auto; exact (ret_after_weaken _ _ _ Hle Hret)].
        rewrite (unlin_skip m (u, ERet t r) (erase tr) t); auto.
        * eapply perm_trans; [apply Permutation_app_tail, Permutation_flat_map, (adel_perm N.eqb_spec _ _ _ Hnd Hd) | exact HP].
        * intros k o' i' Hin ->. pose proof (in_aget N.eqb_spec _ _ _ Hnd Hin : tget t m = _). congruence.
  Qed.

  (* Every history of an object whose operations take effect in a single atomic step
     between their invocation and their response is linearizable. *)
  Theorem atomic_lin : forall init tr st',
    stamped 0 tr -> arun step (init, []) tr st' -> linearizable step init (ops_of (erase tr)).
  Proof.
    intros init tr st' Hst Hrun.
    destruct (atomic_lin_gen tr init [] st' 0 Hrun Hst) as [lin [rest [HP [Hrest [Hleg [Hrt _]]]]]];
      [constructor | discriminate |].
    exists lin, rest. repeat split; assumption.
  Qed.
End LinProofs.
Arguments arun_one {St Op Res step} a b x _.
Arguments arun_app {St Op Res step} a b c t1 t2 _ _.
Arguments erase_app {Op Res} a b.

Lemma legal_sim : forall St1 St2 Op Res (step1 : St1 -> Op -> St1 * Res) (step2 : St2 -> Op -> St2 * Res)
    (R : St1 -> St2 -> Prop),
  (forall s1 s2 o, R s1 s2 -> R (fst (step1 s1 o)) (fst (step2 s2 o)) /\ snd (step1 s1 o) = snd (step2 s2 o)) ->
  forall lin s1 s2, R s1 s2 -> legal step1 s1 lin -> legal step2 s2 lin.
Proof.
  intros St1 St2 Op Res step1 step2 R Hsim lin; induction lin as [|x l IH]; intros s1 s2 HR H; simpl in *; [exact I|].
  destruct (Hsim s1 s2 (o_op x) HR) as [HR' Hres]. destruct H as [H1 H2]. split.
  - rewrite <- Hres. exact H1.
  - eapply IH; eauto.
Qed.

Theorem lin_refine : forall St1 St2 Op Res (step1 : St1 -> Op -> St1 * Res) (step2 : St2 -> Op -> St2 * Res)
    (R : St1 -> St2 -> Prop) i1 i2,
  R i1 i2 ->
  (forall s1 s2 o, R s1 s2 -> R (fst (step1 s1 o)) (fst (step2 s2 o)) /\ snd (step1 s1 o) = snd (step2 s2 o)) ->
  forall h, linearizable step1 i1 h -> linearizable step2 i2 h.
Proof.
  intros St1 St2 Op Res step1 step2 R i1 i2 HR Hsim h [lin [rest [HP [Hrest [Hleg Hrt]]]]].
  exists lin, rest. repeat split; auto. eapply legal_sim; eauto.
Qed.
