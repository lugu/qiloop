(* SigParseMerged.v — the repaired signature grammar (decl_m / parse_m of SigParse.v,
   design/C07.grammar.fix.diff) against the pinned one (decl / parse).  The two grammars give the same result
   (node, rest, or failure, NoFuel and Hang included) on every input and for every fuel, so the theorems of
   SigParseProofs.v carry over; and the number of parser invocations of parse_m is at most linear in the length of
   the input, by a potential of 30 invocations per character (the pinned grammar: at least 2^n on n nested
   parentheses). *)
From QV Require Import PegProofs SigParse SigParseProofs.
Import ListNotations.
Local Open Scope string_scope.

(* the two alternatives of the pinned grammar share the children "(" list ")": where these do not answer Ok all
   three Ands end alike; behind them the struct alternative is the optional part, and the tuple alternative what is
   left when that part fails *)
Lemma merged_alt (d : sparser) pre s :
  fst (por None (pre ++ [struct_type d; tuple_type d]) s) = fst (por None (pre ++ [tuple_or_struct_type d]) s).
Proof.
  induction pre as [|p pre IH]; cbn [app]; [|now rewrite !por_fst_cons, IH].
  rewrite !por_fst_cons, !por_nil. unfold struct_type, tuple_type, tuple_or_struct_type, struct_def.
  set (com := [atom "("; list_type d; atom ")"]). set (def := [atom "<"; struct_name; member_list; atom ">"]).
  rewrite !pand_fst, (and_loop_app com def), (and_loop_app com [maybe None (pand None def)]).
  destruct (fst (and_loop com s)) as [ns r| | |] eqn:E; try reflexivity.
  apply (and_loop_ok _ _ _ _ (fun ns' _ => ns' = ns)) in E; [|reflexivity].
  unfold com in E. cbn [and_inv] in E. destruct E as (a & ? & _ & l & ? & _ & b & ? & _ & <-).
  rewrite and_loop_fst_cons, maybe_fst, pand_fst. now destruct (fst (and_loop def r)).
Qed.

Lemma decl_m_S f s : decl_m (S f) s =
  por None [basic_type; map_type (decl_m f); array_type (decl_m f); tuple_or_struct_type (decl_m f)] s.
Proof. reflexivity. Qed.

(* one level of the repaired grammar over the parser d of the level below *)
Definition level_m (d : sparser) : sparser := por None [basic_type; map_type d; array_type d; tuple_or_struct_type d].

Lemma level_m_upto X (d d' : sparser) : upto X d d' -> upto X (level_m d) (level_m d').
Proof.
  intro H. apply por_upto. repeat apply Forall2_cons; try apply Forall2_nil; try apply upto_refl;
    apply pand_upto; repeat apply Forall2_cons; try apply Forall2_nil; try apply upto_refl; try exact H.
  apply kleene_upto, H.
Qed.

(* the model's own outcomes NoFuel / Hang coincide as well: the same fuel is enough for both grammars *)
Theorem decl_m_decl : forall f, feq (decl_m f) (decl f).
Proof.
  induction f as [|f IH]; intro s; [reflexivity|].
  change (decl_m (S f) s) with (level_m (decl_m f) s).
  rewrite (level_m_upto True (decl f) (decl_m f) (fun s _ => IH s) s (fun _ => I)), decl_S.
  symmetry. exact (merged_alt (decl f) [basic_type; map_type (decl f); array_type (decl f)] s).
Qed.

Lemma parse_m_eq s : parse_m s = parse_fuel_m (S (String.length s)) s.
Proof. unfold parse_m, parse_c_m, parse_fuel_m. destruct (decl_m (S (String.length s)) s). reflexivity. Qed.

Theorem parse_fuel_m_parse_fuel : forall f s, parse_fuel_m f s = parse_fuel f s.
Proof. intros f s. unfold parse_fuel_m, parse_fuel. now rewrite (decl_m_decl f s). Qed.

Theorem parse_m_parse : forall s, parse_m s = parse s.
Proof. intro s. rewrite parse_m_eq, parse_eq. apply parse_fuel_m_parse_fuel. Qed.

Corollary parse_g_parse : forall b s, parse_g b s = parse s.
Proof. intros [|] s; [apply parse_m_parse|reflexivity]. Qed.

Theorem parse_m_print : forall t, wf_ty t = true -> parse_m (print t) = POk t.
Proof. intros t H. rewrite parse_m_parse. now apply parse_print. Qed.

Theorem parse_m_total : forall s, parse_m s <> PFuel.
Proof. intro s. rewrite parse_m_parse. apply parse_total. Qed.

Theorem parse_m_wf : forall s t, parse_m s = POk t -> wf_ty t = true.
Proof. intros s t. rewrite parse_m_parse. apply parse_wf. Qed.

Theorem parse_m_fixed_point : forall s t, parse_m s = POk t -> parse_m (print t) = POk t.
Proof. intros s t. rewrite !parse_m_parse. apply parse_fixed_point. Qed.

Theorem parse_m_canonical : forall s t, parse_m s = POk t -> unspace s = print t.
Proof. intros s t. rewrite parse_m_parse. apply parse_canonical. Qed.

Corollary parse_m_outcomes s : (exists t, parse_m s = POk t) \/ parse_m s = PErr.
Proof. rewrite parse_m_parse. apply parse_outcomes. Qed.

Local Open Scope N_scope.

(* length of a string as a binary number *)
Definition L (s : string) : N := N.of_nat (String.length s).

Lemma goodS_len (p : sparser) s n r : goodS p (String.length s) -> fst (p s) = Ok n r -> L r < L s.
Proof. intros G H. specialize (G s (le_n _)). rewrite H in G. unfold L. lia. Qed.

Lemma head_len s c r : skip_ws s = String c r -> L r < L s.
Proof. intro E. apply length_opens in E. unfold L. lia. Qed.

Lemma ident_snd s : snd (ident s) = 1.
Proof. apply ident_spec. Qed.

Lemma ident_ok_len s n r : fst (ident s) = Ok n r -> L r < L s.
Proof. apply goodS_len, token1_goodS. Qed.

Lemma struct_name_snd s : snd (struct_name s) = 1.
Proof. apply struct_name_spec. Qed.

Lemma struct_name_ok_len s n r : fst (struct_name s) = Ok n r -> L r < L s.
Proof. apply goodS_len, struct_name_goodS. Qed.

Lemma member_p_snd s : snd (member_p s) <= 3.
Proof.
  unfold member_p. rewrite pand_snd, and_loop_snd_cons, atom_snd.
  destruct (fst (atom "," s)) as [n r| | |]; try lia.
  rewrite and_loop_snd_cons, ident_snd. destruct (fst (ident r)); rewrite ?and_loop_snd_nil; lia.
Qed.

Lemma follow_head s : follow s = false -> exists x, skip_ws s = String "<" x.
Proof.
  unfold follow. destruct (skip_ws s) as [|c x]; [discriminate|].
  destruct (Ascii.eqb "<" c) eqn:E; [|discriminate]. apply Ascii.eqb_eq in E. subst c. eauto.
Qed.

(* cA steps per character, cB for the last failure.  An accepted prefix is paid by the characters
   it consumed, unless what follows begins with '<' (the optional struct definition may have been
   scanned to its end and dropped: the characters it scanned pay for that once, after which every
   continuation fails within 24 steps). *)
Definition cA : N := 30.
Definition cB : N := 24.
Definition Psi (r : string) : N := if follow r then cA * L r else 0.

Definition opens (c : ascii) : bool := (Ascii.eqb "{" c || Ascii.eqb "[" c || Ascii.eqb "(" c)%bool.
Definition starter (s : string) : bool :=
  match skip_ws s with String c _ => opens c | EmptyString => false end.

Definition dspec (d : sparser) : Prop := forall s,
  match fst (d s) with
  | Ok _ r => L r < L s /\ snd (d s) + Psi r <= cA * L s
  | _ => snd (d s) <= cA * L s + cB
  end.
Definition dcheap (d : sparser) : Prop := forall s, starter s = false -> snd (d s) <= cB.
Definition dlt (d : sparser) : Prop := forall s, follow s = false ->
  match fst (d s) with Ok _ _ => False | _ => True end.
(* an alternative of declarationType that begins with its own bracket: 22 = the steps
   declarationType spends around it *)
Definition pspec (p : sparser) : Prop := forall s,
  match fst (p s) with
  | Ok _ r => L r < L s /\ snd (p s) + Psi r + 22 <= cA * L s
  | _ => snd (p s) + 22 <= cA * L s + cB
  end.

Lemma Psi_le r : Psi r <= cA * L r.
Proof. unfold Psi. destruct (follow r); lia. Qed.

Lemma nonfollow_nonstarter s : follow s = false -> starter s = false.
Proof. intro H. destruct (follow_head s H) as [x E]. unfold starter. now rewrite E. Qed.

Lemma dspec_any d s : dspec d -> snd (d s) <= cA * L s + cB.
Proof. intro H. specialize (H s). destruct (fst (d s)); unfold cA, cB in *; lia. Qed.

Lemma pand_atom_miss cb a ps s :
  match skip_ws s with String c _ => Ascii.eqb a c = false | EmptyString => True end ->
  @pand ty cb (atom (String a "") :: ps) s = (Fail, 2).
Proof.
  intro H. unfold pand. cbn [and_loop]. rewrite atom_head.
  destruct (skip_ws s) as [|c x]; [reflexivity|]. now rewrite H.
Qed.

(* [pays Fi Fo e p]: the steps of p on s are paid out of the potential Fi s of its input, and an
   accepted prefix leaves at least the potential Fo r of the rest; a parser that does not accept
   may overdraw by e.  Along the children of an And the potentials telescope. *)
Definition pays {A} (Fi Fo : string -> N) (e : N) (p : string -> res A * N) : Prop := forall s,
  match fst (p s) with
  | Ok _ r => L r <= L s /\ snd (p s) + Fo r <= Fi s
  | _ => snd (p s) <= Fi s + e
  end.

Inductive chain (e : N) : (string -> N) -> list sparser -> (string -> N) -> Prop :=
| chain_nil F : chain e F [] F
| chain_cons F0 F1 Fn (p : sparser) ps : pays F0 F1 e p -> chain e F1 ps Fn -> chain e F0 (p :: ps) Fn.

Lemma chain_pays e F0 ps Fn : chain e F0 ps Fn -> forall s,
  match fst (and_loop ps s) with
  | Ok _ r => L r <= L s /\ snd (and_loop ps s) + Fn r <= F0 s
  | _ => snd (and_loop ps s) <= F0 s + e
  end.
Proof.
  induction 1 as [F|F0 F1 Fn p ps Hp _ IH]; intro s; [cbn; lia|].
  rewrite and_loop_snd_cons, and_loop_fst_cons.
  specialize (Hp s). destruct (fst (p s)) as [n r| | |]; try lia.
  specialize (IH r). destruct (fst (and_loop ps r)); cbn [lift]; lia.
Qed.

(* the three potentials: cA for every character still there (after an atom); the same unless a '<'
   follows (after declarationType); nothing if a bracket follows (after the list: the last, failing
   attempt of declarationType may have spent it) — each with k steps to spare.
   Where the k at the uses come from: a terminal that matches spends one step and earns the 30 of a character it
   consumed, so k grows by 29 (atom_pays, struct_name_pays); a loop spends 1 and what its last, failing attempt
   costs (member_list_pays: 1 + 3, list_pays: 1 + cB); an And or a Maybe spends 1.  An And behind its bracket starts
   at PL 29 and must end with 23 to spare (bracket_pspec); PL 33, PL 7 .. PL 90, 35, 61, 58 are these sums along
   the children, with slack where the sum allows it. *)
Definition PL (k : N) (s : string) : N := cA * L s + k.
Definition PP (k : N) (s : string) : N := Psi s + k.
Definition PS (k : N) (s : string) : N := (if starter s then 0 else Psi s) + k.

(* an atom that matches earns the 30 steps of its character and spends one *)
Lemma atom_pays c k e (F : N -> string -> N) :
  (forall s r, skip_ws s = String c r -> cA * L s + k <= F k s) -> (forall s, k <= F k s) -> 1 <= k + e ->
  pays (F k) (PL (k + 29)) e (@atom ty (String c "")).
Proof.
  intros HF Hk He s. specialize (Hk s).
  destruct (@atom_cases ty c s) as [(r & W & ->)| ->]; cbn [fst snd]; [|lia].
  specialize (HF s r W). apply head_len in W. unfold PL, cA in *. lia.
Qed.

Lemma atom_pays_PP c k e : Ascii.eqb "<" c = false -> 1 <= k + e ->
  pays (PP k) (PL (k + 29)) e (@atom ty (String c "")).
Proof.
  intros Hlt. apply (atom_pays c k e PP); [|unfold PP; lia]. intros s r W. unfold PP, Psi, follow. rewrite W, Hlt. cbn [negb]. lia.
Qed.

Lemma atom_pays_PS c k e : Ascii.eqb "<" c = false -> opens c = false -> 1 <= k + e ->
  pays (PS k) (PL (k + 29)) e (@atom ty (String c "")).
Proof.
  intros Hlt Ho. apply (atom_pays c k e PS); [|unfold PS; lia]. intros s r W. unfold PS, starter, Psi, follow. rewrite W, Hlt, Ho. cbn [negb]. lia.
Qed.

Lemma atom_pays_PL c k e : 1 <= k + e -> pays (PL k) (PL (k + 29)) e (@atom ty (String c "")).
Proof. apply (atom_pays c k e PL); unfold PL; lia. Qed.

Lemma struct_name_pays k e : pays (PL (k + 1)) (PL (k + 30)) e struct_name.
Proof.
  intro s. rewrite struct_name_snd. unfold PL, cA.
  destruct (fst (struct_name s)) as [n r| | |] eqn:E; try lia. apply struct_name_ok_len in E. lia.
Qed.

(* a loop whose body keeps the potential F and whose last, failing attempt leaves G *)
Lemma kleene_loop_pays n (p : sparser) F G : pays F F 0 p ->
  (forall s, fst (p s) = Fail -> snd (p s) + G s <= F s) -> pays F G 0 (kleene_loop n p).
Proof.
  intros Hp Hf. induction n as [|n IH]; intro s; [cbn; lia|].
  rewrite kleene_loop_snd_S, kleene_loop_fst_S. specialize (Hp s). specialize (Hf s).
  destruct (fst (p s)) as [x r| | |]; try lia; [|specialize (Hf eq_refl); lia].
  destruct (Nat.ltb_spec (String.length r) (String.length s)) as [Hlt|]; [|lia].
  specialize (IH r). destruct (fst (kleene_loop n p r)); cbn [lift]; unfold L in *; lia.
Qed.

Lemma member_p_pays k : pays (PL (k + 3)) (PL (k + 3)) 0 member_p.
Proof.
  intro x. pose proof (member_p_snd x). unfold PL, cA.
  destruct (fst (member_p x)) as [n r| | |] eqn:E; try lia. apply (goodS_len _ _ _ _ (member_p_goodS _)) in E. lia.
Qed.

Lemma member_list_pays k e : pays (PL (k + 4)) (PL k) e member_list.
Proof.
  intro s. unfold member_list. fold member_p. rewrite kleene_snd, kleene_fst.
  assert (H : pays (PL (k + 3)) (PL k) 0 (kleene_loop (S (String.length s)) member_p)).
  { apply kleene_loop_pays; [apply member_p_pays|]. intros x _. pose proof (member_p_snd x). unfold PL. lia. }
  specialize (H s). unfold PL in *. destruct (fst (kleene_loop _ member_p s)); cbn [lift]; lia.
Qed.

(* without a '<' three steps; behind one, the children are paid by the characters they consume *)
Lemma opt_def_pays e : pays (PL 33) (PP 24) e (maybe None struct_def).
Proof.
  intro s. unfold struct_def. rewrite maybe_snd, maybe_fst.
  assert (Hs : Psi s = if follow s then cA * L s else 0) by reflexivity. unfold PL, PP.
  destruct (follow s) eqn:Hf.
  - rewrite pand_atom_miss; [cbn [fst snd]; lia|].
    unfold follow in Hf. destruct (skip_ws s); [exact I|]. now apply Bool.negb_true_iff in Hf.
  - rewrite pand_snd, pand_fst.
    assert (H : chain 0 (PL 7) [atom "<"; struct_name; member_list; atom ">"] (PL 90)).
    { eapply chain_cons; [now apply atom_pays_PL|]. eapply chain_cons; [apply (struct_name_pays 35)|].
      eapply chain_cons; [apply (member_list_pays 61)|]. eapply chain_cons; [now apply (atom_pays_PL _ 61)|]. apply chain_nil. }
    apply chain_pays with (s := s) in H. unfold PL in H.
    destruct (fst (and_loop _ s)) as [ns r| | |]; cbn [lift]; [pose proof (Psi_le r)|..]; unfold cA in *; lia.
Qed.

Section Level.
Variable d : sparser.
Hypothesis Hd : dspec d.
Hypothesis Hc : dcheap d.
Hypothesis Hl : dlt d.

Lemma d_pays_PL k e : cB <= k + e -> pays (PL k) (PP k) e d.
Proof. intros He s. specialize (Hd s). unfold PL, PP, cB in *. destruct (fst (d s)); lia. Qed.

(* behind a '<' declarationType fails within 24 steps *)
Lemma d_pays_PP k e : cB <= k + e -> pays (PP k) (PP k) e d.
Proof.
  intros He s. pose proof (Hd s) as H. pose proof (Hl s) as H1. pose proof (Hc s) as H2.
  unfold PP. change (Psi s) with (if follow s then cA * L s else 0). destruct (follow s) eqn:F.
  - destruct (fst (d s)); unfold cA, cB in *; lia.
  - specialize (H2 (nonfollow_nonstarter s F)). specialize (H1 eq_refl). destruct (fst (d s)); try tauto; lia.
Qed.

(* the loop of listType ends with a failing attempt of declarationType: 24 steps unless a bracket
   follows *)
Lemma list_loop_cost n : pays (PP cB) (PS 0) 0 (kleene_loop n d).
Proof.
  apply kleene_loop_pays; [now apply d_pays_PP|]. intros s Ef.
  pose proof (d_pays_PP cB 0 ltac:(lia) s) as H. pose proof (Hc s) as H2. rewrite Ef in H.
  unfold PP, PS in *. destruct (starter s); [|specialize (H2 eq_refl)]; lia.
Qed.

Lemma list_pays k e : pays (PL (k + 25)) (PS k) e (list_type d).
Proof.
  intro s. unfold list_type. rewrite kleene_snd, kleene_fst.
  pose proof (list_loop_cost (S (String.length s)) s) as H. pose proof (Psi_le s).
  unfold PL, PP, PS, cB in *. destruct (fst (kleene_loop _ d s)); cbn [lift]; lia.
Qed.

(* an And that begins with a bracket and whose other children leave 23 steps: 22 for
   declarationType around it, one for the And *)
Lemma bracket_pspec c cb ps Fn : chain 1 (PL 29) ps Fn -> (forall r, Psi r + 23 <= Fn r) ->
  pspec (pand cb (atom (String c "") :: ps)).
Proof.
  intros H HF s. rewrite pand_snd, pand_fst, and_loop_snd_cons, and_loop_fst_cons.
  destruct (@atom_cases ty c s) as [(s1 & W & ->)| ->]; cbn [fst snd lift]; [|unfold cA, cB; lia].
  apply head_len in W. pose proof (chain_pays _ _ _ _ H s1) as G. unfold PL in G.
  destruct (fst (and_loop ps s1)) as [ns r| | |]; cbn [lift]; [specialize (HF r)|..]; unfold cA, cB in *; lia.
Qed.

Lemma array_spec : pspec (array_type d).
Proof.
  apply (bracket_pspec _ _ _ (PL 58)); [|intro r; pose proof (Psi_le r); unfold PL; lia].
  eapply chain_cons; [now apply d_pays_PL|]. eapply chain_cons; [now apply atom_pays_PP|]. apply chain_nil.
Qed.

Lemma map_spec : pspec (map_type d).
Proof.
  apply (bracket_pspec _ _ _ (PL 58)); [|intro r; pose proof (Psi_le r); unfold PL; lia].
  eapply chain_cons; [now apply d_pays_PL|]. eapply chain_cons; [now apply d_pays_PP|].
  eapply chain_cons; [now apply atom_pays_PP|]. apply chain_nil.
Qed.

Lemma tos_spec : pspec (tuple_or_struct_type d).
Proof.
  apply (bracket_pspec _ _ _ (PP 24)); [|intro r; unfold PP; lia].
  eapply chain_cons; [apply (list_pays 4)|]. eapply chain_cons; [now apply atom_pays_PS|].
  eapply chain_cons; [apply opt_def_pays|]. apply chain_nil.
Qed.

End Level.

Lemma basic_snd_le s : snd (basic_type s) <= 17.
Proof.
  apply (por_snd_le (Some nodify_basic) (map atom basic_letters) s 1), Forall_map, Forall_forall.
  intros m _. now rewrite atom_snd.
Qed.

Lemma basic_ok_len s n r : fst (basic_type s) = Ok n r -> L r < L s.
Proof. apply goodS_len, basic_type_goodS. Qed.

Lemma brackets_miss (d : sparser) s : starter s = false ->
  por None [map_type d; array_type d; tuple_or_struct_type d] s = (Fail, 7).
Proof.
  intro H. unfold starter, opens in H.
  assert (Hm : forall a, (a = "{" \/ a = "[" \/ a = "(")%char ->
            match skip_ws s with String c _ => Ascii.eqb a c = false | EmptyString => True end).
  { intros a Ha. destruct (skip_ws s) as [|c x]; [exact I|].
    apply orb_false_elim in H as [H H3]. apply orb_false_elim in H as [H1 H2].
    destruct Ha as [->|[->| ->]]; assumption. }
  apply (por_all_miss None [map_type d; array_type d; tuple_or_struct_type d] s 2).
  repeat constructor; apply pand_atom_miss, Hm; auto.
Qed.

Lemma decl_m_cheap f : dcheap (decl_m f).
Proof.
  intros s H. unfold cB. destruct f as [|f]; [cbn; lia|]. rewrite decl_m_S, por_snd_cons.
  pose proof (basic_snd_le s). rewrite (brackets_miss _ s H).
  destruct (fst (basic_type s)); cbn [snd]; lia.
Qed.

(* atoms miss a text that begins, after white space, with another character than their first *)
Lemma atoms_miss (ls : list string) s b x : skip_ws s = String b x ->
  forallb (fun l => match l with String a _ => negb (Ascii.eqb a b) | EmptyString => false end) ls = true ->
  Forall (fun p : sparser => p s = (Fail, 1)) (map atom ls).
Proof.
  intros E H. apply Forall_map, Forall_forall. intros l Hl. rewrite forallb_forall in H. specialize (H l Hl).
  unfold atom. rewrite E. destruct l as [|a l]; [discriminate|]. cbn [strip_prefix]. apply negb_true_iff in H. now rewrite H.
Qed.

Lemma basic_lt s x : skip_ws s = String "<" x -> fst (basic_type s) = Fail.
Proof. intro E. unfold basic_type. now rewrite (por_all_miss _ _ s 1 (atoms_miss basic_letters s "<" x E eq_refl)). Qed.

Lemma decl_m_lt f : dlt (decl_m f).
Proof.
  intros s H. destruct f as [|f]; [exact I|]. destruct (follow_head s H) as [x E].
  rewrite decl_m_S, por_fst_cons, (basic_lt s x E), (brackets_miss _ s (nonfollow_nonstarter s H)). exact I.
Qed.

Theorem decl_m_cost : forall f, dspec (decl_m f).
Proof.
  induction f as [|f IH]; intro s; [cbn; unfold cA, cB; lia|].
  pose proof (decl_m_cheap f) as Hc. pose proof (decl_m_lt f) as Hl.
  rewrite decl_m_S, por_snd_cons, por_fst_cons.
  pose proof (basic_snd_le s) as Hb.
  destruct (fst (basic_type s)) as [n r| | |] eqn:Eb; try (unfold cA, cB; lia).
  { apply basic_ok_len in Eb. pose proof (Psi_le r). split; [exact Eb|]. unfold cA in *. lia. }
  destruct (starter s) eqn:St.
  2:{ rewrite (brackets_miss _ s St). cbn [fst snd]. unfold cA, cB. lia. }
  unfold starter in St. destruct (skip_ws s) as [|c x] eqn:Es; [discriminate|]. unfold opens in St.
  (* the bracket at the head of the input is that of one alternative; the two others miss it *)
  assert (Hmiss : forall a cb ps, Ascii.eqb a c = false -> @pand ty cb (atom (String a "") :: ps) s = (Fail, 2))
    by (intros; apply pand_atom_miss; now rewrite Es).
  set (m := map_type (decl_m f)). set (a := array_type (decl_m f)). set (t := tuple_or_struct_type (decl_m f)).
  assert (H : exists pre q post, [m; a; t] = (pre ++ q :: post)%list /\ pspec q /\ (List.length pre + List.length post = 2)%nat /\
            Forall (fun p => p s = (Fail, 2)) pre /\ Forall (fun p => p s = (Fail, 2)) post).
  { destruct (Ascii.eqb "{" c) eqn:E1; [|destruct (Ascii.eqb "[" c) eqn:E2; [|destruct (Ascii.eqb "(" c) eqn:E3; [|discriminate]]];
      match goal with E : Ascii.eqb _ c = true |- _ => apply Ascii.eqb_eq in E; subst c end.
    - exists [], m, [a; t]. repeat split; [now apply map_spec|constructor|repeat constructor; now apply Hmiss].
    - exists [m], a, [t]. repeat split; [now apply array_spec|repeat constructor; now apply Hmiss ..].
    - exists [m; a], t, []. repeat split; [now apply tos_spec|repeat constructor; now apply Hmiss|constructor]. }
  destruct H as (pre & q & post & -> & Hq & Hn & Hpre & Hpost).
  destruct (por_one None pre q post s 2 Hpre Hpost) as [E F]. rewrite Hn in F. rewrite E. specialize (Hq s).
  destruct (fst (q s)); unfold cA, cB in *; lia.
Qed.

Lemma parse_steps_m_eq s : parse_steps_m s = snd (decl_m (S (String.length s)) s).
Proof. unfold parse_steps_m, parse_c_m. destruct (decl_m (S (String.length s)) s). reflexivity. Qed.

(* the bound with any fuel (the step count never depends on running out of fuel) *)
Theorem decl_m_steps_linear : forall f s, snd (decl_m f s) <= 30 * N.of_nat (String.length s) + 24.
Proof. intros f s. exact (dspec_any (decl_m f) s (decl_m_cost f)). Qed.

(* 24: the invocations of declarationType on a text it refuses at the first character *)
Theorem parse_steps_m_linear : forall s, parse_steps_m s <= 30 * N.of_nat (String.length s) + 24.
Proof. intro s. rewrite parse_steps_m_eq. apply decl_m_steps_linear. Qed.

Lemma rep_len c n : String.length (rep c n) = n.
Proof. induction n as [|n IH]; cbn; [reflexivity|now rewrite IH]. Qed.

(* the witness of nest_steps_exponential: linear in the nesting depth *)
Corollary nest_steps_m_linear : forall n, parse_steps_m (nest n) <= 60 * N.of_nat n + 24.
Proof.
  intro n. pose proof (parse_steps_m_linear (nest n)) as H.
  unfold nest in H at 2. rewrite slen_app, !rep_len in H. lia.
Qed.

(* both grammars on 22 nested parentheses (the witness the harness runs) *)
Example nest22_steps : parse_steps_m (nest 22) = 1166 /\ 2 ^ 22 <= parse_steps (nest 22).
Proof. split; [vm_compute; reflexivity|apply (nest_steps_exponential 22)]. Qed.

Print Assumptions decl_m_decl.
Print Assumptions parse_m_parse.
Print Assumptions parse_steps_m_linear.
Print Assumptions nest_steps_m_linear.
