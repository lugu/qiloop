(* CallProofs.v — C04 over the LTS of Call.v: ids_distinct, reply_echoes_key, dispatch_unique,
   mailbox_once and the two compositions inv_outcome and drained_outcome, for every schedule (list of
   labels), any number of clients/connections, every method table and result function.  Five layers,
   each proved by cases on Shape (what a step does): invA structure, invB one token per request, invC answers,
   invD returns, invE nothing gets lost.  `inv` is A to D and needs the clean configuration and `bounded`
   (inv_exec; bounded_short for a concrete schedule); A, D and E need neither (inv_ADE_exec), and
   drained_outcome reads D and E. *)
From QV Require Import ListFacts Call.
From Coq Require Import ZifyN.
Local Open Scope N_scope.

(* two calls of one client whose issue indices differ by less than 2^31 have different ids *)
Theorem ids_distinct : forall i j : nat, i <> j ->
  (Z.abs (Z.of_nat i - Z.of_nat j) < 2 ^ 31)%Z -> id_of_index i <> id_of_index j.
Proof.
  (* equal residues: the difference 2(i-j) is a multiple of 2^32, but it is non-zero and below 2^32.
     ZifyN gives lia the Euclidean equations of a division by a constant, so this is linear arithmetic *)
  intros i j Hne Hd E. unfold id_of_index in E. lia.
Qed.

Lemma id_of_index_inj i j : N.of_nat i < 2 ^ 31 -> N.of_nat j < 2 ^ 31 -> id_of_index i = id_of_index j -> i = j.
Proof.
  intros Hi Hj E. destruct (Nat.eq_dec i j) as [|Ne]; [assumption|]. destruct (ids_distinct i j Ne); [lia|exact E].
Qed.

(* messageID is 2n+1 after n allocations; the (n+1)th id is its successor *)
Lemma next_id_index n : next_id ((2 * N.of_nat n + 1) mod 2 ^ 32) = id_of_index n.
Proof.
  unfold next_id, id_of_index.
  rewrite N.add_mod_idemp_l by (compute; discriminate). f_equal. lia.
Qed.

Lemma id_of_index_mid n : id_of_index n = (2 * N.of_nat (S n) + 1) mod 2 ^ 32.
Proof. unfold id_of_index. f_equal. lia. Qed.

Lemma tag_eqb_eq a b : tag_eqb a b = true <-> a = b.
Proof.
  destruct a as [c i|c n], b as [c' i'|c' n']; cbn; [|split; discriminate..|].
  all: rewrite andb_true_iff, !Nat.eqb_eq; split; [intros [-> ->]; reflexivity|intro H; injection H; auto].
Qed.
Lemma tag_eqb_refl a : tag_eqb a a = true. Proof. now apply tag_eqb_eq. Qed.
Lemma tag_eqb_neq a b : a <> b -> tag_eqb a b = false.
Proof. intro H. destruct (tag_eqb a b) eqn:E; [apply tag_eqb_eq in E; contradiction|reflexivity]. Qed.

Lemma key_eqb_eq a b : key_eqb a b = true <-> a = b.
Proof.
  destruct a as [[[s o] x] i], b as [[[s' o'] x'] i']. cbn. rewrite !andb_true_iff, !N.eqb_eq.
  split; [intros [[[-> ->] ->] ->]; reflexivity|intro H; inversion H; auto].
Qed.

Lemma upd2_same {A} (m : nat -> nat -> A) c i v : upd2 m c i v c i = v.
Proof. unfold upd2. now rewrite !Nat.eqb_refl. Qed.
Lemma upd2_cases {A} (m : nat -> nat -> A) c i v c' i' :
  (c' = c /\ i' = i /\ upd2 m c i v c' i' = v) \/ ((c', i') <> (c, i) /\ upd2 m c i v c' i' = m c' i').
Proof.
  unfold upd2. destruct (Nat.eqb_spec c' c), (Nat.eqb_spec i' i); cbn; auto; right; split; congruence.
Qed.
Lemma updt_same m t v : updt m t v t = v.
Proof. unfold updt. now rewrite tag_eqb_refl. Qed.
Lemma updt_other m t v t' : t' <> t -> updt m t v t' = m t'.
Proof. unfold updt. intro H. now rewrite tag_eqb_neq. Qed.

Lemma in_snoc {A} (l : list A) x a : In a (l ++ [x]) <-> In a l \/ a = x.
Proof. rewrite in_app_iff. cbn. intuition. Qed.

Lemma in_upd_tail {A} (m : nat -> list A) c q x c' a : m c = x :: q -> In a (upd m c q c') -> In a (m c').
Proof.
  intros E. unfold upd. destruct (Nat.eqb_spec c' c); [subst; rewrite E; intro; right; assumption|auto].
Qed.
Lemma in_upd_snoc {A} (m : nat -> list A) c x c' a : In a (upd m c (m c ++ [x]) c') -> In a (m c') \/ (c' = c /\ a = x).
Proof. unfold upd. destruct (Nat.eqb_spec c' c) as [->|]; [rewrite in_snoc; intros [H|H]|]; auto. Qed.
Lemma in_upd_grow {A} (m : nat -> list A) c x c' a : In a (m c') -> In a (upd m c (m c ++ [x]) c').
Proof. unfold upd. destruct (Nat.eqb_spec c' c) as [->|]; [rewrite in_snoc|]; auto. Qed.

Definition cnt (P : frame -> bool) (l : list frame) : nat := List.length (filter P l).

Lemma cnt_app P l x : cnt P (l ++ [x]) = (cnt P l + if P x then 1 else 0)%nat.
Proof. unfold cnt. rewrite filter_app, app_length. cbn. destruct (P x); reflexivity. Qed.
Lemma cnt_cons P x l : cnt P (x :: l) = ((if P x then 1 else 0) + cnt P l)%nat.
Proof. unfold cnt. cbn. destruct (P x); reflexivity. Qed.
Lemma cnt_0 P l : (forall g, In g l -> P g = false) -> cnt P l = O.
Proof.
  induction l as [|x l IH]; intro H; [reflexivity|].
  rewrite cnt_cons, (H x), IH; [reflexivity| |left; reflexivity]. intros g I. apply H. right. exact I.
Qed.
Lemma cnt_in_pos P l g : In g l -> P g = true -> (0 < cnt P l)%nat.
Proof.
  induction l as [|x l IH]; [intros []|]. intros [<-|I] H; rewrite cnt_cons; [rewrite H; lia|].
  specialize (IH I H). lia.
Qed.

Lemma cnt_split P (l1 l2 : list frame) x : cnt P (l1 ++ x :: l2) = (cnt P (l1 ++ l2) + if P x then 1 else 0)%nat.
Proof.
  induction l1 as [|y l1 IH]; cbn [app]; rewrite !cnt_cons; [apply Nat.add_comm|]. rewrite IH. apply Nat.add_assoc.
Qed.

Lemma take_mail_spec s o l c g r : take_mail s o l = Some (c, g, r) ->
  exists l1 l2, l = l1 ++ (c, g) :: l2 /\ r = l1 ++ l2 /\ f_svc g = s /\ f_obj g = o.
Proof.
  revert c g r. induction l as [|[c0 g0] l IH]; intros c g r; cbn [take_mail]; [discriminate|].
  destruct ((f_svc g0 =? s) && (f_obj g0 =? o)) eqn:E.
  - intros [= <- <- <-]. apply andb_true_iff in E as [E1 E2]. apply N.eqb_eq in E1, E2. exists [], l. auto.
  - destruct (take_mail s o l) as [[[c' g'] r']|] eqn:T; [|discriminate].
    intros [= <- <- <-]. destruct (IH _ _ _ eq_refl) as [l1 [l2 [-> [-> H]]]]. exists ((c0, g0) :: l1), l2. auto.
Qed.
Lemma take_mail_in s o l c g r : take_mail s o l = Some (c, g, r) -> In (c, g) l.
Proof. intro E. destruct (take_mail_spec _ _ _ _ _ _ E) as [l1 [l2 [-> _]]]. apply in_elt. Qed.

Lemma f_type_mk ty ky p t : f_type (mk_frame ty ky p t) = ty.
Proof. now destruct ky as [[[s o] a] i]. Qed.
Lemma fkey_mk ty ky p t : fkey (mk_frame ty ky p t) = ky.
Proof. now destruct ky as [[[s o] a] i]. Qed.
Lemma f_payload_mk ty ky p t : f_payload (mk_frame ty ky p t) = p.
Proof. now destruct ky as [[[s o] a] i]. Qed.
Lemma f_tag_mk ty ky p t : f_tag (mk_frame ty ky p t) = t.
Proof. now destruct ky as [[[s o] a] i]. Qed.

(* the frame Call.answer builds carries the request's service, object, action, id and tag *)
Theorem reply_echoes_key : forall g ty p, fkey (mk_frame ty (fkey g) p (f_tag g)) = fkey g /\
  f_tag (mk_frame ty (fkey g) p (f_tag g)) = f_tag g.
Proof. intros. now rewrite fkey_mk, f_tag_mk. Qed.

Section Proofs.
Variable k : cfg.
Variable filter_pass : N -> bool.
Variable target : N -> N -> N -> tgt.
Variable fres : N -> N -> N -> bytes -> bytes.
Variable okargs : N -> N -> N -> bytes -> bool.
Variable callerr : N -> N -> N -> bytes -> bool.

Notation step := (step k filter_pass target fres okargs callerr).
Notation exec := (exec k filter_pass target fres okargs callerr).
Notation answer := (answer k).

Definition expected (x : callst) : bytes :=
  let '(s, o, a, _) := k_key x in fres s o a (k_payload x).

(* Every step is the identity or one of thirteen compositions of a few state transformers, each
   under the guard that enables it.  step_Shape is the only place where do_alloc ... do_cli are
   taken apart; every invariant below is proved shape by shape. *)
Definition put_call (st : state) c i y := set_calls st (upd2 (calls st) c i y).
Definition push_c2s (st : state) c f := set_c2s st (upd (c2s st) c (c2s st c ++ [f])).
Definition pop_c2s (st : state) c q := set_c2s st (upd (c2s st) c q).
Definition push_mail (st : state) c g := set_mails st (mails st ++ [(c, g)]).
Definition bump_ex (st : state) t := set_ex st (updt (ex st) t (S (ex st t))).
Definition push_s2c (st : state) c f t :=
  set_back (set_s2c st (upd (s2c st) c (s2c st c ++ [f]))) (updt (back st) t (S (back st t))).
Definition pop_s2c (st : state) c q := set_s2c st (upd (s2c st) c q).

(* nextMessageID of client c; the bookkeeping of a raw peer's write of a frame of type ty on c *)
Definition draw_id (st : state) c : state :=
  {| mid := upd (mid st) c (next_id (mid st c)); issued := upd (issued st) c (S (issued st c)); rawc := rawc st;
     calls := calls st; c2s := c2s st; s2c := s2c st; mails := mails st; nraw := nraw st; rawty := rawty st;
     ex := ex st; back := back st |}.
Definition mark_raw (st : state) c ty : state :=
  {| mid := mid st; issued := issued st; rawc := upd (rawc st) c true; calls := calls st; c2s := c2s st; s2c := s2c st;
     mails := mails st; nraw := upd (nraw st) c (S (nraw st c)); rawty := upd2 (rawty st) c (nraw st c) ty;
     ex := ex st; back := back st |}.

Definition rec_new (ky : key) (p : bytes) : callst :=
  {| k_alloc := true; k_key := ky; k_payload := p; k_sent := false; k_handler := false;
     k_chan := None; k_waiting := false; k_returns := 0; k_result := None |}.
Definition rec_sent (x : callst) : callst :=
  {| k_alloc := true; k_key := k_key x; k_payload := k_payload x; k_sent := true; k_handler := true;
     k_chan := None; k_waiting := true; k_returns := k_returns x; k_result := k_result x |}.
Definition rec_done (x : callst) (ch : option frame) (r : result) : callst :=
  {| k_alloc := k_alloc x; k_key := k_key x; k_payload := k_payload x; k_sent := k_sent x; k_handler := k_handler x;
     k_chan := ch; k_waiting := false; k_returns := S (k_returns x); k_result := Some r |}.
Definition deliver (st : state) c g : nat -> nat -> callst :=
  fun c' i => if Nat.eqb c' c && Nat.ltb i (issued st c) && hit (calls st c' i) g
              then delivered (calls st c' i) g else calls st c' i.

Lemma delivered_fields x g :
  k_alloc (delivered x g) = k_alloc x /\ k_key (delivered x g) = k_key x /\ k_payload (delivered x g) = k_payload x /\ k_sent (delivered x g) = k_sent x /\ k_waiting (delivered x g) = k_waiting x /\ k_returns (delivered x g) = k_returns x /\ k_result (delivered x g) = k_result x /\ k_handler (delivered x g) = false.
Proof. cbn. repeat split. Qed.

Lemma deliver_cases st c g c0 i :
  deliver st c g c0 i = calls st c0 i \/
  (c0 = c /\ (i < issued st c)%nat /\ hit (calls st c i) g = true /\ deliver st c g c0 i = delivered (calls st c i) g).
Proof.
  unfold deliver. destruct (Nat.eqb_spec c0 c) as [->|]; [|auto]. destruct (Nat.ltb_spec i (issued st c)); [|auto].
  destruct (hit (calls st c i) g); cbn; auto.
Qed.

(* computes the components of a state written with the setters and transformers above, and nothing else *)
Ltac fields := cbn [mid issued rawc calls c2s s2c mails nraw rawty ex back
                    set_calls set_c2s set_s2c set_mails set_ex set_back
                    put_call push_c2s pop_c2s push_mail bump_ex push_s2c pop_s2c draw_id mark_raw].

Lemma answer_cases (P : state -> Prop) st c g ty p :
  P st -> ((f_type g =? T_Post) && negb (post_answered k) = false ->
           P (push_s2c st c (mk_frame ty (fkey g) p (f_tag g)) (f_tag g))) ->
  P (answer st c g ty p).
Proof. intros H1 H2. unfold Call.answer. destruct (_ && _); auto. Qed.

Inductive Shape (st : state) : label -> state -> Prop :=
| Sh_id l : Shape st l st
| Sh_alloc c s o a p (Er : rawc st c = false) :
    Shape st (LAlloc c s o a p) (put_call (draw_id st c) c (issued st c) (rec_new (s, o, a, next_id (mid st c)) p))
| Sh_send c i (x := calls st c i) (Ea : k_alloc x = true) (Es : k_sent x = false) :
    Shape st (LSend c i) (push_c2s (put_call st c i (rec_sent x)) c (mk_frame T_Call (k_key x) (k_payload x) (TCall c i)))
| Sh_return c i g (x := calls st c i) (Ec : k_chan x = Some g) (Ew : k_waiting x = true) :
    Shape st (LReturn c i) (put_call st c i (rec_done x None (result_of g)))
| Sh_cancel c i (x := calls st c i) (Ew : k_waiting x = true) :
    Shape st (LCancel c i)
      (push_c2s (put_call st c i (rec_done x (k_chan x) RCancelled)) c (mk_frame T_Cancel (k_key x) [] (TCall c i)))
| Sh_raw c ty s o a id p (E0 : issued st c = O) :
    Shape st (LRaw c ty s o a id p) (push_c2s (mark_raw st c ty) c (mk_frame ty (s, o, a, id) p (TRaw c (nraw st c))))
(* the server's connection goroutine: the frame is dropped, refused, or put into a mailbox *)
| Sh_drop l c g q (E : c2s st c = g :: q) (G : filter_pass (f_type g) = false \/ (f_type g =? T_Call) = false) :
    Shape st l (pop_c2s st c q)
| Sh_refuse l c g q (E : c2s st c = g :: q) : Shape st l (answer (pop_c2s st c q) c g T_Error err_payload)
| Sh_mail c g q (E : c2s st c = g :: q) : Shape st (LSrv c) (push_mail (pop_c2s st c q) c g)
(* the mailbox goroutine: the mail is ignored, refused, or the method runs and (unless a Post) answers *)
| Sh_ignore s o c g r (E : take_mail s o (mails st) = Some (c, g, r)) (Er : runs k (f_type g) = false) :
    Shape st (LMbox s o) (set_mails st r)
| Sh_merr s o c g r (E : take_mail s o (mails st) = Some (c, g, r)) :
    Shape st (LMbox s o) (answer (set_mails st r) c g T_Error err_payload)
| Sh_post s o c g r (E : take_mail s o (mails st) = Some (c, g, r)) (Er : runs k (f_type g) = true)
    (Ep : f_type g = T_Post) : Shape st (LMbox s o) (bump_ex (set_mails st r) (f_tag g))
| Sh_run s o c g r ty p (E : take_mail s o (mails st) = Some (c, g, r)) (Er : runs k (f_type g) = true)
    (Hty : ty = T_Error \/ (ty = T_Reply /\ p = fres (f_svc g) (f_obj g) (f_act g) (f_payload g))) :
    Shape st (LMbox s o) (answer (bump_ex (set_mails st r) (f_tag g)) c g ty p)
| Sh_cli c g q (E : s2c st c = g :: q) : Shape st (LCli c) (set_calls (pop_s2c st c q) (deliver st c g)).

Lemma step_Shape st l : Shape st l (step st l).
Proof.
  destruct l as [c s o a p|c i|c i|c i|c ty s o a id p|c|c|s o|c]; cbn [Call.step].
  - unfold do_alloc. destruct (rawc st c) eqn:E; [apply Sh_id|exact (Sh_alloc st c s o a p E)].
  - unfold do_send. destruct (k_alloc _) eqn:Ea; [|apply Sh_id]. destruct (k_sent _) eqn:Es; [apply Sh_id|].
    exact (Sh_send st c i Ea Es).
  - unfold do_return. destruct (k_chan _) as [g|] eqn:Ec; [|apply Sh_id]. destruct (k_waiting _) eqn:Ew; [|apply Sh_id].
    exact (Sh_return st c i g Ec Ew).
  - unfold do_cancel. destruct (k_waiting _) eqn:Ew; [|apply Sh_id]. exact (Sh_cancel st c i Ew).
  - unfold do_raw. destruct (Nat.eqb_spec (issued st c) 0) as [E|]; [|apply Sh_id]. destruct (type_ok ty); [|apply Sh_id].
    exact (Sh_raw st c ty s o a id p E).
  - unfold do_srv. destruct (c2s st c) as [|g q] eqn:E; [apply Sh_id|].
    destruct (filter_pass (f_type g)) eqn:Ef; [|apply (Sh_drop st _ c g q E); auto].
    destruct (target _ _ _); [exact (Sh_refuse st _ c g q E)..|exact (Sh_mail st c g q E)|exact (Sh_mail st c g q E)].
  - unfold do_srvdrop. destruct (c2s st c) as [|g q] eqn:E; [apply Sh_id|].
    destruct (f_type g =? T_Call) eqn:Ty; [exact (Sh_refuse st _ c g q E)|apply (Sh_drop st _ c g q E); auto].
  - unfold do_mbox. destruct (take_mail s o (mails st)) as [[[c g] r]|] eqn:E; [|apply Sh_id].
    destruct (runs k (f_type g)) eqn:Er; [|exact (Sh_ignore st s o c g r E Er)].
    destruct (target _ _ _); [exact (Sh_merr st s o c g r E)..|].
    destruct (okargs _ _ _ _); [|exact (Sh_merr st s o c g r E)].
    destruct (N.eqb_spec (f_type g) T_Post) as [Ep|Ep]; [exact (Sh_post st s o c g r E Er Ep)|].
    destruct (callerr _ _ _ _); apply (Sh_run st s o c g r _ _ E Er); auto.
  - unfold do_cli. destruct (s2c st c) as [|g q] eqn:E; [apply Sh_id|exact (Sh_cli st c g q E)].
Qed.

Definition req_shape (st : state) (c : nat) (g : frame) : Prop :=
  tag_conn (f_tag g) = c /\
  (forall i, f_tag g = TCall c i ->
     k_sent (calls st c i) = true /\ fkey g = k_key (calls st c i) /\
     ((f_type g = T_Call /\ f_payload g = k_payload (calls st c i)) \/ f_type g = T_Cancel)) /\
  (forall n, f_tag g = TRaw c n -> (n < nraw st c)%nat /\ f_type g = rawty st c n /\ rawc st c = true).

Definition resp_shape (st : state) (c : nat) (g : frame) : Prop :=
  tag_conn (f_tag g) = c /\
  (forall i, f_tag g = TCall c i -> k_sent (calls st c i) = true /\ fkey g = k_key (calls st c i)) /\
  (forall n, f_tag g = TRaw c n -> rawc st c = true).

Record invA (st : state) : Prop := {
  a_c2s : forall c g, In g (c2s st c) -> req_shape st c g;
  a_mails : forall c g, In (c, g) (mails st) -> req_shape st c g;
  a_s2c : forall c g, In g (s2c st c) -> resp_shape st c g;
  a_mid : forall c, mid st c = (2 * N.of_nat (issued st c) + 1) mod 2 ^ 32;
  a_alloc : forall c i, (i < issued st c)%nat -> k_alloc (calls st c i) = true /\ snd (k_key (calls st c i)) = id_of_index i;
  a_unalloc : forall c i, (issued st c <= i)%nat -> calls st c i = call0;
  a_rawexcl : forall c, rawc st c = true -> issued st c = O;
  a_chan : forall c i g, k_chan (calls st c i) = Some g -> k_sent (calls st c i) = true;
  a_wait : forall c i, k_waiting (calls st c i) = true -> k_sent (calls st c i) = true;
  a_handler : forall c i, k_handler (calls st c i) = true -> k_sent (calls st c i) = true;
}.

Lemma invA_init : invA init.
Proof. constructor; cbn; try tauto; try discriminate; try lia; auto. Qed.

Lemma next_call0 st c : invA st -> calls st c (issued st c) = call0.
Proof. intro I. apply (a_unalloc st I), le_n. Qed.

Lemma head_shape st c g q : invA st -> c2s st c = g :: q -> req_shape st c g.
Proof. intros I E. apply (a_c2s st I). rewrite E. left. reflexivity. Qed.
Lemma mail_shape st s o c g r : invA st -> take_mail s o (mails st) = Some (c, g, r) -> req_shape st c g.
Proof. intros I E. exact (a_mails st I c g (take_mail_in _ _ _ _ _ _ E)). Qed.

Lemma req_rawty st c g c0 n : req_shape st c g -> f_tag g = TRaw c0 n -> f_type g = rawty st c0 n.
Proof. intros [Hc [_ Hraw]] E. rewrite E in Hc. cbn in Hc. subst c0. now destruct (Hraw n E). Qed.

(* the shapes only grow with the bookkeeping they refer to: sent calls keep key and payload, raw
   frames written keep their type *)
Definition calls_ext (st st' : state) : Prop :=
  forall c i, k_sent (calls st c i) = true ->
    k_sent (calls st' c i) = true /\ k_key (calls st' c i) = k_key (calls st c i) /\ k_payload (calls st' c i) = k_payload (calls st c i).
Definition raw_ext (st st' : state) : Prop :=
  (forall c n, (n < nraw st c)%nat -> (n < nraw st' c)%nat /\ rawty st' c n = rawty st c n) /\
  (forall c, rawc st c = true -> rawc st' c = true).

Lemma calls_ext_refl st : calls_ext st st. Proof. intros c i H. auto. Qed.
Lemma raw_ext_refl st : raw_ext st st. Proof. split; auto. Qed.

Lemma req_shape_ext st st' c g : calls_ext st st' -> raw_ext st st' -> req_shape st c g -> req_shape st' c g.
Proof.
  intros CE [RN RC] [H1 [H2 H3]]. split; [exact H1|]. split.
  - intros i E. destruct (H2 i E) as [S [K P]]. destruct (CE c i S) as [S' [K' P']].
    split; [exact S'|]. split; [congruence|]. destruct P as [[T Pp]|T]; [left; split; congruence|right; exact T].
  - intros n E. destruct (H3 n E) as [L [T R]]. destruct (RN c n L) as [L' T']. split; [exact L'|]. split; [congruence|auto].
Qed.

Lemma resp_shape_ext st st' c g : calls_ext st st' -> raw_ext st st' -> resp_shape st c g -> resp_shape st' c g.
Proof.
  intros CE [_ RC] [H1 [H2 H3]]. split; [exact H1|]. split.
  - intros i E. destruct (H2 i E) as [S K]. destruct (CE c i S) as [S' [K' _]]. split; [exact S'|congruence].
  - intros n E. apply RC, (H3 n E).
Qed.

Lemma req_to_resp st c g ty p : req_shape st c g -> resp_shape st c (mk_frame ty (fkey g) p (f_tag g)).
Proof.
  intros [H1 [H2 H3]]. unfold resp_shape. rewrite f_tag_mk, fkey_mk. split; [exact H1|]. split.
  - intros i E. destruct (H2 i E) as [S [K _]]. auto.
  - intros n E. now destruct (H3 n E).
Qed.

Lemma shapes_ext st st' : invA st -> calls_ext st st' -> raw_ext st st' ->
  c2s st' = c2s st -> mails st' = mails st -> s2c st' = s2c st ->
  (forall c g, In g (c2s st' c) -> req_shape st' c g) /\ (forall c g, In (c, g) (mails st') -> req_shape st' c g) /\
  (forall c g, In g (s2c st' c) -> resp_shape st' c g).
Proof.
  intros I CE RE -> -> ->. split; [|split]; intros c g H.
  - apply (req_shape_ext st st' c g CE RE), (a_c2s st I), H.
  - apply (req_shape_ext st st' c g CE RE), (a_mails st I), H.
  - apply (resp_shape_ext st st' c g CE RE), (a_s2c st I), H.
Qed.

(* besides the three queues, the shapes and the other clauses of invA read these six fields *)
Lemma invA_frames st st' : invA st -> mid st' = mid st -> issued st' = issued st -> rawc st' = rawc st ->
  calls st' = calls st -> nraw st' = nraw st -> rawty st' = rawty st ->
  (forall c g, In g (c2s st' c) -> In g (c2s st c) \/ req_shape st c g) ->
  (forall c g, In (c, g) (mails st') -> In (c, g) (mails st) \/ req_shape st c g) ->
  (forall c g, In g (s2c st' c) -> In g (s2c st c) \/ resp_shape st c g) -> invA st'.
Proof.
  intros I E1 E2 E3 E4 E5 E6 H1 H2 H3.
  assert (CE : calls_ext st st') by (unfold calls_ext; rewrite E4; auto).
  assert (RE : raw_ext st st') by (unfold raw_ext; rewrite E3, E5, E6; apply raw_ext_refl).
  constructor; rewrite ?E1, ?E2, ?E3, ?E4; try apply I.
  - intros c g H. apply (req_shape_ext st st' c g CE RE). destruct (H1 c g H); [apply (a_c2s st I)|]; assumption.
  - intros c g H. apply (req_shape_ext st st' c g CE RE). destruct (H2 c g H); [apply (a_mails st I)|]; assumption.
  - intros c g H. apply (resp_shape_ext st st' c g CE RE). destruct (H3 c g H); [apply (a_s2c st I)|]; assumption.
Qed.

Lemma invA_pop st c g q : invA st -> c2s st c = g :: q -> invA (pop_c2s st c q).
Proof. intros I E. apply (invA_frames st); fields; auto. intros c0 g0 H. left. eapply in_upd_tail; eauto. Qed.

Lemma invA_push_c2s st c g : invA st -> req_shape st c g -> invA (push_c2s st c g).
Proof.
  intros I Hg. apply (invA_frames st); fields; auto.
  intros c0 g0 H. apply in_upd_snoc in H as [H|[-> ->]]; auto.
Qed.

Lemma invA_push_mail st c g : invA st -> req_shape st c g -> invA (push_mail st c g).
Proof.
  intros I Hg. apply (invA_frames st); fields; auto.
  intros c0 g0 H. apply in_snoc in H as [H|H]; [auto|]. inversion H; subst. auto.
Qed.

Lemma invA_take st s o c g r : invA st -> take_mail s o (mails st) = Some (c, g, r) -> invA (set_mails st r).
Proof.
  intros I E. destruct (take_mail_spec _ _ _ _ _ _ E) as [l1 [l2 [El [-> _]]]]. apply (invA_frames st); fields; auto.
  intros c0 g0 H. left. rewrite El. destruct (in_app_or _ _ _ H); apply in_or_app; cbn; auto.
Qed.

Lemma invA_bump st t : invA st -> invA (bump_ex st t).
Proof. intro I. apply (invA_frames st); fields; auto. Qed.

Lemma invA_answer st c g ty p : invA st -> req_shape st c g -> invA (answer st c g ty p).
Proof.
  intros I Hg. apply answer_cases; [exact I|intros _]. apply (invA_frames st); fields; auto.
  intros c0 g0 H. apply in_upd_snoc in H as [H|[-> ->]]; [auto|]. right. apply req_to_resp, Hg.
Qed.

(* what a step may make of the record x of an allocated call, as far as invA can tell *)
Definition succ_rec (x y : callst) : Prop :=
  k_alloc x = true /\ k_alloc y = true /\ k_key y = k_key x /\ k_payload y = k_payload x /\
  (k_sent x = true -> k_sent y = true) /\
  (k_chan y <> None -> k_sent y = true) /\ (k_waiting y = true -> k_sent y = true) /\ (k_handler y = true -> k_sent y = true).

Lemma invA_calls st cs : invA st -> (forall c i, cs c i = calls st c i \/ succ_rec (calls st c i) (cs c i)) ->
  invA (set_calls st cs).
Proof.
  intros I H.
  assert (CE : calls_ext st (set_calls st cs)).
  { intros c i S. fields. destruct (H c i) as [->|[_ [_ [K [Pl [Sn _]]]]]]; auto. }
  destruct (shapes_ext st _ I CE (raw_ext_refl st) eq_refl eq_refl eq_refl) as [S1 [S2 S3]].
  constructor; fields; try apply I.
  - exact S1.
  - exact S2.
  - exact S3.
  - intros c i L. destruct (a_alloc st I c i L) as [A B]. destruct (H c i) as [->|[_ [A' [K _]]]]; [auto|]. rewrite K. auto.
  - intros c i L. destruct (H c i) as [->|[A _]]; [apply (a_unalloc st I), L|].
    rewrite (a_unalloc st I c i L) in A. discriminate.
  - intros c i g E. destruct (H c i) as [X|[_ [_ [_ [_ [_ [C _]]]]]]]; [rewrite X in *; eapply (a_chan st I), E|].
    apply C. congruence.
  - intros c i. destruct (H c i) as [->|[_ [_ [_ [_ [_ [_ [W _]]]]]]]]; [apply (a_wait st I)|exact W].
  - intros c i. destruct (H c i) as [->|[_ [_ [_ [_ [_ [_ [_ Hh]]]]]]]]; [apply (a_handler st I)|exact Hh].
Qed.

Lemma invA_put_call st c i y : invA st -> succ_rec (calls st c i) y -> invA (put_call st c i y).
Proof.
  intros I S. apply invA_calls; [exact I|]. intros c0 j.
  destruct (upd2_cases (calls st) c i y c0 j) as [[-> [-> ->]]|[_ ->]]; auto.
Qed.

Lemma sent_lt st c i : invA st -> k_sent (calls st c i) = true -> (i < issued st c)%nat.
Proof.
  intros IA S. destruct (Nat.lt_ge_cases i (issued st c)) as [L|G]; [exact L|].
  rewrite (a_unalloc st IA c i G) in S. discriminate.
Qed.
Lemma sent_alloc st c i : invA st -> k_sent (calls st c i) = true -> k_alloc (calls st c i) = true.
Proof. intros IA S. apply (a_alloc st IA), sent_lt; assumption. Qed.

Lemma invA_alloc st c s o a p : invA st -> rawc st c = false ->
  invA (put_call (draw_id st c) c (issued st c) (rec_new (s, o, a, next_id (mid st c)) p)).
Proof.
  intros I Er. set (n := issued st c). set (y := rec_new _ p).
  pose proof (next_call0 st c I) as U. fold n in U.
  match goal with |- invA ?s => assert (CE : calls_ext st s) end.
  { intros c0 j S. fields. destruct (upd2_cases (calls st) c n y c0 j) as [[-> [-> _]]|[_ ->]]; [|auto].
    rewrite U in S. discriminate. }
  destruct (shapes_ext st _ I CE (raw_ext_refl st) eq_refl eq_refl eq_refl) as [S1 [S2 S3]].
  constructor; fields.
  (* the new record has no handler, no queued frame, no waiting caller *)
  8-10: intros c0 j; destruct (upd2_cases (calls st) c n y c0 j) as [[_ [_ ->]]|[_ ->]]; [discriminate|apply I].
  - exact S1.
  - exact S2.
  - exact S3.
  - intro c0. unfold upd. destruct (Nat.eqb_spec c0 c) as [->|]; [|apply I].
    rewrite (a_mid st I), next_id_index. apply id_of_index_mid.
  - intros c0 j. destruct (upd2_cases (calls st) c n y c0 j) as [[-> [-> ->]]|[Ne ->]].
    + intros _. cbn. split; [reflexivity|]. rewrite (a_mid st I). apply next_id_index.
    + intro L. apply (a_alloc st I). revert L. unfold upd. destruct (Nat.eqb_spec c0 c) as [->|]; [|auto].
      assert (j <> n) by congruence. lia.
  - intros c0 j. destruct (upd2_cases (calls st) c n y c0 j) as [[-> [-> _]]|[_ ->]].
    + rewrite fset_eq. lia.
    + intro L. apply (a_unalloc st I). revert L. unfold upd. destruct (Nat.eqb_spec c0 c) as [->|]; lia.
  - intros c0 H. unfold upd. destruct (Nat.eqb_spec c0 c) as [->|]; [congruence|apply (a_rawexcl st I), H].
Qed.

Lemma raw_ext_mark st c ty : raw_ext st (mark_raw st c ty).
Proof.
  split; fields; unfold upd.
  - intros c0 m L. split; [destruct (Nat.eqb_spec c0 c) as [->|]; auto using Nat.lt_lt_succ_r|].
    destruct (upd2_cases (rawty st) c (nraw st c) ty c0 m) as [[-> [-> _]]|[_ ->]]; [|reflexivity].
    now apply Nat.lt_irrefl in L.
  - intros c0 H. destruct (Nat.eqb c0 c); auto.
Qed.

Lemma invA_mark_raw st c ty : invA st -> issued st c = O -> invA (mark_raw st c ty).
Proof.
  intros I E. destruct (shapes_ext st (mark_raw st c ty) I (calls_ext_refl st) (raw_ext_mark st c ty) eq_refl eq_refl eq_refl)
    as [S1 [S2 S3]].
  constructor; fields; try apply I.
  - exact S1.
  - exact S2.
  - exact S3.
  - intros c0. unfold upd. destruct (Nat.eqb_spec c0 c) as [->|]; [intros _; exact E|apply (a_rawexcl st I)].
Qed.

Lemma raw_frame_shape st c ty ky p : req_shape (mark_raw st c ty) c (mk_frame ty ky p (TRaw c (nraw st c))).
Proof.
  unfold req_shape. rewrite f_tag_mk, f_type_mk. split; [reflexivity|]. split; [discriminate|].
  intros m Em. inversion Em; subst m. fields. rewrite fset_eq, upd2_same, fset_eq. split; [lia|auto].
Qed.

Lemma invA_cli st c g q : invA st -> s2c st c = g :: q -> invA (set_calls (pop_s2c st c q) (deliver st c g)).
Proof.
  intros I E. apply invA_calls.
  - apply (invA_frames st); fields; auto. intros c0 g0 H. left. eapply in_upd_tail; eauto.
  - intros c0 i. fields. destruct (deliver_cases st c g c0 i) as [->|[-> [L [Hh ->]]]]; [auto|right].
    apply andb_true_iff in Hh as [Hh _]. pose proof (a_handler st I c i Hh) as S. destruct (a_alloc st I c i L) as [Al _].
    unfold succ_rec. cbn. repeat split; auto.
Qed.

Lemma client_frame_shape st c i ty ky p : k_sent (calls st c i) = true -> ky = k_key (calls st c i) ->
  (ty = T_Call /\ p = k_payload (calls st c i)) \/ ty = T_Cancel -> req_shape st c (mk_frame ty ky p (TCall c i)).
Proof.
  intros S -> T. unfold req_shape. rewrite f_tag_mk, f_type_mk, fkey_mk, f_payload_mk. split; [reflexivity|]. split; [|discriminate].
  intros j Ej. inversion Ej; subst j. auto.
Qed.

Lemma invA_step st l : invA st -> invA (step st l).
Proof.
  intro I. destruct (step_Shape st l).
  - auto.
  - exact (invA_alloc st c s o a p I Er).
  - apply invA_push_c2s.
    + apply invA_put_call; [exact I|]. unfold succ_rec. cbn. auto 10.
    + apply client_frame_shape; fields; rewrite upd2_same; auto.
  - pose proof (a_wait st I c i Ew) as S. pose proof (sent_alloc st c i I S) as Al.
    apply invA_put_call; [exact I|]. unfold succ_rec. cbn. repeat split; auto; congruence.
  - pose proof (a_wait st I c i Ew) as S. pose proof (sent_alloc st c i I S) as Al. apply invA_push_c2s.
    + apply invA_put_call; [exact I|]. unfold succ_rec. cbn. repeat split; auto; discriminate.
    + apply client_frame_shape; fields; rewrite upd2_same; auto.
  - apply invA_push_c2s; [exact (invA_mark_raw st c ty I E0)|apply raw_frame_shape].
  - exact (invA_pop st c g q I E).
  - apply invA_answer; [exact (invA_pop st c g q I E)|exact (head_shape st c g q I E)].
  - apply invA_push_mail; [exact (invA_pop st c g q I E)|exact (head_shape st c g q I E)].
  - exact (invA_take st s o c g r I E).
  - apply invA_answer; [exact (invA_take st s o c g r I E)|exact (mail_shape st s o c g r I E)].
  - exact (invA_bump _ _ (invA_take st s o c g r I E)).
  - apply invA_answer; [exact (invA_bump _ _ (invA_take st s o c g r I E))|exact (mail_shape st s o c g r I E)].
  - exact (invA_cli st c g q I E).
Qed.


Hypothesis Hclean : clean k.

Lemma runs_clean ty : runs k ty = is_cp ty.
Proof. unfold runs. destruct Hclean as [-> _]. now rewrite orb_false_r. Qed.

Definition is_req (t : tag) (g : frame) : bool := tag_eqb (f_tag g) t && is_cp (f_type g).

(* the token of request t: its frame on the way to the server, its mail, or the execution *)
Definition tok (st : state) (t : tag) : nat :=
  (cnt (is_req t) (c2s st (tag_conn t)) + cnt (is_req t) (map snd (mails st)) + ex st t)%nat.
Definition born (st : state) (t : tag) : bool :=
  match t with TCall c i => k_sent (calls st c i) | TRaw c n => Nat.ltb n (nraw st c) end.

Definition invB (st : state) : Prop :=
  (forall t, (tok st t <= 1)%nat) /\
  (forall t, born st t = false -> ex st t = O /\ back st t = O) /\
  (forall c n, (0 < ex st (TRaw c n))%nat -> is_cp (rawty st c n) = true) /\
  (forall c n, rawty st c n = T_Post -> back st (TRaw c n) = O).

Lemma invB_init : invB init.
Proof. repeat split; cbn; intros; lia. Qed.

Lemma is_req_tag t g : is_req t g = true -> f_tag g = t /\ is_cp (f_type g) = true.
Proof. unfold is_req. intro H. apply andb_true_iff in H as [A B]. apply tag_eqb_eq in A. auto. Qed.

Lemma req_born st c g : req_shape st c g -> born st (f_tag g) = true.
Proof.
  intros [Hc [Hcall Hraw]]. destruct (f_tag g) as [c0 i|c0 n]; cbn in Hc; subst c0; cbn.
  - now apply Hcall.
  - now apply Nat.ltb_lt, Hraw.
Qed.

Lemma unborn_tok st t : invA st -> invB st -> born st t = false -> tok st t = O.
Proof.
  intros IA [_ [Unb _]] U.
  assert (N : forall c g, req_shape st c g -> is_req t g = false).
  { intros c g S. apply req_born in S. unfold is_req. destruct (tag_eqb (f_tag g) t) eqn:E; [|reflexivity].
    apply tag_eqb_eq in E. congruence. }
  unfold tok. rewrite !cnt_0, (proj1 (Unb t U)); [reflexivity| |].
  - intros g H. apply in_map_iff in H as [[c g'] [<- H]]. apply (N c), (a_mails st IA), H.
  - intros g H. apply (N (tag_conn t)), (a_c2s st IA), H.
Qed.

Lemma tok_push_c2s st c f t :
  tok (push_c2s st c f) t = (tok st t + if Nat.eqb (tag_conn t) c && is_req t f then 1 else 0)%nat.
Proof.
  unfold tok; fields. unfold upd. destruct (Nat.eqb_spec (tag_conn t) c) as [->|]; cbn [andb]; [|lia].
  rewrite cnt_app. lia.
Qed.
Lemma tok_pop st c g q t : c2s st c = g :: q ->
  tok st t = (tok (pop_c2s st c q) t + if Nat.eqb (tag_conn t) c && is_req t g then 1 else 0)%nat.
Proof.
  intro E. unfold tok; fields. unfold upd. destruct (Nat.eqb_spec (tag_conn t) c) as [->|]; cbn [andb]; [|lia].
  rewrite E, cnt_cons. lia.
Qed.
Lemma tok_push_mail st c g t : tok (push_mail st c g) t = (tok st t + if is_req t g then 1 else 0)%nat.
Proof. unfold tok; fields. rewrite map_app. cbn [map snd]. rewrite cnt_app. lia. Qed.
Lemma tok_take st s o c g r t : take_mail s o (mails st) = Some (c, g, r) ->
  tok st t = (tok (set_mails st r) t + if is_req t g then 1 else 0)%nat.
Proof.
  intro E. destruct (take_mail_spec _ _ _ _ _ _ E) as [l1 [l2 [El [-> _]]]]. unfold tok; fields.
  rewrite El, !map_app. cbn [map snd]. rewrite cnt_split. lia.
Qed.
Lemma tok_bump st t0 t : tok (bump_ex st t0) t = (tok st t + if tag_eqb t0 t then 1 else 0)%nat.
Proof.
  unfold tok; fields. unfold updt. destruct (tag_eqb t t0) eqn:E.
  - apply tag_eqb_eq in E. subst. rewrite tag_eqb_refl. lia.
  - rewrite tag_eqb_neq; [lia|]. intros ->. now rewrite tag_eqb_refl in E.
Qed.

Lemma invB_calls st cs : invB st -> (forall c i, k_sent (cs c i) = false -> k_sent (calls st c i) = false) ->
  invB (set_calls st cs).
Proof.
  intros [Tok [Unb R]] H. split; [exact Tok|]. split; [|exact R]. intros [c i|c n] U; apply Unb; [apply H|]; exact U.
Qed.

Lemma invB_put_call st c i y : invB st -> (k_sent y = false -> k_sent (calls st c i) = false) -> invB (put_call st c i y).
Proof.
  intros IB H. apply invB_calls; [exact IB|]. intros c0 j.
  destruct (upd2_cases (calls st) c i y c0 j) as [[-> [-> ->]]|[_ ->]]; auto.
Qed.

Lemma invB_push_c2s st c f : invB st -> (is_cp (f_type f) = true -> tok st (f_tag f) = O) -> invB (push_c2s st c f).
Proof.
  intros [Tok R] H. split; [|exact R]. intro t. rewrite tok_push_c2s.
  destruct (Nat.eqb (tag_conn t) c && is_req t f) eqn:E; [|rewrite Nat.add_0_r; apply Tok].
  apply andb_true_iff in E as [_ E]. apply is_req_tag in E as [<- Cp]. rewrite (H Cp). lia.
Qed.

Lemma invB_mark_raw st c ty : invB st -> invB (mark_raw st c ty).
Proof.
  intros [Tok [Unb [Excp Post]]].
  destruct (Unb (TRaw c (nraw st c)) (Nat.ltb_irrefl _)) as [Ex0 Bk0]. split; [exact Tok|]. fields. split; [|split].
  - intros [c0 j|c0 m]; cbn [born]; fields; [apply (Unb (TCall c0 j))|].
    unfold upd. destruct (Nat.eqb_spec c0 c) as [->|]; [|apply (Unb (TRaw c0 m))].
    intro L. apply (Unb (TRaw c m)). apply Nat.ltb_ge in L. apply Nat.ltb_ge. lia.
  - intros c0 m. destruct (upd2_cases (rawty st) c (nraw st c) ty c0 m) as [[-> [-> _]]|[_ ->]]; [|apply Excp].
    rewrite Ex0. intro L. inversion L.
  - intros c0 m. destruct (upd2_cases (rawty st) c (nraw st c) ty c0 m) as [[-> [-> _]]|[_ ->]]; [auto|apply Post].
Qed.

Lemma invB_pop st c g q : invB st -> c2s st c = g :: q -> invB (pop_c2s st c q).
Proof. intros [Tok R] E. split; [|exact R]. intro t. pose proof (tok_pop st c g q t E). pose proof (Tok t). lia. Qed.

Lemma invB_take st s o c g r : invB st -> take_mail s o (mails st) = Some (c, g, r) -> invB (set_mails st r).
Proof. intros [Tok R] E. split; [|exact R]. intro t. pose proof (tok_take st s o c g r t E). pose proof (Tok t). lia. Qed.

(* the frame goes from the connection into the mailbox: the token stays *)
Lemma invB_mail st c g q : invB st -> c2s st c = g :: q -> tag_conn (f_tag g) = c -> invB (push_mail (pop_c2s st c q) c g).
Proof.
  intros [Tok R] E Hc. split; [|exact R]. intro t. rewrite tok_push_mail. pose proof (tok_pop st c g q t E) as P.
  pose proof (Tok t). destruct (is_req t g) eqn:Rq; [|lia]. apply is_req_tag in Rq as [<- _].
  rewrite Hc, Nat.eqb_refl in P. cbn [andb] in P. lia.
Qed.

(* the method runs: the token goes from the mailbox into ex *)
Lemma invB_run st s o c g r : invB st -> take_mail s o (mails st) = Some (c, g, r) -> is_cp (f_type g) = true ->
  req_shape st c g -> invB (bump_ex (set_mails st r) (f_tag g)).
Proof.
  intros [Tok [Unb [Excp Post]]] E Cp Hg. pose proof (req_born st c g Hg) as Bg. split; [|split; [|split]]; fields.
  - intro t. rewrite tok_bump. pose proof (tok_take st s o c g r t E) as P. pose proof (Tok t).
    unfold is_req in P. rewrite Cp, andb_true_r in P. lia.
  - intros t U. change (born st t = false) in U. rewrite updt_other by congruence. apply Unb, U.
  - intros c0 n. unfold updt. destruct (tag_eqb (TRaw c0 n) (f_tag g)) eqn:Et; [intros _|apply Excp].
    apply tag_eqb_eq in Et. now rewrite <- (req_rawty st c g c0 n Hg).
  - exact Post.
Qed.

Lemma invB_answer st c g ty p : invB st -> req_shape st c g -> invB (answer st c g ty p).
Proof.
  intros IB Hg. apply answer_cases; [exact IB|intro G]. destruct IB as [Tok [Unb [Excp Post]]].
  pose proof (req_born st c g Hg) as Bg. split; [exact Tok|]. split; [|split; [exact Excp|]]; fields.
  - intros t U. change (born st t = false) in U. rewrite updt_other by congruence. apply Unb, U.
  - intros c0 n Ty. unfold updt. destruct (tag_eqb (TRaw c0 n) (f_tag g)) eqn:Et; [exfalso|apply Post, Ty].
    apply tag_eqb_eq in Et. destruct Hclean as [_ Hpa].
    rewrite (req_rawty st c g c0 n Hg), Ty, Hpa in G; [discriminate G|auto].
Qed.

Lemma invB_step st l : invA st -> invB st -> invB (step st l).
Proof.
  intros IA IB. destruct (step_Shape st l).
  - auto.
  - apply invB_put_call; [exact IB|]. intros _. fields. now rewrite next_call0.
  - apply invB_push_c2s; [apply invB_put_call; auto; discriminate|]. intros _.
    rewrite f_tag_mk. exact (unborn_tok st (TCall c i) IA IB Es).
  - apply invB_put_call; auto.
  - apply invB_push_c2s; [apply invB_put_call; auto|].
    rewrite f_type_mk. discriminate.
  - apply invB_push_c2s; [exact (invB_mark_raw st c ty IB)|]. intros _. rewrite f_tag_mk.
    exact (unborn_tok st (TRaw c (nraw st c)) IA IB (Nat.ltb_irrefl _)).
  - exact (invB_pop st c g q IB E).
  - apply invB_answer; [exact (invB_pop st c g q IB E)|exact (head_shape st c g q IA E)].
  - apply invB_mail; [exact IB|exact E|apply (head_shape st c g q IA E)].
  - exact (invB_take st s o c g r IB E).
  - apply invB_answer; [exact (invB_take st s o c g r IB E)|exact (mail_shape st s o c g r IA E)].
  - rewrite runs_clean in Er. exact (invB_run st s o c g r IB E Er (mail_shape st s o c g r IA E)).
  - rewrite runs_clean in Er. pose proof (mail_shape st s o c g r IA E) as Hg.
    apply invB_answer; [exact (invB_run st s o c g r IB E Er Hg)|exact Hg].
  - apply (invB_calls (pop_s2c st c q)); [exact IB|]. intros c0 j. fields.
    destruct (deliver_cases st c g c0 j) as [->|[-> [_ [_ ->]]]]; auto.
Qed.


Definition bounded (st : state) : Prop := forall c, N.of_nat (issued st c) <= 2 ^ 31.

(* a handler that a frame from the server hits belongs to the call the frame answers: equal keys give
   equal ids, and below 2^31 calls the ids of a client are distinct *)
Lemma hit_is_own st c i g : invA st -> bounded st -> In g (s2c st c) -> (i < issued st c)%nat ->
  hit (calls st c i) g = true -> f_tag g = TCall c i.
Proof.
  intros IA Bd Hin Li Hh. unfold hit in Hh. apply andb_true_iff in Hh as [_ Hk]. apply key_eqb_eq in Hk.
  destruct (a_s2c st IA c g Hin) as [Hc [Hcall Hraw]].
  destruct (f_tag g) as [c0 j|c0 n] eqn:Et; cbn in Hc; subst c0.
  - destruct (Hcall j eq_refl) as [Sj Kj]. pose proof (sent_lt st c j IA Sj) as Lj.
    destruct (a_alloc st IA c i Li) as [_ Ii]. destruct (a_alloc st IA c j Lj) as [_ Ij].
    assert (E : id_of_index i = id_of_index j) by congruence.
    pose proof (Bd c) as B. apply id_of_index_inj in E; [congruence|lia|lia].
  - pose proof (a_rawexcl st IA c (Hraw n eq_refl)). lia.
Qed.

(* so the frame matches the handler of at most one call of the client *)
Theorem dispatch_unique st c i j g : invA st -> bounded st -> In g (s2c st c) ->
  (i < issued st c)%nat -> (j < issued st c)%nat ->
  hit (calls st c i) g = true -> hit (calls st c j) g = true -> i = j.
Proof.
  intros IA Bd Hin Li Lj Hi Hj.
  pose proof (hit_is_own st c i g IA Bd Hin Li Hi) as Ei. pose proof (hit_is_own st c j g IA Bd Hin Lj Hj) as Ej.
  congruence.
Qed.

(* p is what the method returns for call (c, i), and the method has run once; a Reply has to carry such a p *)
Definition good (st : state) (c i : nat) (p : bytes) : Prop :=
  p = expected (calls st c i) /\ ex st (TCall c i) = 1%nat.
Definition good_resp (st : state) (c i : nat) (g : frame) : Prop := f_type g = T_Reply -> good st c i (f_payload g).

Definition invC (st : state) : Prop :=
  (forall c g i, In g (s2c st c) -> f_tag g = TCall c i -> good_resp st c i g) /\
  (forall c i g, k_chan (calls st c i) = Some g -> good_resp st c i g) /\
  (forall c i p, k_result (calls st c i) = Some (ROk p) -> good st c i p).

Lemma invC_init : invC init.
Proof. repeat split; cbn in *; try tauto; discriminate. Qed.

Lemma invC_ext st st' : invC st ->
  (forall c i p, good st c i p -> good st' c i p) ->
  (forall c g i, In g (s2c st' c) -> f_tag g = TCall c i -> In g (s2c st c) \/ good_resp st' c i g) ->
  (forall c i g, k_chan (calls st' c i) = Some g ->
     k_chan (calls st c i) = Some g \/ good_resp st' c i g) ->
  (forall c i p, k_result (calls st' c i) = Some (ROk p) -> k_result (calls st c i) = Some (ROk p) \/ good st' c i p) ->
  invC st'.
Proof.
  intros [Cs [Cc Cr]] G Hs Hc Hr. split; [|split].
  - intros c g i H T. destruct (Hs c g i H T) as [H'|H']; [|exact H']. intro Ty. apply G, (Cs c g i H' T Ty).
  - intros c i g H. destruct (Hc c i g H) as [H'|H']; [|exact H']. intro Ty. apply G, (Cc c i g H'), Ty.
  - intros c i p H. destruct (Hr c i p H) as [H'|H']; [|exact H']. apply G, Cr, H'.
Qed.

Lemma invC_put_call st c i y : invC st ->
  (forall p, good st c i p -> p = expected y) ->
  (forall g, k_chan y = Some g -> k_chan (calls st c i) = Some g) ->
  (forall p, k_result y = Some (ROk p) -> k_result (calls st c i) = Some (ROk p) \/ good st c i p) ->
  invC (put_call st c i y).
Proof.
  intros I Hg Hc Hr.
  assert (G : forall c0 j p, good st c0 j p -> good (put_call st c i y) c0 j p).
  { intros c0 j p X. split; [|exact (proj2 X)]. fields.
    destruct (upd2_cases (calls st) c i y c0 j) as [[-> [-> ->]]|[_ ->]]; [exact (Hg p X)|exact (proj1 X)]. }
  apply (invC_ext st _ I G); fields; auto; intros c0 j;
    destruct (upd2_cases (calls st) c i y c0 j) as [[-> [-> ->]]|[_ ->]]; auto.
  intros p H. destruct (Hr p H); auto.
Qed.

Lemma invC_answer_err st c g p : invC st -> invC (answer st c g T_Error p).
Proof.
  intro I. apply answer_cases; [exact I|intros _]. apply (invC_ext st); fields; auto.
  intros c0 g0 j H T. apply in_upd_snoc in H as [H|[_ ->]]; [auto|right]. intro Ty.
  rewrite f_type_mk in Ty. discriminate.
Qed.

Lemma invC_bump st t : invC st -> ex st t = O -> invC (bump_ex st t).
Proof.
  intros I E0. apply (invC_ext st); fields; auto. intros c i p [E X]. split; [exact E|]. fields.
  rewrite updt_other; [exact X|]. intros <-. rewrite X in E0. discriminate.
Qed.

Lemma invC_reply st c g p : invC st -> (forall i, f_tag g = TCall c i -> good st c i p) -> invC (answer st c g T_Reply p).
Proof.
  intros I H. apply answer_cases; [exact I|intros _]. apply (invC_ext st); fields; auto.
  intros c0 g0 j Hin T. apply in_upd_snoc in Hin as [Hin|[-> ->]]; [auto|right]. intros _.
  rewrite f_payload_mk. apply H. now rewrite <- T, f_tag_mk.
Qed.

Lemma result_of_ok g p : result_of g = ROk p -> f_type g = T_Reply /\ p = f_payload g.
Proof.
  unfold result_of. destruct (N.eqb_spec (f_type g) T_Reply); [intro H; inversion H; auto|].
  destruct (f_type g =? T_Error); [discriminate|]. destruct (f_type g =? T_Cancelled); discriminate.
Qed.

Lemma mail_not_run st c g : invB st -> In (c, g) (mails st) -> is_cp (f_type g) = true -> ex st (f_tag g) = O.
Proof.
  intros [Tok _] Hin Cp. pose proof (Tok (f_tag g)) as T. unfold tok in T.
  assert (0 < cnt (is_req (f_tag g)) (map snd (mails st)))%nat; [|lia].
  apply (cnt_in_pos _ _ g); [exact (in_map snd _ _ Hin)|]. unfold is_req. now rewrite tag_eqb_refl.
Qed.

Lemma invC_step st l : invA st -> invB st -> bounded st -> invC st -> invC (step st l).
Proof.
  intros IA IB Bd I. pose proof I as [Cs [Cc _]]. destruct (step_Shape st l).
  (* writing a raw frame, dropping, refusing or filing a request changes neither calls, ex nor the Replies in s2c *)
  1,6-11: try apply invC_answer_err; exact I.
  - (* alloc: the record replaced belongs to a call that is not sent, so nothing refers to it *)
    destruct IB as [_ [Unb _]].
    destruct (Unb (TCall c (issued st c))) as [Ex0 _]; [cbn; now rewrite next_call0|].
    apply (invC_put_call (draw_id st c)); [exact I| |discriminate|discriminate].
    intros p0 [_ X]. discriminate (eq_trans (eq_sym Ex0) X).
  - apply (invC_put_call st c i (rec_sent x)); cbn; auto; [now intros p [E _]|discriminate].
  - apply (invC_put_call st c i); cbn; auto; [now intros p [E _]|discriminate|].
    intros p H. inversion H as [R]. apply result_of_ok in R as [Ty ->]. right. apply (Cc c i g Ec), Ty.
  - apply (invC_put_call st c i (rec_done x (k_chan x) RCancelled)); cbn; auto; [now intros p [E _]|discriminate].
  - rewrite runs_clean in Er. apply invC_bump; [exact I|].
    exact (mail_not_run st c g IB (take_mail_in _ _ _ _ _ _ E) Er).
  - rewrite runs_clean in Er. pose proof (take_mail_in _ _ _ _ _ _ E) as Hin.
    pose proof (mail_not_run st c g IB Hin Er) as Ex0.
    assert (I2 : invC (bump_ex (set_mails st r) (f_tag g))) by (apply invC_bump; assumption).
    destruct Hty as [->|[-> ->]]; [apply invC_answer_err, I2|]. apply invC_reply; [exact I2|].
    (* the mail of a call carries its key and payload; a Cancel frame would not have run *)
    intros j T. destruct (mail_shape st s o c g r IA E) as [_ [Hcall _]]. destruct (Hcall j T) as [_ [Kk [[_ Pp]|Tc]]].
    + split; fields; [|rewrite <- T, updt_same, Ex0; reflexivity]. unfold expected. rewrite <- Kk, <- Pp. reflexivity.
    + rewrite Tc in Er. discriminate.
  - (* cli: a handler that is hit belongs to the call the frame answers *)
    assert (Hin : In g (s2c st c)) by (rewrite E; left; reflexivity).
    assert (G : forall c0 j p, good st c0 j p -> good (set_calls (pop_s2c st c q) (deliver st c g)) c0 j p).
    { intros c0 j p [X Y]. split; [|exact Y]. fields. destruct (deliver_cases st c g c0 j) as [->|[-> [_ [_ ->]]]]; exact X. }
    apply (invC_ext st _ I G); fields.
    + intros c0 g0 j H _. left. eapply in_upd_tail; eauto.
    + intros c0 j g0. destruct (deliver_cases st c g c0 j) as [->|[-> [Lj [Hh ->]]]]; [auto|]. cbn [delivered k_chan].
      destruct (k_chan (calls st c j)); [auto|]. intro H. inversion H; subst g0. right.
      intro Ty. apply G, (Cs c g j Hin (hit_is_own st c j g IA Bd Hin Lj Hh) Ty).
    + intros c0 j p. destruct (deliver_cases st c g c0 j) as [->|[-> [_ [_ ->]]]]; auto.
Qed.


(* the return bookkeeping of one call: at most one return, exactly one once it is sent and no longer waits *)
Definition okD (x : callst) : Prop :=
  (k_returns x <= 1)%nat /\ (k_waiting x = true -> k_returns x = O) /\
  (k_sent x = false -> k_returns x = O) /\
  (k_sent x = true -> k_waiting x = false -> k_returns x = 1%nat) /\
  (k_returns x = O -> k_result x = None).
(* invD reads nothing but the calls table: a state with the table of st satisfies it by conversion *)
Definition invD (st : state) : Prop := forall c i, okD (calls st c i).

Lemma invD_init : invD init.
Proof. intros c i. cbn. repeat split; auto; discriminate. Qed.

Lemma invD_put_call st c i y : invD st -> okD y -> invD (put_call st c i y).
Proof. intros I H c0 j. fields. destruct (upd2_cases (calls st) c i y c0 j) as [[_ [_ ->]]|[_ ->]]; auto. Qed.

Lemma okD_sent x : okD x -> k_sent x = false -> okD (rec_sent x).
Proof. intros [_ [_ [U [_ Res]]]] Es. pose proof (U Es) as R. unfold okD. cbn. rewrite R, (Res R). repeat split; auto; discriminate. Qed.

Lemma okD_done x ch r : okD x -> k_waiting x = true -> k_sent x = true -> okD (rec_done x ch r).
Proof. intros [_ [W _]] Ew Es. unfold okD. cbn. rewrite (W Ew), Es. repeat split; auto; discriminate. Qed.

Lemma invD_answer st c g ty p : invD st -> invD (answer st c g ty p).
Proof. intro I. apply answer_cases; intros; exact I. Qed.

Lemma invD_step st l : invA st -> invD st -> invD (step st l).
Proof.
  intros IA I. destruct (step_Shape st l).
  (* only the client's own steps and its dispatch touch the calls table *)
  1,6-13: try apply invD_answer; exact I.
  - apply (invD_put_call (draw_id st c)); [exact I|]. cbn. repeat split; auto; discriminate.
  - apply (invD_put_call st c i (rec_sent x) I), okD_sent; [apply I|exact Es].
  - apply (invD_put_call st c i _ I), okD_done; [apply I|exact Ew|apply (a_wait st IA), Ew].
  - apply (invD_put_call st c i _ I), okD_done; [apply I|exact Ew|apply (a_wait st IA), Ew].
  - intros c0 j. fields. destruct (deliver_cases st c g c0 j) as [->|[-> [_ [_ ->]]]]; apply I.
Qed.


Definition is_callframe (t : tag) (g : frame) : bool := tag_eqb (f_tag g) t && (f_type g =? T_Call).

Definition in_flight (st : state) (c i : nat) : Prop :=
  (exists g, In g (c2s st c) /\ is_callframe (TCall c i) g = true) \/
  (exists g, In (c, g) (mails st) /\ is_callframe (TCall c i) g = true) \/
  (exists g, In g (s2c st c) /\ f_tag g = TCall c i).

Hypothesis Hcallpass : filter_pass T_Call = true.   (* the filter lets Call frames through *)

Definition invE (st : state) : Prop :=
  forall c i, k_waiting (calls st c i) = true -> k_chan (calls st c i) = None ->
    k_handler (calls st c i) = true /\ in_flight st c i.

Lemma invE_init : invE init.
Proof. intros c i H. cbn in H. discriminate. Qed.

Lemma in_flight_mono st st' c i : in_flight st c i ->
  (forall g, In g (c2s st c) -> In g (c2s st' c)) -> (forall g, In (c, g) (mails st) -> In (c, g) (mails st')) ->
  (forall g, In g (s2c st c) -> In g (s2c st' c)) -> in_flight st' c i.
Proof.
  intros [[g [A B]]|[[g [A B]]|[g [A B]]]] H1 H2 H3.
  - left. exists g. auto.
  - right; left. exists g. auto.
  - right; right. exists g. auto.
Qed.

Lemma callframe_type t g : is_callframe t g = true -> f_tag g = t /\ f_type g = T_Call.
Proof. unfold is_callframe. intro H. apply andb_true_iff in H as [A B]. apply tag_eqb_eq in A. apply N.eqb_eq in B. auto. Qed.

Lemma in_flight_push st c f c0 j : in_flight st c0 j -> in_flight (push_c2s st c f) c0 j.
Proof. intro F. apply (in_flight_mono st); fields; auto. intro g. apply in_upd_grow. Qed.

(* the client side: nothing leaves the queues; the one record that changes stops waiting, or is the
   new call whose request has just been written *)
Lemma invE_put st st' c i y : invE st -> calls st' = upd2 (calls st) c i y ->
  (forall c0 j, in_flight st c0 j -> in_flight st' c0 j) ->
  k_waiting y = false \/ (k_handler y = true /\ in_flight st' c i) -> invE st'.
Proof.
  intros I Ec M H c0 j. rewrite Ec. destruct (upd2_cases (calls st) c i y c0 j) as [[-> [-> ->]]|[_ ->]]; intros W Ch.
  - destruct H as [H|H]; [congruence|exact H].
  - destruct (I c0 j W Ch). auto.
Qed.

(* the server side: one frame g is taken out of a queue (leaving st1) and then settled: whatever else
   was in flight stays so, and g itself stays in flight if it is the Call frame of a call *)
Definition settles (st1 st' : state) (c : nat) (g : frame) : Prop :=
  calls st' = calls st1 /\ (forall c0 i, in_flight st1 c0 i -> in_flight st' c0 i) /\
  (forall i, is_callframe (TCall c i) g = true -> in_flight st' c i).

Lemma invE_serve st st1 st' c g : invE st -> calls st1 = calls st ->
  (forall c0 i, in_flight st c0 i -> in_flight st1 c0 i \/ (c0 = c /\ is_callframe (TCall c i) g = true)) ->
  settles st1 st' c g -> invE st'.
Proof.
  intros I E1 H1 [Ec [H2 H3]] c0 i W Ch. rewrite Ec, E1 in *. destruct (I c0 i W Ch) as [A B]. split; [exact A|].
  destruct (H1 c0 i B) as [B1|[-> Cg]]; auto.
Qed.

Lemma invE_popped st st' c g q : invE st -> c2s st c = g :: q -> settles (pop_c2s st c q) st' c g -> invE st'.
Proof.
  intros I E. apply (invE_serve st (pop_c2s st c q) st' c g I eq_refl).
  intros c0 i [[x [X Y]]|[F|F]]; [|left; right; left; exact F|left; right; right; exact F].
  destruct (Nat.eq_dec c0 c) as [->|Nc].
  - rewrite E in X. destruct X as [<-|X]; [right; auto|]. left. left. exists x. fields. rewrite fset_eq. auto.
  - left. left. exists x. fields. rewrite fset_neq by exact Nc. auto.
Qed.

Lemma invE_taken st st' s o c g r : invE st -> take_mail s o (mails st) = Some (c, g, r) ->
  settles (set_mails st r) st' c g -> invE st'.
Proof.
  intros I E. apply (invE_serve st (set_mails st r) st' c g I eq_refl).
  intros c0 i [F|[[x [X Y]]|F]]; [left; left; exact F| |left; right; right; exact F].
  destruct (take_mail_spec _ _ _ _ _ _ E) as [l1 [l2 [El [-> _]]]]. rewrite El in X. apply in_elt_inv in X as [X'|X'].
  - inversion X'; subst. right. auto.
  - left. right. left. exists x. auto.
Qed.

(* a frame that is not a Call may be dropped; any frame may be answered (a Call is answered even if
   Posts are not) or filed in a mailbox *)
Lemma settles_drop st1 c g : f_type g <> T_Call -> settles st1 st1 c g.
Proof. intro N. split; [reflexivity|]. split; [auto|]. intros i Cg. now apply callframe_type in Cg. Qed.

Lemma settles_answer st1 c g ty p : settles st1 (answer st1 c g ty p) c g.
Proof.
  split; [apply answer_cases; reflexivity|]. split.
  - intros c0 i F. apply answer_cases; [exact F|intros _]. apply (in_flight_mono st1); fields; auto. intros x. apply in_upd_grow.
  - intros i Cg. apply callframe_type in Cg as [Tg Ty]. unfold Call.answer. rewrite Ty. cbn [N.eqb Pos.eqb T_Call T_Post andb].
    right; right. exists (mk_frame ty (fkey g) p (f_tag g)). fields. rewrite fset_eq, in_snoc, f_tag_mk. auto.
Qed.

Lemma settles_mail st1 c g : settles st1 (push_mail st1 c g) c g.
Proof.
  split; [reflexivity|]. split.
  - intros c0 i F. apply (in_flight_mono st1); fields; auto. intros x H. apply in_snoc. auto.
  - intros i Cg. right; left. exists g. fields. rewrite in_snoc. auto.
Qed.

Lemma invE_step st l : invA st -> invE st -> invE (step st l).
Proof.
  intros IA I. destruct (step_Shape st l).
  - auto.
  - apply (invE_put st _ c (issued st c) (rec_new (s, o, a, next_id (mid st c)) p) I); auto.
  - apply (invE_put st _ c i (rec_sent x) I); [reflexivity|intros; now apply in_flight_push|].
    right. split; [reflexivity|]. left. exists (mk_frame T_Call (k_key x) (k_payload x) (TCall c i)). fields.
    rewrite fset_eq, in_snoc. split; [auto|]. unfold is_callframe. now rewrite f_tag_mk, f_type_mk, tag_eqb_refl.
  - apply (invE_put st _ c i (rec_done x None (result_of g)) I); auto.
  - apply (invE_put st _ c i (rec_done x (k_chan x) RCancelled) I); auto.
    intros; now apply in_flight_push.
  - intros c0 j W Ch. destruct (I c0 j W Ch) as [A B]. split; [exact A|]. now apply in_flight_push.
  - apply (invE_popped st _ c g q I E), settles_drop. intro Ty. rewrite Ty, Hcallpass in G. now destruct G.
  - exact (invE_popped st _ c g q I E (settles_answer _ c g _ _)).
  - exact (invE_popped st _ c g q I E (settles_mail _ c g)).
  - apply (invE_taken st _ s o c g r I E), settles_drop. intro Ty. rewrite Ty in Er. discriminate.
  - exact (invE_taken st _ s o c g r I E (settles_answer _ c g _ _)).
  - refine (invE_taken st _ s o c g r I E (settles_drop (set_mails st r) c g _)). rewrite Ep. discriminate.
  - exact (invE_taken st _ s o c g r I E (settles_answer (bump_ex (set_mails st r) (f_tag g)) c g ty p)).
  - (* cli: the frame taken from s2c, if it is the answer of a waiting call, is handed to that call *)
    assert (Hin : In g (s2c st c)) by (rewrite E; left; reflexivity).
    intros c0 j. fields. unfold deliver. destruct (_ && _) eqn:Eh; [cbn; destruct (k_chan (calls st c0 j)); discriminate|].
    intros W Ch. destruct (I c0 j W Ch) as [A [F|[F|[x [X Y]]]]]; (split; [exact A|]); [left; exact F|right; left; exact F|].
    right; right. exists x. split; [|exact Y]. fields. destruct (Nat.eq_dec c0 c) as [->|Nc]; [|now rewrite fset_neq].
    rewrite fset_eq. rewrite E in X. destruct X as [<-|X]; [exfalso|exact X].
    pose proof (sent_lt st c j IA (a_wait st IA c j W)) as Lj. apply Nat.ltb_lt in Lj.
    destruct (a_s2c st IA c g Hin) as [_ [Hcall _]]. destruct (Hcall j Y) as [_ Kk].
    unfold hit in Eh. rewrite Nat.eqb_refl, Lj, A, Kk in Eh. cbn [andb] in Eh.
    now rewrite (proj2 (key_eqb_eq _ _) eq_refl) in Eh.
Qed.


Lemma issued_step st l c0 : (issued st c0 <= issued (step st l) c0 <= S (issued st c0))%nat.
Proof.
  assert (R : (issued st c0 <= issued st c0 <= S (issued st c0))%nat) by lia.
  destruct (step_Shape st l); try (try (apply answer_cases; intros); exact R).
  fields. unfold upd. destruct (Nat.eqb_spec c0 c); subst; lia.
Qed.

Definition inv (st : state) : Prop := invA st /\ invB st /\ invC st /\ invD st.

Lemma inv_init : inv init.
Proof. split; [apply invA_init|]. split; [apply invB_init|]. split; [apply invC_init|apply invD_init]. Qed.

Lemma inv_step st l : inv st -> bounded st -> inv (step st l).
Proof.
  intros [IA [IB [IC ID]]] Bd.
  split; [exact (invA_step st l IA)|]. split; [exact (invB_step st l IA IB)|].
  split; [exact (invC_step st l IA IB Bd IC)|exact (invD_step st l IA ID)].
Qed.

Lemma exec_invariant (P : state -> Prop) : (forall st l, P st -> P (step st l)) -> forall ls st, P st -> P (exec st ls).
Proof. intros H ls. induction ls as [|l r IH]; intros st I; cbn [Call.exec]; auto. Qed.

(* a step never lowers issued, so "bounded -> inv" is kept by every step *)
Lemma inv_exec ls st : inv st -> bounded (exec st ls) -> inv (exec st ls).
Proof.
  intro I. apply (exec_invariant (fun s => bounded s -> inv s)); [|auto].
  intros s l H Bd. apply inv_step; [apply H|]; intro c; pose proof (Bd c); pose proof (issued_step s l c); lia.
Qed.

(* layers A, D and E need neither the clean configuration nor the bound on the ids *)
Lemma inv_ADE_exec ls : let st := exec init ls in invA st /\ invD st /\ invE st.
Proof.
  apply (exec_invariant (fun s => invA s /\ invD s /\ invE s)); [|split; [apply invA_init|split; [apply invD_init|apply invE_init]]].
  intros s l [IA [ID IE]]. split; [|split]; [apply invA_step|apply invD_step|apply invE_step]; assumption.
Qed.

(* the only step that changes an execution counter is the mailbox goroutine
   handling a mail whose frame type runs the method; it adds exactly one, to that mail's tag *)
Theorem mailbox_once : forall st l t,
  ex (step st l) t = ex st t \/
  exists s o c g r, l = LMbox s o /\ take_mail s o (mails st) = Some (c, g, r) /\ t = f_tag g /\
                    runs k (f_type g) = true /\ ex (step st l) t = S (ex st t).
Proof.
  intros st l t.
  set (P := fun l s' => ex s' t = ex st t \/
     exists s o c g r, l = LMbox s o /\ take_mail s o (mails st) = Some (c, g, r) /\ t = f_tag g /\
                       runs k (f_type g) = true /\ ex s' t = S (ex st t)).
  assert (Run : forall s o c g r, take_mail s o (mails st) = Some (c, g, r) -> runs k (f_type g) = true ->
                P (LMbox s o) (bump_ex (set_mails st r) (f_tag g))).
  { intros s o c g r E Er. unfold P; fields. unfold updt. destruct (tag_eqb t (f_tag g)) eqn:Et; [right|left; reflexivity].
    apply tag_eqb_eq in Et. subst t. exists s, o, c, g, r. auto. }
  change (P l (step st l)). destruct (step_Shape st l); try (left; try (apply answer_cases; intros); reflexivity).
  - exact (Run s o c g r E Er).
  - apply answer_cases; intros; exact (Run s o c g r E Er).
Qed.

Theorem inv_outcome st : inv st ->
  (* calls of the modelled clients *)
  (forall c i,
     (k_returns (calls st c i) <= 1)%nat /\
     (forall p, k_result (calls st c i) = Some (ROk p) ->
                p = expected (calls st c i) /\ ex st (TCall c i) = 1%nat) /\
     (ex st (TCall c i) <= 1)%nat /\
     (k_result (calls st c i) <> None -> k_returns (calls st c i) = 1%nat)) /\
  (* frames written by other peers: Call and Post run the method at most once, a Post is never
     answered, the other six types never run a method *)
  (forall c n,
     (ex st (TRaw c n) <= 1)%nat /\
     (rawty st c n = T_Post -> back st (TRaw c n) = O) /\
     (is_cp (rawty st c n) = false -> ex st (TRaw c n) = O)).
Proof.
  intros [IA [[Tok [_ [Excp Post]]] [[_ [_ Cr]] ID]]].
  assert (Ex1 : forall t, (ex st t <= 1)%nat) by (intro t; pose proof (Tok t) as T; unfold tok in T; lia).
  split.
  - intros c i. destruct (ID c i) as [Ret [_ [_ [_ Res]]]]. split; [exact Ret|]. split; [apply Cr|]. split; [apply Ex1|].
    intro H. destruct (k_returns (calls st c i)) as [|[|n]]; [|reflexivity|lia]. exfalso. now apply H, Res.
  - intros c n. split; [apply Ex1|]. split; [apply Post|].
    intro H. destruct (ex st (TRaw c n)) eqn:E; [reflexivity|].
    assert (P : (0 < ex st (TRaw c n))%nat) by lia. apply Excp in P. congruence.
Qed.

(* exactly one outcome: once the queues of a connection and the mailboxes hold nothing of it, every
   call sent on it has returned exactly once or its answer sits in its handler's queue (LReturn is
   enabled and makes it return) *)
Theorem drained_outcome st : invD st -> invE st ->
  forall c i, k_sent (calls st c i) = true ->
    c2s st c = [] -> (forall g, ~ In (c, g) (mails st)) -> s2c st c = [] ->
    k_returns (calls st c i) = 1%nat \/
    (k_returns (calls st c i) = O /\ k_waiting (calls st c i) = true /\ exists g, k_chan (calls st c i) = Some g).
Proof.
  intros ID IE c i Hs E1 E2 E3. destruct (ID c i) as [_ [Wt [_ [Snt _]]]].
  destruct (k_waiting (calls st c i)) eqn:W; [|left; now apply Snt].
  right. split; [now apply Wt|]. split; [reflexivity|].
  destruct (k_chan (calls st c i)) as [g|] eqn:Ch; [now exists g|exfalso].
  destruct (IE c i W Ch) as [_ [[g [X _]]|[[g [X _]]|[g [X _]]]]].
  - rewrite E1 in X. destruct X.
  - apply (E2 g X).
  - rewrite E3 in X. destruct X.
Qed.

Lemma issued_le_length ls : forall st c, (issued (exec st ls) c <= issued st c + List.length ls)%nat.
Proof.
  induction ls as [|l r IH]; intros st c; cbn [Call.exec List.length]; [lia|].
  pose proof (IH (step st l) c). pose proof (issued_step st l c). lia.
Qed.

(* a schedule of fewer than 2^31 labels cannot exhaust the id space *)
Lemma bounded_short ls : N.of_nat (List.length ls) <= 2 ^ 31 -> bounded (exec init ls).
Proof. intros H c. pose proof (issued_le_length ls init c) as L. cbn [issued init] in L. lia. Qed.

End Proofs.
