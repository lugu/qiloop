(* SignalsProofs.v — what property C13 says about a state of the LTS of Signals.v, and witness runs:
   the refutations of the pinned behaviours and a run of the repaired model. *)
From QV Require Import Signals.
Local Open Scope N_scope.


(* every emission taken for a live subscriber's connection is either read, or queued at its
   handler, or still on its way to the connection: nothing lost, duplicated, reordered, foreign *)
Definition delivery_ok (st : state) (x : sub) : Prop :=
  live (s_pc x) = true ->
  s_got x ++ s_queue x ++ inflight st (s_conn x) (s_sig x) = s_skip x ++ s_all x.
(* ... and what it has read is always a prefix of that sequence *)
Definition prefix_ok (x : sub) : Prop := exists rest, s_got x ++ rest = s_skip x ++ s_all x.
(* the emissions of the window (acknowledgement .. cancel request) are all part of it, contiguously *)
Definition window_ok (x : sub) : Prop :=
  s_ackd x = true -> exists post, s_all x = s_pre x ++ s_win x ++ post /\ (s_pc x = PAcked -> post = []).

(* no event of a registration after the answer that acknowledged its removal, per connection *)
Fixpoint no_event_after_ack (gone : list N) (log : list (dframe * option N)) : bool :=
  match log with
  | [] => true
  | (DEvent _ m _, _) :: r => negb (existsb (N.eqb m) gone) && no_event_after_ack gone r
  | (DReply _ _, Some m) :: r => no_event_after_ack (m :: gone) r
  | _ :: r => no_event_after_ack gone r
  end.

Definition with_switch (u s r d : bool) : scfg :=
  {| uid_global := u; snapshot_send := s; sub_unserialised := r; dup_relock := d |}.

(* A witness run is evaluated once, into the few values the statement reads off its end state;
   the end state itself (closures over every connection) never appears in a proof term. *)
Lemma run_observed {A} g tr (obs : state -> A) a :
  option_map obs (run g init tr) = Some a -> exists st, run g init tr = Some st /\ obs st = a.
Proof. destruct (run g init tr) as [st|]; [|discriminate]. intros [= E]. now exists st. Qed.

Definition sub_obs (st : state) (i : nat) :=
  option_map (fun x => (s_pc x, s_win x, s_got x, s_queue x, inflight st (s_conn x) (s_sig x))) (nth_error (subs st) i).
Lemma sub_obs_some st i p w g q f : sub_obs st i = Some (p, w, g, q, f) ->
  exists x, nth_error (subs st) i = Some x /\ s_pc x = p /\ s_win x = w /\ s_got x = g /\ s_queue x = q /\
    inflight st (s_conn x) (s_sig x) = f.
Proof. unfold sub_obs. destruct (nth_error (subs st) i) as [x|]; [|discriminate]. intros [= <- <- <- <- <-]. now exists x. Qed.

(* a second subscriber is acknowledged while the first one's registerEvent call is still in
   flight; an emission inside its window is neither read nor on its way when everything is idle *)
Definition tr17 : list label :=
  [LInstall 0 200; LCount 0; LSendReg 0 1; LInstall 0 200; LCount 1; LEmitSnap 200 11;
   LMbox 0; LReply; LCliRecv 0].
Lemma refuted_sub_unserialised :
  exists st x, run (with_switch false false true false) init tr17 = Some st /\
    quiescent (with_switch false false true false) st = true /\
    nth_error (subs st) 1 = Some x /\ s_pc x = PAcked /\ s_win x = [11] /\
    s_got x = [] /\ s_queue x = [] /\ inflight st (s_conn x) (s_sig x) = [].
Proof.
  destruct (run_observed (with_switch false false true false) tr17
              (fun st => (quiescent (with_switch false false true false) st, sub_obs st 1))
              (true, Some (PAcked, [11], [], [], []))) as (st & R & [= Q E]); [vm_compute; reflexivity|].
  destruct (sub_obs_some _ _ _ _ _ _ _ E) as (x & H). exists st, x. exact (conj R (conj Q H)).
Qed.

(* the emitter's snapshot still holds a registration whose removal has been acknowledged *)
Definition tr16 : list label :=
  [LInstall 0 200; LCount 0; LSendReg 0 1; LMbox 0; LReply; LCliRecv 0;
   LInstall 1 200; LCount 1; LSendReg 1 2; LMbox 1; LReply; LCliRecv 1;
   LEmitSnap 200 21; LCancel 1; LSendUnreg 1; LMbox 1; LReply; LCliRecv 1; LFanClose 1;
   LEmitSend; LEmitSend; LCliRecv 0; LDeliver 0; LCliRecv 1].
Lemma refuted_snapshot_send :
  exists st, run (with_switch false true false false) init tr16 = Some st /\
    quiescent (with_switch false true false false) st = true /\
    no_event_after_ack [] (dlog st 1%nat) = false.
Proof.
  destruct (run_observed (with_switch false true false false) tr16
              (fun st => (quiescent (with_switch false true false false) st, no_event_after_ack [] (dlog st 1%nat)))
              (true, false)) as (st & R & [= Q E]); [vm_compute; reflexivity|].
  exists st. exact (conj R (conj Q E)).
Qed.

(* two clients draw the same handler id: the second subscription is refused ... *)
Definition tr15 : list label :=
  [LInstall 0 200; LCount 0; LSendReg 0 7; LMbox 0; LReply; LCliRecv 0;
   LInstall 1 200; LCount 1; LSendReg 1 7; LMbox 1].
Lemma refuted_uid_global :
  exists st x, run (with_switch true false false false) init (tr15 ++ [LReply; LCliRecv 1]) = Some st /\
    quiescent (with_switch true false false false) st = true /\
    nth_error (subs st) 1 = Some x /\ s_pc x = PFailed.
Proof.
  destruct (run_observed (with_switch true false false false) (tr15 ++ [LReply; LCliRecv 1])
              (fun st => (quiescent (with_switch true false false false) st, sub_obs st 1))
              (true, Some (PFailed, [], [], [], []))) as (st & R & [= Q E]); [vm_compute; reflexivity|].
  destruct (sub_obs_some _ _ _ _ _ _ _ E) as (x & H1 & H2 & _). exists st, x. exact (conj R (conj Q (conj H1 H2))).
Qed.
(* ... and with the pinned duplicate handling the object's mailbox goroutine deadlocks, the first
   subscriber silently loses its registration and an emission of its window *)
Lemma refuted_uid_global_relock :
  exists st x, run (with_switch true false false true) init (tr15 ++ [LEmitSnap 200 31]) = Some st /\
    quiescent (with_switch true false false true) st = true /\ dead st = true /\
    nth_error (subs st) 0 = Some x /\ s_pc x = PAcked /\ s_win x = [31] /\
    s_got x = [] /\ s_queue x = [] /\ inflight st (s_conn x) (s_sig x) = [].
Proof.
  destruct (run_observed (with_switch true false false true) (tr15 ++ [LEmitSnap 200 31])
              (fun st => (quiescent (with_switch true false false true) st, dead st, sub_obs st 0))
              (true, true, Some (PAcked, [31], [], [], []))) as (st & R & [= Q D E]); [vm_compute; reflexivity|].
  destruct (sub_obs_some _ _ _ _ _ _ _ E) as (x & H). exists st, x. exact (conj R (conj Q (conj D H))).
Qed.

(* a concrete run of the repaired model (non-vacuity of the main theorems) *)
Definition tr_ex : list label :=
  [LInstall 0 200; LCount 0; LSendReg 0 1; LMbox 0; LReply; LCliRecv 0;
   LInstall 0 200; LCount 1; LInstall 1 200; LCount 2; LSendReg 2 1; LMbox 1; LReply; LCliRecv 1;
   LEmitSnap 200 5; LEmitSend; LEmitSend; LCliRecv 0; LDeliver 0; LDeliver 1; LCliRecv 1; LDeliver 2;
   LCancel 0; LFanClose 0; LEmitSnap 200 6; LEmitSend; LEmitSend; LCliRecv 0; LDeliver 1;
   LCancel 1; LSendUnreg 1; LMbox 0; LReply; LCliRecv 0; LFanClose 1; LCliRecv 1; LDeliver 2].
