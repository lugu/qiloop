(* GenCodec.v — the four paths a value takes through generated code (C05):
   proxy -> stub   arguments: reflection encoder (bus.NewParams / Proxy.Call2), then the
                   generated Unmarshal of each parameter (meta/stub methodBodyBlock)
   stub -> proxy   result: generated Marshal, then the reflection decoder (Response.Read)
   signal / property: generated Marshal on the emitting side, generated Unmarshal in the
                   generated subscriber / getter.
   Generated Marshal/Unmarshal implement the documented format (spec_enc / spec_dec); that
   this is what the templates of meta/signature/type.go emit is checked by compiling and
   running generated packages (qv C05). *)
From QV Require Import Wire WireLemmas PrefixLemmas WireProofs ReflProofs ParseOpt WireTop.
Local Open Scope N_scope.

Section Paths.
  Variable c : wcfg.
  Definition proxy_send (args : list tval) : bytes := flat_map (refl_enc c) args.
  Definition stub_recv (ts : list ty) (bs : bytes) : res (list tval * bytes) :=
    seq_with (map (fun t => spec_dec parse_opt (S (List.length bs)) t) ts) bs.
  Definition stub_reply (r : tval) : bytes := spec_enc r.
  Definition proxy_recv (t : ty) (bs : bytes) : res (tval * bytes) := refl_dec c tval_eqb t bs.
  Definition emit (v : tval) : bytes := spec_enc v.
  Definition subscriber_recv (t : ty) (bs : bytes) : res (tval * bytes) := spec_dec parse_opt (S (List.length bs)) t bs.
End Paths.

Definition arg_ok (v : tval) (t : ty) : Prop :=
  good_ty t = true /\ has_ty v t = true /\ refl_domain t = true.

(* arguments passed to the generated proxy reach the stub's implementation unchanged *)
Theorem call_args_roundtrip : forall c args ts rest, refl_drop8 c = false ->
  Forall2 arg_ok args ts ->
  stub_recv ts (proxy_send c args ++ rest) = ROk (args, rest).
Proof.
  intros c args ts rest Hc HF.
  replace (proxy_send c args) with (flat_map spec_enc args).
  2:{ induction HF as [|v t vs ts' (_ & Hv & Hd) _ IH]; [reflexivity|].
      cbn [proxy_send flat_map] in *. now rewrite IH, (refl_enc_spec c v t Hc Hv Hd). }
  (* the stub's fuel is the length of its input: enough for whatever fits into it *)
  revert rest. apply (reads_exact (R := True)). intro B.
  apply (reads_post (X := Forall2 eq args)); [|now intros ys <-%Forall2_eq_eq].
  apply (reads_by_length (fun fuel => seq_with (map (fun t => spec_dec parse_opt fuel t) ts))).
  intros fuel B' Hle. rewrite spec_dec_unfold.
  apply (reads_members (fun fuel => spec_body (spec_dyn parse_opt fuel) spec_obj) (fun t => t)); [|lia].
  induction HF as [|v t vs ts' (_ & Hv & _) _ IH]; constructor; [|exact IH].
  exact (spec_dec_reads parse_opt parse_opt_print v t Hv).
Qed.

(* the value returned by the implementation reaches the caller unchanged *)
Theorem call_result_roundtrip : forall c r t rest, refl_drop8 c = false ->
  good_ty t = true -> has_ty r t = true -> refl_domain t = true -> lens_ok r = true -> keys_nodup r ->
  proxy_recv c t (stub_reply r ++ rest) = ROk (r, rest).
Proof. intros c r t rest Hc Hg Hr Hd Hl Hk. unfold proxy_recv, stub_reply. apply refl_dec_spec; auto using good_ty_wf. Qed.

(* signal and property payloads: generated helper to generated subscriber *)
Theorem signal_roundtrip : forall v t rest, good_ty t = true -> has_ty v t = true ->
  subscriber_recv t (emit v ++ rest) = ROk (v, rest).
Proof.
  intros v t rest Hg Hv. unfold subscriber_recv, emit. apply spec_dec_enc_top; auto using good_ty_wf.
  pose proof (dyn_depth_le_len v t Hv) as Hd. rewrite app_length. lia.
Qed.

(* the switch refl_drop8 mirrors the reflection encoder of the pinned tree, which has no Int8/Uint8
   case (lugu/qiloop before 91673c3): a proxy built against it, that switch alone on, loses 8-bit
   arguments *)
Lemma call_args_refuted_drop8 :
  exists r, stub_recv [TTuple [TS SI8; TS SI32]] (proxy_send WireRefute.only_drop8 [WireRefute.s8]) = r /\ r <> ROk ([WireRefute.s8], []).
Proof. eexists. split; [reflexivity|]. vm_compute. discriminate. Qed.
