(* WireRefute.v — the configurations with one defect switch on and the inputs on which props/C02, C03,
   C05, C07 and C08 show, by running the models, that each switch breaks the property it belongs to.  The
   harness replays the same inputs on the real code to learn whether the switch is on in the tree being
   checked.  Lists longer than the decoders' bound need no switch: refl_long_list_refused. *)
From QV Require Import Value WireLemmas ReflProofs.
Local Open Scope N_scope.

Definition only_value_reader := {| value_reader_no_len := true; string_reader_drops_err := false; refl_drop8 := false; refl_struct_ignores_err := false; refl_neg_len_panics := false |}.
Definition only_string_reader := {| value_reader_no_len := false; string_reader_drops_err := true; refl_drop8 := false; refl_struct_ignores_err := false; refl_neg_len_panics := false |}.
Definition only_drop8 := {| value_reader_no_len := false; string_reader_drops_err := false; refl_drop8 := true; refl_struct_ignores_err := false; refl_neg_len_panics := false |}.
Definition only_struct_err := {| value_reader_no_len := false; string_reader_drops_err := false; refl_drop8 := false; refl_struct_ignores_err := true; refl_neg_len_panics := false |}.
Definition only_neg_len := {| value_reader_no_len := false; string_reader_drops_err := false; refl_drop8 := false; refl_struct_ignores_err := false; refl_neg_len_panics := true |}.

(* C02/C03: "m" carrying int32 5 — the signature reader returns other bytes than it consumed
   (ValueProofs.sig_read_value_refuted) *)
Definition dyn5 := VDyn (TS SI32) (VNum 4 5).

(* hence an opaque dynamic value whose signature contains "m" does not re-encode to its bytes *)
Definition opq_sm := DOpaque (bytes_of_string "{sm}") (spec_enc (VMap [(VStr [x61], dyn5)])).

(* C03: 8-bit fields vanish from the reflection encoding *)
Definition s8 := VTup [VNum 1 0x7f; VNum 4 1].

(* C03: a list of 4097 bytes *)
Definition bytes4097 := VList (repeat (VNum 1 0) 4097).

(* sliceValue checks the count before anything else is read *)
Lemma refl_dec_count_refused : forall c eqb t n rest, listValueMaxSize < n < 2 ^ 31 ->
  refl_dec c eqb (TList t) (enc_u32 n ++ rest) = RErr rest.
Proof.
  intros c eqb t n rest [Hlo Hhi]. unfold refl_dec. cbn [refl_body].
  rewrite read_u32_enc by (eapply N.lt_trans; [exact Hhi|reflexivity]). cbn [bind]. cbv zeta.
  unfold as_int32. rewrite (proj2 (N.ltb_lt _ _) Hhi).
  rewrite (proj2 (Z.ltb_lt _ _) (proj1 (N2Z.inj_lt _ _) Hlo)). reflexivity.
Qed.

(* a list the reflection encoder writes (as documented) and the reflection decoder refuses: the
   decoder's bound of 4096 entries is not applied by the encoder (independent of the switches) *)
Lemma refl_long_list_refused : forall c x t n, refl_drop8 c = false ->
  has_ty x t = true -> refl_domain t = true -> listValueMaxSize < N.of_nat n < 2 ^ 31 ->
  let v := VList (repeat x n) in
  has_ty v (TList t) = true /\ refl_enc c v = spec_enc v /\
  exists l, refl_dec c tval_eqb (TList t) (spec_enc v) = RErr l.
Proof.
  intros c x t n Hc Hx Hd Hn v.
  assert (Hty : has_ty v (TList t) = true).
  { cbn [v has_ty expand1]. rewrite repeat_length, (proj2 (N.ltb_lt _ _) (proj2 Hn)).
    apply forallb_forall. intros y Hy. rewrite (repeat_spec _ _ _ Hy). exact Hx. }
  split; [exact Hty|]. split; [exact (refl_enc_spec c v _ Hc Hty Hd)|].
  eexists. cbn [v spec_enc]. rewrite repeat_length. apply refl_dec_count_refused. exact Hn.
Qed.

(* C08: cut after 5 of its 9 bytes it is still accepted (PrefixProofs.sig_read_prefix_refuted) *)
Definition hello := VTup [VStr (bytes_of_string "hello")].
