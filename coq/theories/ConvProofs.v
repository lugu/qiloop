(* ConvProofs.v — proofs about the model in Conv.v (property C20).
   Conversion into a destination that holds something (convert_into) is the general notion; a fresh
   destination is the one holding zero values (convert_into_fresh). The main theorem convert_compat
   gives, for a compatible pair of types and a typed value, the four clauses of Record converts for
   every previous content at once; it and same_sig_convert (a reply read directly is the conversion)
   go by compat_ind, an induction over source type, target type and value together in which struct
   fields are already paired by name. For maps, KND says that no two keys are one key to Go's ==; the
   converted keys are such because converting them back gives the source keys (KND_back).
   other_kind_refused is the second clause at any depth; agree_leaves reads agree as a permutation
   of the scalars; enter_conv and enter_compat bring the three entry points back to convert_into.
   The file ends with the values wit* of the four refutations, each with its lemma, and the values
   ex_* of the example that props/C20.v evaluates. *)
From Coq Require Import List ZArith Bool String Lia Permutation.
From QV Require Import ListFacts Conv.
Import ListNotations.
Local Open Scope Z_scope.

Section GotypeInd.
  Variable P : gotype -> Prop.
  Hypothesis HBool : P TBool.
  Hypothesis HString : P TString.
  Hypothesis HInt : forall k, P (TInt k).
  Hypothesis HF32 : P TFloat32.
  Hypothesis HF64 : P TFloat64.
  Hypothesis HSlice : forall e, P e -> P (TSlice e).
  Hypothesis HMap : forall k e, P k -> P e -> P (TMap k e).
  Hypothesis HStruct : forall fs, Forall (fun nt => P (snd nt)) fs -> P (TStruct fs).
  Fixpoint gotype_ind2 (t : gotype) : P t :=
    match t with
    | TBool => HBool | TString => HString | TInt k => HInt k | TFloat32 => HF32 | TFloat64 => HF64
    | TSlice e => HSlice e (gotype_ind2 e)
    | TMap k e => HMap k e (gotype_ind2 k) (gotype_ind2 e)
    | TStruct fs =>
        HStruct fs ((fix go (l : list (string * gotype)) : Forall (fun nt => P (snd nt)) l :=
                       match l with
                       | [] => Forall_nil _
                       | nt :: r => Forall_cons nt (gotype_ind2 (snd nt)) (go r)
                       end) fs)
    end.
End GotypeInd.

Section ValInd.
  Variable P : val -> Prop.
  Hypothesis HB : forall b, P (VBool b).
  Hypothesis HS : forall s, P (VStr s).
  Hypothesis HI : forall z, P (VInt z).
  Hypothesis HF : forall b, P (VFloat b).
  Hypothesis HSl : forall l, Forall P l -> P (VSlice l).
  Hypothesis HM : forall m, Forall (fun kv => P (fst kv) /\ P (snd kv)) m -> P (VMap m).
  Hypothesis HSt : forall l, Forall P l -> P (VStruct l).
  Fixpoint val_ind2 (v : val) : P v :=
    match v with
    | VBool b => HB b | VStr s => HS s | VInt z => HI z | VFloat b => HF b
    | VSlice l => HSl l ((fix go (l : list val) : Forall P l :=
                            match l with [] => Forall_nil _ | x :: r => Forall_cons x (val_ind2 x) (go r) end) l)
    | VMap m => HM m ((fix go (m : list (val * val)) : Forall (fun kv => P (fst kv) /\ P (snd kv)) m :=
                         match m with
                         | [] => Forall_nil _
                         | kv :: r => Forall_cons kv (conj (val_ind2 (fst kv)) (val_ind2 (snd kv))) (go r)
                         end) m)
    | VStruct l => HSt l ((fix go (l : list val) : Forall P l :=
                             match l with [] => Forall_nil _ | x :: r => Forall_cons x (val_ind2 x) (go r) end) l)
    end.
End ValInd.

Lemma list_eqb_spec {A} (eqb : A -> A -> bool) (l : list A) :
  Forall (fun x => forall y, eqb x y = true <-> x = y) l ->
  forall l', list_eqb eqb l l' = true <-> l = l'.
Proof.
  induction 1 as [|x l Hx _ IH]; intros [|y l']; cbn [list_eqb]; try solve [split; intro E; (reflexivity || discriminate E)].
  rewrite andb_true_iff, Hx, IH. split; [intros [-> ->]; reflexivity | intros E; inversion E; auto].
Qed.

Lemma val_eqb_spec : forall a b, val_eqb a b = true <-> a = b.
Proof.
  induction a as [x|x|x|x|l IH|m IH|l IH] using val_ind2; intros [y|y|y|y|l'|m'|l']; cbn [val_eqb];
    try solve [split; intro E; (discriminate E || inversion E)].
  - transitivity (x = y); [apply Bool.eqb_true_iff | split; congruence].
  - transitivity (x = y); [apply String.eqb_eq | split; congruence].
  - transitivity (x = y); [apply Z.eqb_eq | split; congruence].
  - transitivity (x = y); [apply N.eqb_eq | split; congruence].
  - transitivity (l = l'); [exact (list_eqb_spec val_eqb l IH l') | split; congruence].
  - transitivity (m = m'); [|split; congruence].
    revert m'. induction IH as [|[k e] m [Hk He] _ IHm]; intros [|[k' e'] m']; try solve [split; intro E; (reflexivity || discriminate E)].
    cbn [fst snd] in *. rewrite !andb_true_iff, Hk, He, IHm.
    split; [intros [[-> ->] ->]; reflexivity | intro E; inversion E; auto].
  - transitivity (l = l'); [exact (list_eqb_spec val_eqb l IH l') | split; congruence].
Qed.

Lemma val_eqb_refl a : val_eqb a a = true.
Proof. now apply val_eqb_spec. Qed.
Lemma val_eqb_neq a b : a <> b -> val_eqb a b = false.
Proof. intro H. destruct (val_eqb a b) eqn:E; [|reflexivity]. apply val_eqb_spec in E. contradiction. Qed.

Lemma val_eqb_sym a b : val_eqb a b = val_eqb b a.
Proof.
  destruct (val_eqb b a) eqn:E; [apply val_eqb_spec in E; subst; apply val_eqb_refl|].
  apply val_eqb_neq. intros ->. now rewrite val_eqb_refl in E.
Qed.

Lemma wrap_s_small b z : 0 < b -> - 2 ^ (b - 1) <= z < 2 ^ (b - 1) -> wrap_s b z = z.
Proof.
  intros Hb Hz. unfold wrap_s.
  replace (2 ^ b) with (2 * 2 ^ (b - 1)) by (rewrite <- Z.pow_succ_r by lia; f_equal; lia).
  rewrite Z.mod_small; lia.
Qed.

Lemma wrap_u_s b z : wrap_u b (wrap_s b z) = wrap_u b z.
Proof. unfold wrap_u, wrap_s. rewrite Zminus_mod_idemp_l. f_equal. lia. Qed.

Lemma ibits_bounds k : 0 < ibits k <= 64.
Proof. destruct k; cbv; intuition discriminate. Qed.

Lemma set_int_in_range k z : in_rangeb k z = true -> set_int k (as_int64 z) = z.
Proof.
  unfold in_rangeb, set_int, as_int64. pose proof (ibits_bounds k) as Hk.
  destruct (isigned k); rewrite andb_true_iff, Z.leb_le, Z.ltb_lt; intro Hz.
  - assert (2 ^ (ibits k - 1) <= 2 ^ (64 - 1)) by (apply Z.pow_le_mono_r; lia).
    rewrite (wrap_s_small 64 z), wrap_s_small; lia.
  - assert (2 ^ ibits k <= 2 ^ 64) by (apply Z.pow_le_mono_r; lia).
    rewrite wrap_u_s. unfold wrap_u. rewrite (Z.mod_small z (2 ^ 64)), Z.mod_small; lia.
Qed.

Lemma in_range_widen k1 k2 z : compat (TInt k1) (TInt k2) -> in_rangeb k1 z = true -> in_rangeb k2 z = true.
Proof.
  unfold compat. cbn [compatb]. rewrite andb_true_iff, Z.leb_le. intros [Hs Hb]. apply Bool.eqb_prop in Hs.
  unfold in_rangeb. rewrite <- Hs. pose proof (ibits_bounds k1) as Hk.
  destruct (isigned k1); rewrite !andb_true_iff, !Z.leb_le, !Z.ltb_lt; intro Hz.
  - assert (2 ^ (ibits k1 - 1) <= 2 ^ (ibits k2 - 1)) by (apply Z.pow_le_mono_r; lia). lia.
  - assert (2 ^ ibits k1 <= 2 ^ ibits k2) by (apply Z.pow_le_mono_r; lia). lia.
Qed.

Lemma name_eqb_iff a b : name_eqb a b = true <-> lower a = lower b.
Proof. unfold name_eqb. apply String.eqb_eq. Qed.
Lemma name_eqb_refl a : name_eqb a a = true.
Proof. now apply name_eqb_iff. Qed.
Lemma name_eqb_sym a b : name_eqb a b = true -> name_eqb b a = true.
Proof. rewrite !name_eqb_iff. auto. Qed.

Lemma nodupb_NoDup l : nodupb String.eqb l = true <-> NoDup l.
Proof. exact (nodupb_iff String.eqb _ String.eqb_eq eq_refl (fun _ _ => eq_refl) l). Qed.

Lemma has_type_struct fs vs :
  has_type (TStruct fs) (VStruct vs) <-> Forall2 (fun (nt : string * gotype) x => has_type (snd nt) x) fs vs.
Proof.
  unfold has_type. cbn [has_typeb]. revert vs.
  induction fs as [|[n t] fs IH]; intros [|v vs]; try solve [split; intro H; (discriminate H || inversion H)].
  - split; [constructor|reflexivity].
  - rewrite andb_true_iff, IH. split; [intros [H1 H2]; now constructor | intro H; inversion H; auto].
Qed.

Lemma find_field_In n fs vs t x :
  find_field n fs vs = Some (t, x) -> exists n', In ((n', t), x) (combine fs vs) /\ name_eqb n n' = true.
Proof.
  revert vs. induction fs as [|[n0 t0] fs IH]; intros [|v vs]; cbn [find_field combine In]; try discriminate.
  destruct (name_eqb n n0) eqn:E.
  - intro H. inversion H; subst. exists n0. auto.
  - intro H. destruct (IH vs H) as [n' [Hin Hn]]. exists n'. auto.
Qed.

Lemma find_field_unique n n' fs vs t x :
  NoDup (lnames fs) -> In ((n', t), x) (combine fs vs) -> name_eqb n n' = true -> find_field n fs vs = Some (t, x).
Proof.
  revert vs. induction fs as [|[n0 t0] fs IH]; intros [|v vs]; cbn [find_field combine In lnames map fst]; try tauto.
  intros Hnd Hin Hn. inversion Hnd as [|? ? Hnotin Hnd']; subst.
  destruct (name_eqb n n0) eqn:E.
  - destruct Hin as [Eq|Hin]; [inversion Eq; reflexivity|].
    exfalso. apply Hnotin. apply name_eqb_iff in E. apply name_eqb_iff in Hn.
    rewrite <- E, Hn. exact (in_map (fun nt => lower (fst nt)) fs _ (in_combine_l _ _ _ _ Hin)).
  - destruct Hin as [Eq|Hin]; [inversion Eq; subst; congruence|]. now apply IH.
Qed.

Lemma find_field_some n fs vs :
  List.length fs = List.length vs -> In (lower n) (lnames fs) -> exists t x, find_field n fs vs = Some (t, x).
Proof.
  revert vs. induction fs as [|[n0 t0] fs IH]; intros [|v vs] Hlen; cbn [lnames map fst In find_field]; try tauto; try discriminate Hlen.
  intro Hin. destruct (name_eqb n n0) eqn:E; [eauto|].
  destruct Hin as [Hn|Hin]; [apply name_eqb_iff, name_eqb_sym in Hn; congruence | apply IH; auto].
Qed.

Lemma find_field_type n fs vs t x : find_field n fs vs = Some (t, x) -> field_type n fs = Some t.
Proof.
  revert vs. induction fs as [|[n0 t0] fs IH]; intros [|v vs]; cbn [find_field field_type]; try discriminate.
  destruct (name_eqb n n0); [intro H; now inversion H | apply IH].
Qed.

Lemma field_type_In n fs t : field_type n fs = Some t -> exists n', In (n', t) fs /\ name_eqb n n' = true.
Proof.
  induction fs as [|[n0 t0] fs IH]; cbn [field_type In]; [discriminate|].
  destruct (name_eqb n n0) eqn:E.
  - intro H. inversion H; subst. exists n0. auto.
  - intro H. destruct (IH H) as [n' [Hin Hn]]. exists n'. auto.
Qed.

Lemma field_type_unique n n' fs t :
  NoDup (lnames fs) -> In (n', t) fs -> name_eqb n n' = true -> field_type n fs = Some t.
Proof.
  induction fs as [|[n0 t0] fs IH]; cbn [field_type In lnames map fst]; [tauto|].
  intros Hnd Hin Hn. inversion Hnd as [|? ? Hnotin Hnd']; subst.
  destruct (name_eqb n n0) eqn:E.
  - destruct Hin as [Eq|Hin]; [inversion Eq; reflexivity|].
    exfalso. apply Hnotin. apply name_eqb_iff in E. apply name_eqb_iff in Hn.
    rewrite <- E, Hn. exact (in_map (fun nt => lower (fst nt)) fs _ Hin).
  - destruct Hin as [Eq|Hin]; [inversion Eq; subst; congruence|]. now apply IH.
Qed.

Lemma compat_map k1 e1 k2 e2 : compat (TMap k1 e1) (TMap k2 e2) -> compat k1 k2 /\ compat e1 e2.
Proof. unfold compat. cbn [compatb]. apply andb_true_iff. Qed.

Lemma compat_struct_facts fs1 fs2 :
  compat (TStruct fs1) (TStruct fs2) ->
  NoDup (lnames fs1) /\ NoDup (lnames fs2) /\
  (forall n t, In (n, t) fs1 -> exists t', field_type n fs2 = Some t' /\ compat t t') /\
  incl (lnames fs2) (lnames fs1).
Proof.
  intro Hc. unfold compat in Hc. cbn [compatb] in Hc. rewrite !andb_true_iff, !nodupb_NoDup, !forallb_forall in Hc.
  destruct Hc as [[[ND1 ND2] F12] F21]. repeat split; try assumption.
  - intros n t Hin. specialize (F12 _ Hin). cbn beta iota in F12.
    destruct (field_type n fs2) as [t'|]; [eauto | discriminate].
  - intros ln Hin. unfold lnames in Hin. apply in_map_iff in Hin. destruct Hin as [[n t] [<- Hin]].
    specialize (F21 _ Hin). apply existsb_exists in F21. destruct F21 as [n1 [Hin1 Hn]]. apply name_eqb_iff in Hn. cbn [fst] in *. rewrite Hn.
    unfold lnames. rewrite <- map_map. now apply in_map.
Qed.

Lemma visible_dzero t : visible (dzero t) = zero t.
Proof.
  induction t as [| |k| | |e IHe|k e IHk IHe|fs IHfs] using gotype_ind2; try reflexivity.
  cbn [dzero visible zero]. f_equal. rewrite map_map. now apply map_ext_Forall.
Qed.

Lemma conv_slice_into_nil (cv : dval -> val -> cres val) (f : val -> cres val) z l :
  (forall x, cv z x = f x) -> conv_slice_into cv z [] l = map_res f l.
Proof.
  intro H. induction l as [|x l IH]; cbn [conv_slice_into map_res tl]; [reflexivity|]. now rewrite H, IH.
Qed.

Lemma conv_fields_into_zero cvi cv ffs ws tfs :
  Forall (fun nt : string * gotype => forall ft fw, cvi (snd nt) ft fw (dzero (snd nt)) = cv (snd nt) ft fw) tfs ->
  conv_fields_into cvi ffs ws tfs (map (fun nt : string * gotype => dzero (snd nt)) tfs) = conv_fields cv ffs ws tfs.
Proof.
  induction 1 as [|[n t] tfs H _ IH]; cbn [conv_fields_into conv_fields map tl]; [reflexivity|].
  cbn [snd] in *. rewrite IH. destruct (find_field n ffs ws) as [[ft fw]|]; [now rewrite H | now rewrite visible_dzero].
Qed.

Theorem convert_into_fresh : forall c to from w, convert_into c to from w (dzero to) = convert_to c to from w.
Proof.
  intro c. induction to as [| |k| | |te IHe|tk te IHk IHe|tfs IHfs] using gotype_ind2; intros from w; try reflexivity.
  - cbn [convert_into convert_to dzero]. destruct from; try reflexivity. destruct w; try reflexivity.
    cbn [List.length]. replace (if Nat.ltb 0 (List.length l) then @nil dval else []) with (@nil dval) by (destruct (Nat.ltb _ _); reflexivity).
    rewrite (conv_slice_into_nil _ (convert_to c te from) (dzero te) l); [reflexivity|]. intro x. apply IHe.
  - cbn [convert_into convert_to dzero visible map]. destruct from; try reflexivity. destruct w; try reflexivity.
    destruct (map_keeps_old_entries c); reflexivity.
  - cbn [convert_into convert_to dzero]. destruct from; try reflexivity. destruct w; try reflexivity.
    rewrite (conv_fields_into_zero _ (fun t f x => convert_to c t f x)); [reflexivity|].
    eapply Forall_impl; [|exact IHfs]. intros nt H ft fw. apply H.
Qed.

(* what holds whatever the destination held holds of a fresh one; keys and elements of maps are
   converted into fresh variables *)
Lemma into_fresh c to from w r : (forall old, convert_into c to from w old = r) -> convert_to c to from w = r.
Proof. intro H. rewrite <- convert_into_fresh. apply H. Qed.

Lemma conv_slice_into_ok (cv : dval -> val -> cres val) z l l' :
  Forall2 (fun x x' => forall o, cv o x = COk x') l l' -> forall olds, conv_slice_into cv z olds l = COk l'.
Proof.
  induction 1 as [|x x' l l' H _ IH]; intro olds; cbn [conv_slice_into]; [reflexivity|]. now rewrite H, IH.
Qed.

Lemma conv_fields_into_ok cv ffs ws tfs xs :
  Forall2 (fun (nt : string * gotype) x =>
             exists ft fw, find_field (fst nt) ffs ws = Some (ft, fw) /\ forall o, cv (snd nt) ft fw o = COk x) tfs xs ->
  forall olds, conv_fields_into cv ffs ws tfs olds = COk xs.
Proof.
  induction 1 as [|[n t] x tfs xs [ft [fw [Hf Hc]]] _ IH]; intro olds; [reflexivity|].
  cbn [conv_fields_into]. cbn [fst snd] in *. now rewrite Hf, Hc, IH.
Qed.

(* maps: key lists without two keys that Go's == identifies *)
Definition kfresh (k : val) (l : list val) : Prop := Forall (fun k' => key_eqb k k' = false) l.
Fixpoint KND (l : list val) : Prop :=
  match l with [] => True | k :: r => kfresh k r /\ KND r end.

Lemma nodupb_KND l : nodupb key_eqb l = true <-> KND l.
Proof.
  induction l as [|k r IH]; cbn [nodupb KND]; [tauto|].
  now rewrite andb_true_iff, negb_true_iff, existsb_false, IH.
Qed.

Lemma has_type_map k e m :
  has_type (TMap k e) (VMap m) <->
  (forall kv, In kv m -> has_type k (fst kv) /\ has_type e (snd kv)) /\ KND (map fst m).
Proof.
  unfold has_type. cbn [has_typeb]. rewrite andb_true_iff, nodupb_KND, forallb_forall.
  split; intros [H Hnd]; (split; [|exact Hnd]); intros kv Hin; apply andb_true_iff, H, Hin.
Qed.

Lemma key_eqb_refl a : key_eqb a a = true.
Proof. destruct a; cbn [key_eqb]; try apply val_eqb_refl. now rewrite N.eqb_refl. Qed.

Lemma key_eqb_sym a b : key_eqb a b = key_eqb b a.
Proof.
  destruct a, b; cbn [key_eqb]; try apply val_eqb_sym.
  rewrite N.eqb_sym. now rewrite (andb_comm (fzero bits)).
Qed.

Lemma KND_app_fresh acc k l : KND (acc ++ k :: l) -> kfresh k acc.
Proof.
  induction acc as [|a acc IH]; cbn [app KND]; [constructor|].
  intros [Ha Hr]. constructor; [|now apply IH].
  unfold kfresh in Ha. rewrite Forall_forall in Ha. rewrite key_eqb_sym. apply Ha. apply in_or_app. right. now left.
Qed.

Lemma map_set_fresh k e acc : kfresh k (map fst acc) -> map_set k e acc = acc ++ [(k, e)].
Proof.
  induction acc as [|[k' e'] acc IH]; cbn [map fst map_set app]; [reflexivity|].
  intro H. inversion H as [|? ? Hk Hr]; subst. rewrite Hk. now rewrite IH.
Qed.

Lemma conv_map_clean c ck ce cek z m m' :
  map_value_into_key c = false ->
  Forall2 (fun kv kv' : val * val => ck (fst kv) = COk (fst kv') /\ ce (snd kv) = COk (snd kv')) m m' ->
  forall acc, KND (map fst (acc ++ m')) -> conv_map c ck ce cek z m acc = COk (acc ++ m').
Proof.
  intro Hc. induction 1 as [|[k e] [k' e'] m m' [Hk He] _ IH]; intros acc Hnd; cbn [conv_map].
  - now rewrite app_nil_r.
  - cbn [fst snd] in *. rewrite Hk, Hc, He.
    assert (Hfresh : kfresh k' (map fst acc)).
    { rewrite map_app in Hnd. cbn [map fst] in Hnd. exact (KND_app_fresh _ _ _ Hnd). }
    rewrite (map_set_fresh k' e' acc Hfresh). rewrite IH; rewrite <- app_assoc; [reflexivity | exact Hnd].
Qed.

Definition respects_keys (g : val -> cres val) : Prop :=
  forall x y x' y', key_eqb x y = true -> g x = COk x' -> g y = COk y' -> key_eqb x' y' = true.

Lemma round32_zero b : fzero b = true -> round32 b = b.
Proof.
  unfold fzero. rewrite orb_true_iff, !N.eqb_eq. intros [->| ->]; vm_compute; reflexivity.
Qed.

Lemma convert_fzero c to from a x' : fzero a = true -> convert_to c to from (VFloat a) = COk x' -> x' = VFloat a.
Proof.
  intro Ha. destruct to, from; cbn [convert_to]; try discriminate; rewrite ?(round32_zero _ Ha); congruence.
Qed.

Lemma convert_respects_keys c to from : respects_keys (convert_to c to from).
Proof.
  intros x y x' y' Hk Hx Hy.
  (* Go's == on keys is equality, except that the two float zeros are one key *)
  assert (Hcase : x = y \/ exists a b, x = VFloat a /\ y = VFloat b /\ fzero a = true /\ fzero b = true).
  { destruct x; try (left; now apply val_eqb_spec). destruct y; try (left; now apply val_eqb_spec).
    cbn [key_eqb] in Hk. rewrite orb_true_iff, N.eqb_eq, andb_true_iff in Hk.
    destruct Hk as [->|Hk]; [now left | right; eauto]. }
  destruct Hcase as [->|[a [b [-> [-> [Ha Hb]]]]]].
  - rewrite Hx in Hy. inversion Hy; subst. apply key_eqb_refl.
  - rewrite (convert_fzero _ _ _ _ _ Ha Hx), (convert_fzero _ _ _ _ _ Hb Hy).
    cbn [key_eqb]. rewrite Ha, Hb. apply orb_true_r.
Qed.

(* so distinct keys come from distinct keys: if g sends the keys of m' to those of m *)
Lemma KND_back (g : val -> cres val) (m m' : list (val * val)) :
  respects_keys g -> Forall2 (fun kv kv' => g (fst kv') = COk (fst kv)) m m' -> KND (map fst m) -> KND (map fst m').
Proof.
  intro Hg. induction 1 as [|a b m m' Hab H IH]; intro Hnd; [exact I|].
  cbn [KND map] in *. destruct Hnd as [Hf Hnd']. split; [|now apply IH].
  unfold kfresh in *. rewrite Forall_forall in *. intros b2 Hin.
  apply in_map_iff in Hin. destruct Hin as [kv2' [<- Hin]].
  destruct (Forall2_In_l _ _ _ _ (Forall2_flip _ _ _ H) Hin) as [kv2 [Ha2 Hg2]]. apply in_combine_r in Ha2.
  destruct (key_eqb (fst b) (fst kv2')) eqn:E; [|reflexivity].
  rewrite <- (Hf (fst kv2) (in_map fst _ _ Ha2)). symmetry. exact (Hg _ _ _ _ E Hab Hg2).
Qed.

(* x1 : t1 becomes x2 : t2 and x2 becomes x1 again, whatever the two destinations held before.
   Stating the clause about convert_into gives the fresh destination (dzero) and the used one at once. *)
Record converts (c : cfg) (t1 t2 : gotype) (x1 x2 : val) : Prop := {
  cv_there : forall old, convert_into c t2 t1 x1 old = COk x2;
  cv_typed : has_type t2 x2;
  cv_agree : agree t1 t2 x1 x2;
  cv_back : forall old, convert_into c t1 t2 x2 old = COk x1
}.
Arguments cv_there {c t1 t2 x1 x2}.
Arguments cv_typed {c t1 t2 x1 x2}.
Arguments cv_agree {c t1 t2 x1 x2}.
Arguments cv_back {c t1 t2 x1 x2}.

(* induction over a source type, a compatible target type and a value of the source type together:
   what compat and has_type say at each head is handed to the case, struct fields paired by name *)
Section CompatInd.
  Variable P : gotype -> gotype -> val -> Prop.
  Hypothesis PBool : forall b, P TBool TBool (VBool b).
  Hypothesis PStr : forall s, P TString TString (VStr s).
  Hypothesis PInt : forall k1 k2 z, compat (TInt k1) (TInt k2) -> in_rangeb k1 z = true -> P (TInt k1) (TInt k2) (VInt z).
  Hypothesis PF32 : forall t2 b, compat TFloat32 t2 -> float_ok b = true -> round32 b = b -> P TFloat32 t2 (VFloat b).
  Hypothesis PF64 : forall b, float_ok b = true -> P TFloat64 TFloat64 (VFloat b).
  Hypothesis PSlice : forall e1 e2 l, Forall (P e1 e2) l -> P (TSlice e1) (TSlice e2) (VSlice l).
  Hypothesis PMap : forall k1 e1 k2 e2 m, KND (map fst m) ->
    Forall (fun kv : val * val => P k1 k2 (fst kv) /\ P e1 e2 (snd kv)) m -> P (TMap k1 e1) (TMap k2 e2) (VMap m).
  Hypothesis PStruct : forall fs1 fs2 vs, compat (TStruct fs1) (TStruct fs2) -> List.length fs1 = List.length vs ->
    (forall n1 t1 x n2 t2, In ((n1, t1), x) (combine fs1 vs) -> In (n2, t2) fs2 -> name_eqb n1 n2 = true -> P t1 t2 x) ->
    P (TStruct fs1) (TStruct fs2) (VStruct vs).

  Theorem compat_ind : forall t1 t2 v, compat t1 t2 -> has_type t1 v -> P t1 t2 v.
  Proof.
    induction t1 as [| |k1| | |e1 IHe|k1 e1 IHk IHe|fs1 IHfs] using gotype_ind2; intros t2 v Hc Ht.
    all: destruct v as [b|s|z|b|l|m|vs]; try discriminate Ht.
    (* float32 source, before t2 is split: the case keeps compat TFloat32 t2 *)
    4: { unfold has_type in Ht. cbn [has_typeb] in Ht. rewrite andb_true_iff, N.eqb_eq in Ht. now apply PF32. }
    all: destruct t2 as [| |k2| | |e2|k2 e2|fs2]; try discriminate Hc.
    - apply PBool.
    - apply PStr.
    - now apply PInt.
    - now apply PF64.
    - unfold has_type in Ht. cbn [has_typeb] in Ht. rewrite forallb_forall in Ht.
      apply PSlice, Forall_forall. intros x Hin. exact (IHe e2 x Hc (Ht x Hin)).
    - destruct (compat_map _ _ _ _ Hc) as [Hck Hce]. apply has_type_map in Ht. destruct Ht as [Hall Hnd].
      apply PMap; [exact Hnd|]. apply Forall_forall. intros kv Hin. destruct (Hall _ Hin) as [Hk He]. auto.
    - destruct (compat_struct_facts _ _ Hc) as (_ & ND2 & F12 & _).
      rewrite Forall_forall in IHfs. apply has_type_struct in Ht.
      apply PStruct; [exact Hc | exact (Forall2_len _ _ _ Ht) |]. intros n1 t1 x n2 t2 Hin1 Hin2 Hn.
      pose proof (in_combine_l _ _ _ _ Hin1) as Hin1f. destruct (F12 _ _ Hin1f) as [t' [Eft H12]].
      rewrite (field_type_unique n1 n2 fs2 t2 ND2 Hin2 Hn) in Eft. inversion Eft; subst t'.
      exact (IHfs _ Hin1f t2 x H12 (Forall2_In_combine _ _ _ _ _ Ht Hin1)).
  Qed.
End CompatInd.

Section FieldsAgree.
  Variable fs2 : list (string * gotype).
  Variable vs' : list val.
  Fixpoint fields_agree (fs : list (string * gotype)) (vs : list val) : Prop :=
    match fs, vs with
    | [], [] => True
    | (n, t) :: fs', x :: vs'' =>
        (exists t' x', find_field n fs2 vs' = Some (t', x') /\ agree t t' x x') /\ fields_agree fs' vs''
    | _, _ => False
    end.
End FieldsAgree.
Lemma agree_struct fs1 fs2 vs vs' :
  agree (TStruct fs1) (TStruct fs2) (VStruct vs) (VStruct vs') =
  (List.length vs' = List.length fs2 /\ fields_agree fs2 vs' fs1 vs).
Proof. reflexivity. Qed.

Lemma fields_agree_Forall2 fs2 vs2 fs1 vs1 :
  fields_agree fs2 vs2 fs1 vs1 <->
  Forall2 (fun (nt1 : string * gotype) x1 =>
             exists t' x', find_field (fst nt1) fs2 vs2 = Some (t', x') /\ agree (snd nt1) t' x1 x') fs1 vs1.
Proof.
  split.
  - revert vs1. induction fs1 as [|[n t] fs1 IH]; intros [|x vs1]; cbn [fields_agree]; try tauto; [constructor|].
    intros [H Hr]. constructor; [exact H | now apply IH].
  - induction 1 as [|[n t] x fs1 vs1 H _ IH]; cbn [fields_agree]; auto.
Qed.

Theorem convert_compat : forall c, clean c -> forall t1 t2 v, compat t1 t2 -> has_type t1 v -> exists v', converts c t1 t2 v v'.
Proof.
  intros c Hclean. apply (compat_ind (fun t1 t2 v => exists v', converts c t1 t2 v v')).
  - intro b. exists (VBool b). repeat split.
  - intro s. exists (VStr s). repeat split.
  - intros k1 k2 z Hc Ht. pose proof (in_range_widen k1 k2 z Hc Ht) as H2.
    exists (VInt z). split; try intro old; cbn [convert_into convert_to agree]; rewrite ?set_int_in_range by assumption; auto.
  - intros t2 b Hc Hok Hr. destruct t2; try discriminate Hc; exists (VFloat b); split; try intro old; unfold has_type;
      cbn [convert_into convert_to has_typeb agree]; rewrite ?Hr, ?Hok, ?N.eqb_refl; reflexivity.
  - intros b Ht. exists (VFloat b). repeat split. exact Ht.
  - intros e1 e2 l Hl. destruct (Forall_exists_Forall2 (converts c e1 e2) l Hl) as [l' HF].
    exists (VSlice l'). split.
    + intro old. cbn [convert_into]. rewrite (conv_slice_into_ok _ _ l l'); [reflexivity|].
      exact (Forall2_impl _ _ _ _ (fun x x' H => cv_there H) HF).
    + unfold has_type. cbn [has_typeb]. apply forallb_forall. intros x' Hin.
      destruct (Forall2_In_l _ _ _ _ (Forall2_flip _ _ _ HF) Hin) as [x [_ H]]. exact (cv_typed H).
    + exact (Forall2_impl _ _ _ _ (fun x x' H => cv_agree H) HF).
    + intro old. cbn [convert_into]. rewrite (conv_slice_into_ok _ _ l' l); [reflexivity|].
      exact (Forall2_flip _ _ _ (Forall2_impl _ _ _ _ (fun x x' H => cv_back H) HF)).
  - intros k1 e1 k2 e2 m Hnd Hall. destruct Hclean as [Hvk Hko].
    destruct (Forall_exists_Forall2
                (fun kv kv' : val * val => converts c k1 k2 (fst kv) (fst kv') /\ converts c e1 e2 (snd kv) (snd kv')) m) as [m' HF].
    { eapply Forall_impl; [|exact Hall]. intros kv [[k' Qk] [e' Qe]]. exists (k', e'). auto. }
    (* the converted keys are distinct because converting them back gives the distinct source keys *)
    assert (Hnd' : KND (map fst m')).
    { apply (KND_back (convert_to c k1 k2) m); [apply convert_respects_keys| |exact Hnd].
      eapply Forall2_impl; [|exact HF]. intros kv kv' [Qk _]. exact (into_fresh _ _ _ _ _ (cv_back Qk)). }
    exists (VMap m'). split.
    + intro old. cbn [convert_into]. rewrite Hko, (conv_map_clean c _ _ _ _ m m' Hvk) with (acc := []); [reflexivity| |exact Hnd'].
      eapply Forall2_impl; [|exact HF]. intros kv kv' [Qk Qe]. split; apply into_fresh; [exact (cv_there Qk) | exact (cv_there Qe)].
    + apply has_type_map. split; [|exact Hnd'].
      intros kv' Hin. destruct (Forall2_In_l _ _ _ _ (Forall2_flip _ _ _ HF) Hin) as [kv [_ [Qk Qe]]].
      split; [exact (cv_typed Qk) | exact (cv_typed Qe)].
    + cbn [agree]. eapply Forall2_impl; [|exact HF]. intros kv kv' [Qk Qe]. split; [exact (cv_agree Qk) | exact (cv_agree Qe)].
    + intro old. cbn [convert_into]. rewrite Hko, (conv_map_clean c _ _ _ _ m' m Hvk) with (acc := []); [reflexivity| |exact Hnd].
      apply Forall2_flip. eapply Forall2_impl; [|exact HF]. intros kv kv' [Qk Qe]. split; apply into_fresh; [exact (cv_back Qk) | exact (cv_back Qe)].
  - intros fs1 fs2 vs1 Hc Hlen IH. destruct (compat_struct_facts _ _ Hc) as (ND1 & ND2 & F12 & I21).
    (* every target field finds one source field, and that one converts *)
    destruct (Forall_exists_Forall2 (fun (nt2 : string * gotype) x2 =>
                exists t1 x1, find_field (fst nt2) fs1 vs1 = Some (t1, x1) /\ converts c t1 (snd nt2) x1 x2) fs2) as [vs2 HF2].
    { apply Forall_forall. intros [n2 t2] Hin2. cbn [fst snd].
      destruct (find_field_some n2 fs1 vs1 Hlen (I21 _ (in_map (fun nt => lower (fst nt)) _ _ Hin2))) as [t1 [x1 Hfind]].
      destruct (find_field_In _ _ _ _ _ Hfind) as [n1 [Hin1 Hn21]].
      destruct (IH _ _ _ _ _ Hin1 Hin2 (name_eqb_sym _ _ Hn21)) as [x2 HQ]. eauto. }
    (* conversely every source field is the one its target field found *)
    assert (HF1 : Forall2 (fun (nt1 : string * gotype) x1 =>
                    exists t2 x2, find_field (fst nt1) fs2 vs2 = Some (t2, x2) /\ converts c (snd nt1) t2 x1 x2) fs1 vs1).
    { apply Forall2_combine; [exact Hlen|]. intros [n1 t1] x1 Hin1. cbn [fst snd].
      destruct (F12 _ _ (in_combine_l _ _ _ _ Hin1)) as [t2 [Eft _]].
      destruct (field_type_In _ _ _ Eft) as [n2 [Hin2 Hn12]].
      destruct (Forall2_In_l _ _ _ _ HF2 Hin2) as [x2 [Hin2c [t1' [x1' [Hf HQ]]]]]. cbn [fst snd] in *.
      rewrite (find_field_unique n2 n1 fs1 vs1 t1 x1 ND1 Hin1 (name_eqb_sym _ _ Hn12)) in Hf.
      inversion Hf; subst t1' x1'. exists t2, x2. split; [|exact HQ].
      exact (find_field_unique n1 n2 fs2 vs2 t2 x2 ND2 Hin2c Hn12). }
    exists (VStruct vs2). split.
    + intro old. cbn [convert_into]. rewrite (conv_fields_into_ok _ fs1 vs1 fs2 vs2); [reflexivity|].
      eapply Forall2_impl; [|exact HF2]. intros nt x (t1 & x1 & Hf & HQ). exists t1, x1. split; [exact Hf | exact (cv_there HQ)].
    + apply has_type_struct.
      eapply Forall2_impl; [|exact HF2]. intros nt x (t1 & x1 & _ & HQ). exact (cv_typed HQ).
    + rewrite agree_struct, fields_agree_Forall2. split; [symmetry; exact (Forall2_len _ _ _ HF2)|].
      eapply Forall2_impl; [|exact HF1]. intros nt x (t2 & x2 & Hf & HQ). exists t2, x2. split; [exact Hf | exact (cv_agree HQ)].
    + intro old. cbn [convert_into]. rewrite (conv_fields_into_ok _ fs2 vs2 fs1 vs1); [reflexivity|].
      eapply Forall2_impl; [|exact HF1]. intros nt x (t2 & x2 & Hf & HQ). exists t2, x2. split; [exact Hf | exact (cv_back HQ)].
Qed.

Theorem convert_into_class_mismatch : forall c to from w old,
  class_of from <> class_of to -> convert_into c to from w old = CErr.
Proof.
  intros c to from w old H.
  destruct to, from; cbn [class_of] in H; try congruence; cbn [convert_into convert_to]; try reflexivity; destruct w; reflexivity.
Qed.

Lemma convert_to_class_mismatch c to from w : class_of from <> class_of to -> convert_to c to from w = CErr.
Proof. intro H. apply into_fresh. intro old. now apply convert_into_class_mismatch. Qed.

Lemma conv_slice_into_err (cv : dval -> val -> cres val) z l x :
  In x l -> (forall o, cv o x = CErr) -> forall olds, conv_slice_into cv z olds l = CErr.
Proof.
  induction l as [|a l IH]; cbn [In conv_slice_into]; [tauto|].
  intros [->|Hin] He olds; [now rewrite He|]. destruct (cv _ a); [|reflexivity]. now rewrite (IH Hin He).
Qed.

Lemma conv_map_err c ck ce cek z m kv :
  map_value_into_key c = false -> In kv m -> ck (fst kv) = CErr \/ ce (snd kv) = CErr ->
  forall acc, conv_map c ck ce cek z m acc = CErr.
Proof.
  intros Hc. induction m as [|[k e] m IH]; cbn [In conv_map]; [tauto|].
  intros [E|Hin] He acc; [subst kv|]; cbn [fst snd] in *.
  - destruct He as [He|He]; [now rewrite He|]. destruct (ck k); [|reflexivity]. now rewrite Hc, He.
  - destruct (ck k); [|reflexivity]. rewrite Hc. destruct (ce e); [|reflexivity]. now apply IH.
Qed.

Lemma conv_fields_into_err cv ffs ws tfs n t ft fw :
  In (n, t) tfs -> find_field n ffs ws = Some (ft, fw) -> (forall o, cv t ft fw o = CErr) ->
  forall olds, conv_fields_into cv ffs ws tfs olds = CErr.
Proof.
  induction tfs as [|[n0 t0] tfs IH]; cbn [In conv_fields_into]; [tauto|].
  intros [E|Hin] Hf He olds.
  - inversion E; subst. now rewrite Hf, He.
  - rewrite (IH Hin Hf He). destruct (find_field n0 ffs ws) as [[ft0 fw0]|]; [destruct (cv t0 ft0 fw0 _)|]; reflexivity.
Qed.

(* An element, key or matched field of another class, at any depth, makes the whole
   conversion fail, whatever the destination held. Of the two switches only map_value_into_key is
   read (the pinned convertMap never converts the element into the element type) *)
Theorem other_kind_refused : forall c, map_value_into_key c = false -> forall to from w,
  other_kind_reached to from w = true -> forall old, convert_into c to from w old = CErr.
Proof.
  intros c Hvk.
  induction to as [| |k| | |te IHe|tk te IHk IHe|tfs IHfs] using gotype_ind2; intros from w H old;
    cbn [other_kind_reached] in H; apply orb_true_iff in H;
    (destruct H as [H|H];
     [ apply convert_into_class_mismatch; intro E; rewrite E in H; apply negb_true_iff in H;
       destruct (class_of from); discriminate H | ]); try discriminate H.
  - destruct from; try discriminate H. destruct w; try discriminate H.
    apply existsb_exists in H. destruct H as [x [Hin Hx]]. cbn [convert_into].
    now rewrite (conv_slice_into_err _ _ _ x Hin (IHe _ _ Hx)).
  - destruct from; try discriminate H. destruct w; try discriminate H.
    apply existsb_exists in H. destruct H as [kv [Hin Hx]]. cbn [convert_into].
    rewrite (conv_map_err c _ _ _ _ m kv Hvk Hin); [reflexivity|].
    apply orb_true_iff in Hx. destruct Hx as [Hx|Hx]; [left | right]; apply into_fresh; auto.
  - destruct from; try discriminate H. destruct w; try discriminate H.
    apply existsb_exists in H. destruct H as [[n t] [Hin Hx]]. cbn [convert_into].
    destruct (find_field n fs fs0) as [[ft fw]|] eqn:Hf; [|discriminate Hx].
    rewrite Forall_forall in IHfs. specialize (IHfs _ Hin ft fw Hx). cbn [snd] in IHfs.
    now rewrite (conv_fields_into_err (fun t f x o => convert_into c t f x o) fs fs0 tfs n t ft fw Hin Hf IHfs).
Qed.

Lemma found_perm fs1 fs2 vs2 ys :
  NoDup (lnames fs1) -> NoDup (lnames fs2) -> List.length vs2 = List.length fs2 -> incl (lnames fs2) (lnames fs1) ->
  Forall2 (fun (nt1 : string * gotype) y => exists t', find_field (fst nt1) fs2 vs2 = Some (t', y)) fs1 ys ->
  Permutation ys vs2.
Proof.
  intros ND1 ND2 Hl2 I21 HF.
  pose proof (Forall2_len _ _ _ HF) as Hl1.
  (* both structs as lists of (lower-cased name, value): the first has distinct names and lies in the second *)
  set (key := fun p : string * gotype * val => (lower (fst (fst p)), snd p)).
  assert (Hperm : Permutation (map key (combine fs1 ys)) (map key (combine fs2 vs2))).
  { apply NoDup_Permutation_bis.
    - apply (NoDup_map_inv fst). rewrite map_map. unfold key. cbn [fst].
      rewrite <- (map_map fst (fun nt => lower (fst nt))). now rewrite map_fst_combine.
    - pose proof (NoDup_incl_length ND2 I21) as L. unfold lnames in L. rewrite !map_length in L.
      rewrite !map_length, !combine_length. lia.
    - intros q Hin. apply in_map_iff in Hin. destruct Hin as [[[n1 t1] y] [<- Hin1]].
      destruct (Forall2_In_combine _ _ _ _ _ HF Hin1) as [t' Hf]. cbn [fst] in Hf.
      destruct (find_field_In _ _ _ _ _ Hf) as [n2 [Hin2 Hn]].
      apply name_eqb_iff in Hn. unfold key at 1. cbn [fst snd]. rewrite Hn. exact (in_map key _ _ Hin2). }
  apply (Permutation_map snd) in Hperm. rewrite !map_map in Hperm.
  change (Permutation (map snd (combine fs1 ys)) (map snd (combine fs2 vs2))) in Hperm.
  now rewrite !map_snd_combine in Hperm by lia.
Qed.

Theorem agree_leaves : forall t1 t2 v v', compat t1 t2 -> agree t1 t2 v v' -> Permutation (leaves v) (leaves v').
Proof.
  induction t1 as [| |k1| | |e1 IHe|k1 e1 IHk IHe|fs1 IHfs] using gotype_ind2; intros t2 v v' Hc Ha;
    destruct t2 as [| |k2| | |e2|k2 e2|gs2]; try discriminate Hc;
    destruct v as [b|s|z|b|l|m|vs1]; try contradiction Ha;
    destruct v' as [b'|s'|z'|b'|l'|m'|vs2]; try contradiction Ha;
    cbn [agree] in Ha; try (subst; reflexivity).
  - cbn [leaves]. apply flat_map_perm_pointwise.
    exact (Forall2_impl _ _ _ _ (fun x y => IHe e2 x y Hc) Ha).
  - cbn [leaves]. destruct (compat_map _ _ _ _ Hc) as [Hck Hce].
    apply flat_map_perm_pointwise. eapply Forall2_impl; [|exact Ha]. intros kv kv' [Hk He].
    apply Permutation_app; [now apply (IHk k2) | now apply (IHe e2)].
  - cbn [leaves]. destruct Ha as [Hlen HA].
    destruct (compat_struct_facts _ _ Hc) as (ND1 & ND2 & H12 & I21).
    apply fields_agree_Forall2 in HA. rewrite Forall_forall in IHfs.
    assert (Hex : exists ys, Forall2 (fun x1 y => Permutation (leaves x1) (leaves y)) vs1 ys /\
                             Forall2 (fun (nt1 : string * gotype) y => exists t', find_field (fst nt1) gs2 vs2 = Some (t', y)) fs1 ys).
    { clear -HA IHfs H12. induction HA as [|[n t] x1 l l' [t' [x' [Hf Hag]]] _ IH].
      - exists []. split; constructor.
      - destruct IH as [ys [P1 P2]].
        + intros nt Hin. apply IHfs. now right.
        + intros n0 t0 Hin. apply H12. now right.
        + exists (x' :: ys). cbn [fst snd] in *. split; constructor; eauto.
          apply (IHfs (n, t) (or_introl eq_refl) t'); [|exact Hag].
          destruct (H12 n t (or_introl eq_refl)) as [t'' [Hft Hct]].
          rewrite (find_field_type _ _ _ _ _ Hf) in Hft. inversion Hft; subst. exact Hct. }
    destruct Hex as [ys [P1 P2]].
    etransitivity; [exact (flat_map_perm_pointwise leaves _ _ P1)|].
    apply Permutation_flat_map. exact (found_perm fs1 gs2 vs2 ys ND1 ND2 Hlen I21 P2).
Qed.

Lemma class_eqb_true a b : class_eqb a b = true -> a = b.
Proof. destruct a, b; cbn; congruence. Qed.
Lemma same_sig_class t1 t2 : same_sigb t1 t2 = true -> class_of t1 = class_of t2.
Proof. destruct t1, t2; cbn [same_sigb class_of]; try discriminate; reflexivity. Qed.

Lemma same_sig_struct fs1 fs2 :
  same_sigb (TStruct fs1) (TStruct fs2) = true ->
  List.length fs1 = List.length fs2 /\
  forall (vs : list val) n t2 x, In ((n, t2), x) (combine fs2 vs) ->
    exists t1, In ((n, t1), x) (combine fs1 vs) /\ same_sigb t1 t2 = true.
Proof.
  revert fs2. induction fs1 as [|[n1 t1] fs1 IH]; intros [|[n2 t2] fs2]; try discriminate.
  - split; [reflexivity | intros vs n t x []].
  - cbn [same_sigb]. intro H. apply andb_true_iff in H. destruct H as [H Hr]. apply andb_true_iff in H. destruct H as [Hn Ht].
    apply String.eqb_eq in Hn. subst n2. destruct (IH _ Hr) as [L F]. split; [exact (f_equal S L)|].
    intros [|v vs] n t x; cbn [combine In]; [intros []|].
    intros [E|Hin]; [injection E as <- <- <-; exists t1; auto | destruct (F vs _ _ _ Hin) as [t1' [H1 H2]]; exists t1'; auto].
Qed.

(* a reply whose advertised signature is the caller's own is read directly; for compatible types
   that is the conversion: converting into a type with the same signature gives the value itself *)
Theorem same_sig_convert : forall c, clean c -> forall t1 t2 v,
  compat t1 t2 -> has_type t1 v -> same_sigb t1 t2 = true -> forall old, convert_into c t2 t1 v old = COk v.
Proof.
  intros c Hclean. apply (compat_ind (fun t1 t2 v => same_sigb t1 t2 = true -> forall old, convert_into c t2 t1 v old = COk v)).
  - reflexivity.
  - reflexivity.
  - intros k1 k2 z Hc Ht _ old.
    cbn [convert_into convert_to]. now rewrite (set_int_in_range k2 z (in_range_widen k1 k2 z Hc Ht)).
  - intros t2 b _ _ Hr Hs old. destruct t2; try discriminate Hs. cbn [convert_into convert_to]. now rewrite Hr.
  - reflexivity.
  - intros e1 e2 l IH Hs old. cbn [convert_into]. rewrite (conv_slice_into_ok _ _ l l); [reflexivity|].
    apply Forall2_same. eapply Forall_impl; [|exact IH]. intros x Hx. exact (Hx Hs).
  - intros k1 e1 k2 e2 m Hnd IH Hs old. cbn [same_sigb] in Hs. apply andb_true_iff in Hs. destruct Hs as [Hsk Hse].
    cbn [convert_into]. rewrite (proj2 Hclean), (conv_map_clean c _ _ _ _ m m (proj1 Hclean)) with (acc := []); [reflexivity| |exact Hnd].
    apply Forall2_same. eapply Forall_impl; [|exact IH]. intros kv [Hk He].
    split; apply into_fresh; auto.
  - intros fs1 fs2 vs Hc Hlen IH Hs old. destruct (same_sig_struct _ _ Hs) as [L HF].
    destruct (compat_struct_facts _ _ Hc) as (ND1 & _).
    cbn [convert_into]. rewrite (conv_fields_into_ok _ fs1 vs fs2 vs); [reflexivity|].
    apply Forall2_combine; [now rewrite <- L|].
    intros [n t2] x Hin2. cbn [fst snd]. destruct (HF vs _ _ _ Hin2) as [t1 [Hin1 Hst]].
    exists t1, x. split; [exact (find_field_unique n n fs1 vs t1 x ND1 Hin1 (name_eqb_refl n))|].
    exact (IH _ _ _ _ _ Hin1 (in_combine_l _ _ _ _ Hin2) (name_eqb_refl n) Hst).
Qed.

(* every entry point is ConvertFrom into a destination that holds something (zero values when
   fresh), except a Call2 reply that is read directly *)
Lemma enter_conv e c t1 t2 v old :
  (e = ECall2 -> same_sigb t1 t2 = false) ->
  enter e c t1 t2 v old = convert_into c t2 t1 v (match old with Some d => d | None => dzero t2 end).
Proof.
  intro H. unfold enter, convert_onto, convert.
  replace (convert_to c t2 t1 v) with (convert_into c t2 t1 v (dzero t2)) by apply convert_into_fresh.
  destruct e; try (destruct old; reflexivity). rewrite (H eq_refl). destruct old; reflexivity.
Qed.

Theorem enter_compat : forall c, clean c -> forall e t1 t2 v old, compat t1 t2 -> has_type t1 v ->
  enter e c t1 t2 v old = convert c t1 t2 v.
Proof.
  intros c Hc e t1 t2 v old H1 H2. destruct (convert_compat c Hc t1 t2 v H1 H2) as [v' [A _ _ _]].
  unfold convert. rewrite <- convert_into_fresh, A.
  destruct (same_sigb t1 t2) eqn:Es; [|rewrite enter_conv by auto; apply A].
  (* one signature text: the conversion gives the value itself, and so does reading it directly *)
  pose proof (same_sig_convert c Hc t1 t2 v H1 H2 Es (dzero t2)) as D. rewrite A in D. inversion D; subst v'.
  destruct e; try (rewrite enter_conv by discriminate; apply A). unfold enter. now rewrite Es.
Qed.

Local Open Scope string_scope.   (* from here on only: above, ++ is the lists' *)

(* map[int8]int8{1: 5} into map[int16]int16 *)
Definition wit_t1 : gotype := TMap (TInt I8) (TInt I8).
Definition wit_t2 : gotype := TMap (TInt I16) (TInt I16).
Definition wit_v : val := VMap [(VInt 1, VInt 5)].
(* map[string]int8{"a": 1} into its own type *)
Definition wit2_t : gotype := TMap TString (TInt I8).
Definition wit2_v : val := VMap [(VStr "a", VInt 1)].

Lemma refuted_map_value_into_key :
  compat wit_t1 wit_t2 /\ has_type wit_t1 wit_v /\
  convert cfg_pinned wit_t1 wit_t2 wit_v = COk (VMap [(VInt 5, VInt 0)]) /\
  ~ (exists v', convert cfg_pinned wit_t1 wit_t2 wit_v = COk v' /\ agree wit_t1 wit_t2 wit_v v').
Proof.
  split; [reflexivity|]. split; [reflexivity|]. split; [vm_compute; reflexivity|].
  intros [v' [H A]]. vm_compute in H. inversion H; subst v'. cbn in A.
  inversion A as [|? ? ? ? [Hk _] _]; subst. cbn in Hk. discriminate Hk.
Qed.

Lemma refuted_map_refused :
  compat wit2_t wit2_t /\ has_type wit2_t wit2_v /\ convert cfg_pinned wit2_t wit2_t wit2_v = CErr.
Proof. split; [reflexivity|]. split; [reflexivity|]. vm_compute. reflexivity. Qed.

(* and an element of another class goes unnoticed: map[int8]int8{1:5} into map[int16]string *)
Definition wit3_t2 : gotype := TMap (TInt I16) TString.
Lemma refuted_map_other_kind_accepted :
  other_kind_reached wit3_t2 wit_t1 wit_v = true /\
  convert cfg_pinned wit_t1 wit3_t2 wit_v = COk (VMap [(VInt 5, VStr "")]).
Proof. split; vm_compute; reflexivity. Qed.

(* map[int8]int8{1: 5} into a map[int16]int16 that already holds {7: 7}: with the pinned convertMap
   the old entry stays, the result has an entry the source does not have, and converting it
   back (into a fresh variable) gives a map of two entries instead of the source *)
Definition wit4_old : dval := DMap [(VInt 7, DVal (VInt 7))].
Lemma refuted_map_keeps_old_entries :
  compat wit_t1 wit_t2 /\ has_type wit_t1 wit_v /\ has_type wit_t2 (visible wit4_old) /\
  convert_onto cfg_keeps wit_t1 wit_t2 wit_v wit4_old = COk (VMap [(VInt 7, VInt 7); (VInt 1, VInt 5)]) /\
  ~ (exists v', convert_onto cfg_keeps wit_t1 wit_t2 wit_v wit4_old = COk v' /\ agree wit_t1 wit_t2 wit_v v') /\
  convert cfg_keeps wit_t2 wit_t1 (VMap [(VInt 7, VInt 7); (VInt 1, VInt 5)]) <> COk wit_v.
Proof.
  split; [reflexivity|]. split; [reflexivity|]. split; [reflexivity|]. split; [vm_compute; reflexivity|]. split.
  - intros [v' [H A]]. vm_compute in H. inversion H; subst v'. cbn in A.
    inversion A as [|? ? ? ? _ A']; subst. inversion A'.
  - vm_compute. discriminate.
Qed.

(* the example of props/C20.v, a nested instance of the first clause: permuted fields, names differing
   in case, widening at the leaves *)
Definition ex_t1 : gotype :=
  TStruct [("A", TInt I8); ("Bc", TSlice TFloat32); ("M", TMap TString (TInt U16)); ("Ok", TBool)].
Definition ex_t2 : gotype :=
  TStruct [("M", TMap TString (TInt U32)); ("OK", TBool); ("BC", TSlice TFloat64); ("A", TInt I64)].
Definition ex_v : val :=
  VStruct [VInt (-128); VSlice [VFloat 4609434218613702656%N; VFloat 0%N];
           VMap [(VStr "x", VInt 65535); (VStr "", VInt 0)]; VBool true].
Definition ex_v' : val :=
  VStruct [VMap [(VStr "x", VInt 65535); (VStr "", VInt 0)]; VBool true;
           VSlice [VFloat 4609434218613702656%N; VFloat 0%N]; VInt (-128)].
