(* Signals.v — model of the signal subscription protocol of qiloop:
     server side   bus/signal.go   (signalHandler: addSignalUser / removeSignalUser / UpdateSignal)
     client side   bus/proxy.go    (proxy.SubscribeID and its cancel function, Client.State counters)
                   bus/client.go   (client.Subscribe fan-out goroutine, client.Call for the two remote calls)
                   bus/net/endpoint.go (dispatch of an incoming frame to the handlers, in order)
   as a labelled transition system: one label per atomic action of one goroutine.  Executable;
   no proofs here (SignalsInv1.v .. SignalsMain.v).

   Universe: one object of one service; connections c : nat (one `client` value per connection,
   shared by every proxy built on it); signals sig : N; every call of SubscribeID is a subscriber
   s : nat (index in [subs]); one emitter (calls of UpdateSignal do not overlap).
   Payloads are opaque to the code (it only moves them): N. *)
From Coq Require Export List NArith Lia Bool Arith.
Export ListNotations.
Local Open Scope N_scope.

(* ---- defect switches: behaviours of the pinned tree that violate C13 (observed on the real code
        by the harness; [clean] = all off) ---- *)
Record scfg := {
  uid_global : bool;       (* addSignalUser compares user ids only, not (id, connection) *)
  snapshot_send : bool;    (* UpdateSignal sends from a snapshot after releasing signalsMutex *)
  sub_unserialised : bool; (* SubscribeID / cancel: counter change and remote call are not one critical section *)
  dup_relock : bool        (* addSignalUser on a known id: RemoveHandler -> closer -> RemoveHandler on the held mutex *)
}.
Definition clean (g : scfg) : Prop :=
  uid_global g = false /\ snapshot_send g = false /\ sub_unserialised g = false.
Definition pinned : scfg := {| uid_global := true; snapshot_send := true; sub_unserialised := true; dup_relock := true |}.
Definition cfg0 : scfg := {| uid_global := false; snapshot_send := false; sub_unserialised := false; dup_relock := false |}.

(* ---- frames ---- *)
Definition A_register : N := 0.
Definition A_unregister : N := 1.
Definition QueueCap : nat := 100.   (* client.Subscribe: make(chan *net.Message, 100) *)

Inductive uframe :=            (* client -> server: the two calls SubscribeID makes *)
| UReg (mid sig uid : N)
| UUnreg (mid sig uid : N).
Inductive dframe :=            (* server -> client *)
| DReply (act mid : N)
| DError (act mid : N)
| DEvent (sig mid p : N).      (* Event frame: action = signal id, message id = id of the register call *)

(* ---- server table: signalHandler.signals ---- *)
Record user := { u_uid : N; u_sig : N; u_mid : N; u_conn : nat }.

Definition same_user (g : scfg) (c : nat) (uid : N) (u : user) : bool :=
  (u_uid u =? uid) && (uid_global g || Nat.eqb (u_conn u) c).

(* removeSignalUser: first entry with this id on this endpoint; o.signals[i] = o.signals[last]; truncate *)
Fixpoint find_idx {A} (f : A -> bool) (l : list A) : option nat :=
  match l with
  | [] => None
  | x :: r => if f x then Some O else option_map S (find_idx f r)
  end.
Fixpoint set_nth {A} (l : list A) (i : nat) (x : A) : list A :=
  match l, i with
  | [], _ => []
  | _ :: r, O => x :: r
  | y :: r, S i' => y :: set_nth r i' x
  end.
Definition swap_remove {A} (l : list A) (i : nat) : list A :=
  match nth_error l (Nat.pred (List.length l)) with
  | None => l
  | Some lastx => removelast (set_nth l i lastx)
  end.
Definition is_user (c : nat) (uid : N) (u : user) : bool := (u_uid u =? uid) && Nat.eqb (u_conn u) c.

(* ---- client side ---- *)
Inductive pc :=
| PInstalled          (* client.Subscribe done: local handler registered, fan-out goroutine running *)
| PNeedReg            (* State(key,+1) returned 1 *)
| PWaitReg (mid : N)  (* registerEvent call sent *)
| PAcked              (* SubscribeID returned (nil error) *)
| PNeedUnreg          (* cancel: State(key,-1) returned 0 *)
| PWaitUnreg (mid : N)
| PAborting           (* close(abort) done; fan-out goroutine has not yet seen it *)
| PClosed             (* handler removed, events channel closed *)
| PFailed.            (* SubscribeID returned an error (count and handler are left behind, as the code does) *)

Record sub := {
  s_conn : nat; s_sig : N; s_pc : pc;
  s_queue : list N;     (* the handler's queue (capacity QueueCap) *)
  s_got : list N;       (* what the reader has read from the events channel *)
  (* ghost (never read by a transition): *)
  s_skip : list N;      (* events already on their way to this connection when the handler was installed *)
  s_all : list N;       (* emissions of s_sig since then, taken while the connection was registered *)
  s_pre : list N;       (* value of s_all at the acknowledgement *)
  s_win : list N;       (* emissions of s_sig between acknowledgement and cancel request: the window *)
  s_ackd : bool         (* SubscribeID has returned nil *)
}.

Record cstate := {
  c_count : N -> nat;   (* Client.State("svc.obj.sig") *)
  c_hid : N -> N;       (* Client.State("svc.obj.sig.handler") *)
  c_lock : N -> bool;   (* the critical section a repaired SubscribeID/cancel would hold; only read when sub_unserialised = false *)
  c_mid : N;            (* client.messageID *)
  c_drawn : list N      (* ghost: handler ids drawn so far by this process (rand.Int()) *)
}.
Definition cinit : cstate := {| c_count := fun _ => O; c_hid := fun _ => 0; c_lock := fun _ => false; c_mid := 1; c_drawn := [] |}.

Record state := {
  subs : list sub;
  cl : nat -> cstate;
  up : nat -> list uframe;       (* frames sent by the client, not yet processed by the object's mailbox goroutine *)
  down : nat -> list dframe;     (* frames written by the server, not yet dispatched by the client's endpoint *)
  table : list user;
  pend : option (nat * dframe * option N); (* the mailbox goroutine between the table operation and the answer;
                                              third component (ghost): message id of the registration it removed *)
  emit : option (N * N * list user);       (* the emitter between snapshot and the last send *)
  dead : bool;                   (* the object's mailbox goroutine is blocked for ever (Deadlock) *)
  stuck : nat -> bool;           (* handlersMutex of this connection's server endpoint is held for ever *)
  overflow : bool;               (* some event met a full queue (outside "within the queue capacity") *)
  nconn : nat;
  (* observation logs (ghost) *)
  dlog : nat -> list (dframe * option N);
  ulog : nat -> list uframe;
  elog : list (N * N);
  race17 : bool                  (* ghost: a counter transition happened inside another one's critical section *)
}.

Definition init : state := {|
  subs := []; cl := fun _ => cinit; up := fun _ => []; down := fun _ => []; table := [];
  pend := None; emit := None; dead := false; stuck := fun _ => false; overflow := false; nconn := O;
  dlog := fun _ => []; ulog := fun _ => []; elog := []; race17 := false |}.

Definition fupd {A} (f : nat -> A) (k : nat) (v : A) : nat -> A := fun k' => if Nat.eqb k' k then v else f k'.
Definition nupd {A} (f : N -> A) (k : N) (v : A) : N -> A := fun k' => if k' =? k then v else f k'.

Inductive label :=
| LInstall (c : nat) (sig : N)  (* SubscribeID: client.Subscribe (MakeHandler + fan-out goroutine) *)
| LCount (s : nat)              (* SubscribeID: State(key, +1) *)
| LSendReg (s : nat) (h : N)    (* handler := rand.Int(); State(hkey, handler); Call registerEvent: frame written *)
| LMbox (c : nat)               (* the object's mailbox goroutine takes the next request of connection c: table operation *)
| LReply                        (* ... and writes the answer *)
| LEmitSnap (sig p : N)         (* UpdateSignal: snapshot under RLock *)
| LEmitSend                     (* UpdateSignal: replyEvent to the next user of the snapshot *)
| LCliRecv (c : nat)            (* client endpoint: process() reads one frame and dispatch()es it *)
| LCancel (s : nat)             (* cancel function: State(key, -1) *)
| LSendUnreg (s : nat)          (* State(hkey, 0); State(hkey, -handler); Call unregisterEvent: frame written *)
| LDeliver (s : nat)            (* fan-out goroutine: queue -> events channel -> reader *)
| LFanClose (s : nat).          (* fan-out goroutine: <-abort: RemoveHandler, close(events) *)

(* ---- helpers ---- *)
Definition evs (sig : N) (fs : list dframe) : list N :=
  flat_map (fun f => match f with DEvent sg _ p => if sg =? sig then [p] else [] | _ => [] end) fs.
Definition pending_for (e : option (N * N * list user)) (c : nat) (sig : N) : list N :=
  match e with
  | Some (sg, p, us) => if sg =? sig then map (fun _ => p) (filter (fun u => Nat.eqb (u_conn u) c) us) else []
  | None => []
  end.
Definition inflight (st : state) (c : nat) (sig : N) : list N :=
  evs sig (down st c) ++ pending_for (emit st) c sig.

Definition live (p : pc) : bool := match p with PClosed | PFailed => false | _ => true end.
Definition registered (st : state) (c : nat) (sig : N) : bool :=
  existsb (fun u => Nat.eqb (u_conn u) c && (u_sig u =? sig)) (table st).

Definition set_sub (st : state) (i : nat) (x : sub) : state :=
  {| subs := set_nth (subs st) i x; cl := cl st; up := up st; down := down st; table := table st; pend := pend st;
     emit := emit st; dead := dead st; stuck := stuck st; overflow := overflow st; nconn := nconn st;
     dlog := dlog st; ulog := ulog st; elog := elog st; race17 := race17 st |}.
Definition set_cl (st : state) (c : nat) (x : cstate) : state :=
  {| subs := subs st; cl := fupd (cl st) c x; up := up st; down := down st; table := table st; pend := pend st;
     emit := emit st; dead := dead st; stuck := stuck st; overflow := overflow st; nconn := nconn st;
     dlog := dlog st; ulog := ulog st; elog := elog st; race17 := race17 st |}.
Definition set_race (st : state) (b : bool) : state :=
  {| subs := subs st; cl := cl st; up := up st; down := down st; table := table st; pend := pend st;
     emit := emit st; dead := dead st; stuck := stuck st; overflow := overflow st; nconn := nconn st;
     dlog := dlog st; ulog := ulog st; elog := elog st; race17 := race17 st || b |}.
Definition push_up (st : state) (c : nat) (f : uframe) : state :=
  {| subs := subs st; cl := cl st; up := fupd (up st) c (up st c ++ [f]); down := down st; table := table st; pend := pend st;
     emit := emit st; dead := dead st; stuck := stuck st; overflow := overflow st; nconn := nconn st;
     dlog := dlog st; ulog := fupd (ulog st) c (ulog st c ++ [f]); elog := elog st; race17 := race17 st |}.
Definition push_down (st : state) (c : nat) (f : dframe) (note : option N) : state :=
  {| subs := subs st; cl := cl st; up := up st; down := fupd (down st) c (down st c ++ [f]); table := table st; pend := pend st;
     emit := emit st; dead := dead st; stuck := stuck st; overflow := overflow st; nconn := nconn st;
     dlog := fupd (dlog st) c (dlog st c ++ [(f, note)]); ulog := ulog st; elog := elog st; race17 := race17 st |}.

Definition with_count (x : cstate) (sig : N) (n : nat) : cstate :=
  {| c_count := nupd (c_count x) sig n; c_hid := c_hid x; c_lock := c_lock x; c_mid := c_mid x; c_drawn := c_drawn x |}.
Definition with_lock (x : cstate) (sig : N) (b : bool) : cstate :=
  {| c_count := c_count x; c_hid := c_hid x; c_lock := nupd (c_lock x) sig b; c_mid := c_mid x; c_drawn := c_drawn x |}.
Definition with_pc (x : sub) (p : pc) : sub :=
  {| s_conn := s_conn x; s_sig := s_sig x; s_pc := p; s_queue := s_queue x; s_got := s_got x;
     s_skip := s_skip x; s_all := s_all x; s_pre := s_pre x; s_win := s_win x; s_ackd := s_ackd x |}.
(* the acknowledgement: SubscribeID returns nil *)
Definition acked (x : sub) : sub :=
  {| s_conn := s_conn x; s_sig := s_sig x; s_pc := PAcked; s_queue := s_queue x; s_got := s_got x;
     s_skip := s_skip x; s_all := s_all x; s_pre := s_all x; s_win := []; s_ackd := true |}.

(* the counter transitions are allowed when the section is free (repaired code) or always (pinned code) *)
Definition may_enter (g : scfg) (x : cstate) (sig : N) : bool := sub_unserialised g || negb (c_lock x sig).

Definition mk_emit (sig p : N) (us : list user) : option (N * N * list user) :=
  match us with [] => None | _ => Some (sig, p, us) end.

(* dispatch of an Event frame on connection c: every installed handler of that signal, in order *)
Definition enqueue (c : nat) (sig p : N) (x : sub) : sub * bool :=
  if Nat.eqb (s_conn x) c && (s_sig x =? sig) && live (s_pc x) then
    if Nat.ltb (List.length (s_queue x)) QueueCap then
      ({| s_conn := s_conn x; s_sig := s_sig x; s_pc := s_pc x; s_queue := s_queue x ++ [p]; s_got := s_got x;
          s_skip := s_skip x; s_all := s_all x; s_pre := s_pre x; s_win := s_win x; s_ackd := s_ackd x |}, false)
    else (x, true)
  else (x, false).
Definition dispatch_event (c : nat) (sig p : N) (l : list sub) : list sub * bool :=
  (map (fun x => fst (enqueue c sig p x)) l, existsb (fun x => snd (enqueue c sig p x)) l).

(* the call waiting for (act, mid) on connection c *)
Definition waits (c : nat) (act mid : N) (x : sub) : bool :=
  Nat.eqb (s_conn x) c &&
  match s_pc x with
  | PWaitReg m => (act =? A_register) && (m =? mid)
  | PWaitUnreg m => (act =? A_unregister) && (m =? mid)
  | _ => false
  end.

(* ghost bookkeeping at an emission *)
Definition note_emit (st : state) (sig p : N) (x : sub) : sub :=
  if (s_sig x =? sig) && live (s_pc x) then
    {| s_conn := s_conn x; s_sig := s_sig x; s_pc := s_pc x; s_queue := s_queue x; s_got := s_got x;
       s_skip := s_skip x;
       s_all := if registered st (s_conn x) sig then s_all x ++ [p] else s_all x;
       s_pre := s_pre x;
       s_win := match s_pc x with PAcked => s_win x ++ [p] | _ => s_win x end;
       s_ackd := s_ackd x |}
  else x.

Definition release (g : scfg) (st : state) (c : nat) (sig : N) : state :=
  set_cl st c (with_lock (cl st c) sig false).

(* ---- the state after each kind of transition (guards are in [step]) ---- *)
Definition no_user : user := {| u_uid := 0; u_sig := 0; u_mid := 0; u_conn := O |}.
Definition new_sub (st : state) (c : nat) (sig : N) : sub :=
  {| s_conn := c; s_sig := sig; s_pc := PInstalled; s_queue := []; s_got := [];
     s_skip := inflight st c sig; s_all := []; s_pre := []; s_win := []; s_ackd := false |}.
Definition st_install (st : state) (c : nat) (sig : N) : state :=
  {| subs := subs st ++ [new_sub st c sig]; cl := cl st; up := up st; down := down st; table := table st; pend := pend st;
     emit := emit st; dead := dead st; stuck := stuck st; overflow := overflow st;
     nconn := Nat.max (nconn st) (S c);
     dlog := dlog st; ulog := ulog st; elog := elog st; race17 := race17 st |}.
(* State(key,+1) = 1: the caller must register remotely *)
Definition st_count_first (st : state) (s : nat) (x : sub) : state :=
  let c := s_conn x in let sig := s_sig x in let k := cl st c in
  set_sub (set_cl (set_race st (c_lock k sig)) c (with_lock (with_count k sig 1) sig true)) s (with_pc x PNeedReg).
(* State(key,+1) > 1: SubscribeID returns at once *)
Definition st_count_more (st : state) (s : nat) (x : sub) : state :=
  let c := s_conn x in let sig := s_sig x in let k := cl st c in
  set_sub (set_cl (set_race st (c_lock k sig)) c (with_count k sig (S (c_count k sig)))) s (acked x).
Definition st_send_reg (st : state) (s : nat) (x : sub) (h : N) : state :=
  let c := s_conn x in let sig := s_sig x in let k := cl st c in
  let m := c_mid k + 2 in
  let k' := {| c_count := c_count k; c_hid := nupd (c_hid k) sig (c_hid k sig + h); c_lock := c_lock k;
               c_mid := m; c_drawn := h :: c_drawn k |} in
  set_sub (push_up (set_cl st c k') c (UReg m sig h)) s (with_pc x (PWaitReg m)).
(* the mailbox goroutine has taken the head of up c and done its table operation *)
Definition st_mbox (st : state) (c : nat) (rest : list uframe) (t : list user) (p : option (nat * dframe * option N)) : state :=
  {| subs := subs st; cl := cl st; up := fupd (up st) c rest; down := down st; table := t;
     pend := p; emit := emit st; dead := dead st; stuck := stuck st; overflow := overflow st;
     nconn := nconn st; dlog := dlog st; ulog := ulog st; elog := elog st; race17 := race17 st |}.
(* RemoveHandler(existing) holds that endpoint's mutex; its closer removes the existing entry and
   calls RemoveHandler again: the mailbox goroutine never returns *)
Definition st_mbox_deadlock (st : state) (c : nat) (rest : list uframe) (i : nat) : state :=
  {| subs := subs st; cl := cl st; up := fupd (up st) c rest; down := down st;
     table := swap_remove (table st) i; pend := None; emit := emit st; dead := true;
     stuck := fupd (stuck st) (u_conn (nth i (table st) no_user)) true; overflow := overflow st; nconn := nconn st;
     dlog := dlog st; ulog := ulog st; elog := elog st; race17 := race17 st |}.
Definition st_reply (st : state) (c : nat) (f : dframe) (note : option N) : state :=
  let st1 := push_down st c f note in
  {| subs := subs st1; cl := cl st1; up := up st1; down := down st1; table := table st1; pend := None;
     emit := emit st1; dead := dead st1; stuck := stuck st1; overflow := overflow st1; nconn := nconn st1;
     dlog := dlog st1; ulog := ulog st1; elog := elog st1; race17 := race17 st1 |}.
Definition st_emit_snap (st : state) (sig p : N) : state :=
  {| subs := map (note_emit st sig p) (subs st); cl := cl st; up := up st; down := down st; table := table st;
     pend := pend st; emit := mk_emit sig p (filter (fun u => u_sig u =? sig) (table st));
     dead := dead st; stuck := stuck st; overflow := overflow st; nconn := nconn st;
     dlog := dlog st; ulog := ulog st; elog := elog st ++ [(sig, p)]; race17 := race17 st |}.
Definition st_emit_send (st : state) (sig p : N) (u : user) (us : list user) : state :=
  let st1 := push_down st (u_conn u) (DEvent sig (u_mid u) p) None in
  {| subs := subs st1; cl := cl st1; up := up st1; down := down st1; table := table st1; pend := pend st1;
     emit := mk_emit sig p us; dead := dead st1; stuck := stuck st1; overflow := overflow st1;
     nconn := nconn st1; dlog := dlog st1; ulog := ulog st1; elog := elog st1; race17 := race17 st1 |}.
(* the client endpoint has read the head of down c *)
Definition st_pop_down (st : state) (c : nat) (rest : list dframe) : state :=
  {| subs := subs st; cl := cl st; up := up st; down := fupd (down st) c rest; table := table st;
     pend := pend st; emit := emit st; dead := dead st; stuck := stuck st; overflow := overflow st;
     nconn := nconn st; dlog := dlog st; ulog := ulog st; elog := elog st; race17 := race17 st |}.
Definition st_recv_event (st : state) (c : nat) (rest : list dframe) (sig p : N) : state :=
  let st1 := st_pop_down st c rest in
  {| subs := fst (dispatch_event c sig p (subs st)); cl := cl st1; up := up st1; down := down st1; table := table st1;
     pend := pend st1; emit := emit st1; dead := dead st1; stuck := stuck st1;
     overflow := overflow st1 || snd (dispatch_event c sig p (subs st));
     nconn := nconn st1; dlog := dlog st1; ulog := ulog st1; elog := elog st1; race17 := race17 st1 |}.
(* the answer to a call of subscriber s has been dispatched: the call returns *)
Definition st_recv_answer (g : scfg) (st : state) (c : nat) (rest : list dframe) (s : nat) (x : sub) (x' : sub) : state :=
  set_sub (release g (st_pop_down st c rest) c (s_sig x)) s x'.
Definition st_cancel_last (st : state) (s : nat) (x : sub) : state :=
  let c := s_conn x in let sig := s_sig x in let k := cl st c in
  set_sub (set_cl (set_race st (c_lock k sig)) c (with_lock (with_count k sig 0) sig true)) s (with_pc x PNeedUnreg).
Definition st_cancel_more (st : state) (s : nat) (x : sub) : state :=
  let c := s_conn x in let sig := s_sig x in let k := cl st c in
  set_sub (set_cl (set_race st (c_lock k sig)) c (with_count k sig (Nat.pred (c_count k sig)))) s (with_pc x PAborting).
Definition st_send_unreg (st : state) (s : nat) (x : sub) : state :=
  let c := s_conn x in let sig := s_sig x in let k := cl st c in
  let m := c_mid k + 2 in
  let k' := {| c_count := c_count k; c_hid := nupd (c_hid k) sig 0; c_lock := c_lock k;
               c_mid := m; c_drawn := c_drawn k |} in
  set_sub (push_up (set_cl st c k') c (UUnreg m sig (c_hid k sig))) s (with_pc x (PWaitUnreg m)).
Definition sub_deliver (x : sub) (p : N) (q : list N) : sub :=
  {| s_conn := s_conn x; s_sig := s_sig x; s_pc := s_pc x; s_queue := q; s_got := s_got x ++ [p];
     s_skip := s_skip x; s_all := s_all x; s_pre := s_pre x; s_win := s_win x; s_ackd := s_ackd x |}.
Definition sub_close (x : sub) : sub :=
  {| s_conn := s_conn x; s_sig := s_sig x; s_pc := PClosed; s_queue := []; s_got := s_got x;
     s_skip := s_skip x; s_all := s_all x; s_pre := s_pre x; s_win := s_win x; s_ackd := s_ackd x |}.

Definition emitting (st : state) : bool := match emit st with Some _ => true | None => false end.

Definition step (g : scfg) (st : state) (l : label) : option state :=
  match l with
  | LInstall c sig => Some (st_install st c sig)
  | LCount s =>
      match nth_error (subs st) s with
      | Some x =>
          match s_pc x with
          | PInstalled =>
              if may_enter g (cl st (s_conn x)) (s_sig x) then
                if Nat.eqb (c_count (cl st (s_conn x)) (s_sig x)) 0
                then Some (st_count_first st s x)
                else Some (st_count_more st s x)
              else None
          | _ => None
          end
      | None => None
      end
  | LSendReg s h =>
      match nth_error (subs st) s with
      | Some x =>
          match s_pc x with
          | PNeedReg =>
              if negb (h =? 0) && negb (existsb (N.eqb h) (c_drawn (cl st (s_conn x))))
              then Some (st_send_reg st s x h) else None
          | _ => None
          end
      | None => None
      end
  | LMbox c =>
      if dead st || stuck st c then None else
      match pend st, up st c with
      | None, f :: rest =>
          if negb (snapshot_send g) && emitting st then None else
          match f with
          | UReg m sig uid =>
              match find_idx (same_user g c uid) (table st) with
              | None => Some (st_mbox st c rest (table st ++ [{| u_uid := uid; u_sig := sig; u_mid := m; u_conn := c |}])
                                      (Some (c, DReply A_register m, None)))
              | Some i =>
                  if dup_relock g then Some (st_mbox_deadlock st c rest i)
                  else Some (st_mbox st c rest (table st) (Some (c, DError A_register m, None)))
              end
          | UUnreg m sig uid =>
              match find_idx (is_user c uid) (table st) with
              | Some i => Some (st_mbox st c rest (swap_remove (table st) i)
                                        (Some (c, DReply A_unregister m, Some (u_mid (nth i (table st) no_user)))))
              | None => Some (st_mbox st c rest (table st) (Some (c, DError A_unregister m, None)))
              end
          end
      | _, _ => None
      end
  | LReply =>
      if dead st then None else
      match pend st with
      | Some (c, f, note) => Some (st_reply st c f note)
      | None => None
      end
  | LEmitSnap sig p => if emitting st then None else Some (st_emit_snap st sig p)
  | LEmitSend =>
      match emit st with
      | Some (sig, p, u :: us) => Some (st_emit_send st sig p u us)
      | _ => None
      end
  | LCliRecv c =>
      match down st c with
      | f :: rest =>
          match f with
          | DEvent sig _ p => Some (st_recv_event st c rest sig p)
          | DReply act m | DError act m =>
              match find_idx (waits c act m) (subs st) with
              | None => Some (st_pop_down st c rest)
              | Some s =>
                  match nth_error (subs st) s with
                  | None => Some (st_pop_down st c rest)
                  | Some x =>
                      match s_pc x, f with
                      | PWaitReg _, DReply _ _ => Some (st_recv_answer g st c rest s x (acked x))
                      | PWaitReg _, _ => Some (st_recv_answer g st c rest s x (with_pc x PFailed))
                      | _, _ => Some (st_recv_answer g st c rest s x (with_pc x PAborting))
                      end
                  end
              end
          end
      | [] => None
      end
  | LCancel s =>
      match nth_error (subs st) s with
      | Some x =>
          match s_pc x with
          | PAcked =>
              if may_enter g (cl st (s_conn x)) (s_sig x) then
                if Nat.eqb (Nat.pred (c_count (cl st (s_conn x)) (s_sig x))) 0
                then Some (st_cancel_last st s x)
                else Some (st_cancel_more st s x)
              else None
          | _ => None
          end
      | None => None
      end
  | LSendUnreg s =>
      match nth_error (subs st) s with
      | Some x =>
          match s_pc x with
          | PNeedUnreg => Some (st_send_unreg st s x)
          | _ => None
          end
      | None => None
      end
  | LDeliver s =>
      match nth_error (subs st) s with
      | Some x =>
          match live (s_pc x), s_queue x with
          | true, p :: q => Some (set_sub st s (sub_deliver x p q))
          | _, _ => None
          end
      | None => None
      end
  | LFanClose s =>
      match nth_error (subs st) s with
      | Some x =>
          match s_pc x with
          | PAborting => Some (set_sub st s (sub_close x))
          | _ => None
          end
      | None => None
      end
  end.

Fixpoint run (g : scfg) (st : state) (tr : list label) : option state :=
  match tr with
  | [] => Some st
  | l :: r => match step g st l with Some st' => run g st' r | None => None end
  end.

(* ---- internal progress: everything that happens without a new request from the harness.
        [quiesce] applies enabled internal labels in a fixed order until none is enabled. ---- *)
Definition internal_labels (st : state) : list label :=
  [LReply; LEmitSend] ++ map LMbox (seq 0 (nconn st)) ++ map LCliRecv (seq 0 (nconn st)) ++
  map LDeliver (seq 0 (List.length (subs st))) ++ map LFanClose (seq 0 (List.length (subs st))).
Fixpoint first_enabled (g : scfg) (st : state) (ls : list label) : option (label * state) :=
  match ls with
  | [] => None
  | l :: r => match step g st l with Some st' => Some (l, st') | None => first_enabled g st r end
  end.
Fixpoint quiesce (fuel : nat) (g : scfg) (st : state) : state * list label :=
  match fuel with
  | O => (st, [])
  | S f => match first_enabled g st (internal_labels st) with
           | Some (l, st') => let '(st'', tr) := quiesce f g st' in (st'', l :: tr)
           | None => (st, [])
           end
  end.
Definition quiescent (g : scfg) (st : state) : bool :=
  match first_enabled g st (internal_labels st) with None => true | Some _ => false end.

(* ---- operation sequences of the sequential correspondence runs: each operation is the request
        followed by everything it causes ---- *)
Inductive op :=
| OSub (c : nat) (sig h : N)     (* SubscribeID on connection c; h = the id rand.Int() yields if it is drawn *)
| OCancel (s : nat)
| OEmit (sig p : N).

Definition try (g : scfg) (st : state) (l : label) : state :=
  match step g st l with Some st' => st' | None => st end.
Definition exec_op (fuel : nat) (g : scfg) (st : state) (o : op) : state :=
  match o with
  | OSub c sig h =>
      let s := List.length (subs st) in
      let st1 := try g (try g (try g st (LInstall c sig)) (LCount s)) (LSendReg s h) in
      fst (quiesce fuel g st1)
  | OCancel s => fst (quiesce fuel g (try g (try g st (LCancel s)) (LSendUnreg s)))
  | OEmit sig p => fst (quiesce fuel g (try g st (LEmitSnap sig p)))
  end.
Definition exec_ops (fuel : nat) (g : scfg) (st : state) (os : list op) : state :=
  fold_left (exec_op fuel g) os st.
