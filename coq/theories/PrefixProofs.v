(* PrefixProofs.v — truncation is never accepted (C08): every proper prefix of a valid
   encoding is refused with an error by the typed decoder of the documented format
   (spec_dec), by the signature driven reader (sig_read), by the reflection decoder
   (refl_dec) and by NewValue (new_value), in configurations without the corresponding
   defect switches; each switch is refuted by a concrete witness.
   Each theorem is the second half of what the decoder's induction over valid encodings
   establishes (PrefixLemmas.reads; spec_dec_reads, sig_read_reads, refl_dec_reads, dec_dval_reads). *)
From QV Require Import Value WireLemmas WireProofs ReflProofs ValueProofs PrefixLemmas.
Local Open Scope nat_scope.

Theorem refl_dec_prefix : forall c v t k,
  refl_struct_ignores_err c = false -> refl_neg_len_panics c = false -> refl_drop8 c = false ->
  wf_ty t = true -> has_ty v t = true -> refl_domain t = true -> lens_ok v = true ->
  k < List.length (spec_enc v) -> fails (refl_dec c tval_eqb t (firstn k (spec_enc v))).
Proof.
  intros c v t k Hign _ Hd8 _ Hty Hdom Hlens.
  exact (reads_strict Hign (refl_dec_reads c Hd8 v t Hty (S k) Hdom Hlens)).
Qed.

Section P.
  Variable parse : string -> option ty.
  Hypothesis parse_print : forall t, wf_ty t = true -> parse (print t) = Some t.
  Variable c : wcfg.

  Theorem spec_dec_prefix : forall v t fuel k,
    wf_ty t = true -> has_ty v t = true -> dyn_depth v <= fuel ->
    k < List.length (spec_enc v) -> fails (spec_dec parse fuel t (firstn k (spec_enc v))).
  Proof.
    intros v t fuel k _ Hty Hd. rewrite (spec_dec_unfold parse fuel).
    refine (reads_strict I (spec_dec_reads parse parse_print v t Hty fuel (S k) _)). lia.
  Qed.

  Theorem sig_read_prefix : forall v t fuel k,
    string_reader_drops_err c = false ->
    wf_ty t = true -> has_ty v t = true -> dyn_depth v <= fuel ->
    k < List.length (spec_enc v) -> fails (sig_read parse c fuel t (firstn k (spec_enc v))).
  Proof.
    intros v t fuel k Hdrop _ Hty Hd. rewrite (sig_read_unfold parse c fuel).
    refine (reads_strict Hdrop (sig_read_reads parse parse_print c v t Hty fuel (S k) _)). lia.
  Qed.

  Theorem new_value_prefix : forall v k, string_reader_drops_err c = false -> wf_dval v ->
    k < List.length (enc_dval v) -> fails (new_value parse c (firstn k (enc_dval v))).
  Proof.
    intros v k Hdrop Hwf.
    exact (reads_strict Hdrop (reads_by_length (dec_dval parse c) (dec_dval_reads parse parse_print c v Hwf) (S k))).
  Qed.
End P.

Definition wcfg_drops_err : wcfg :=
  {| value_reader_no_len := false; string_reader_drops_err := true; refl_drop8 := false;
     refl_struct_ignores_err := false; refl_neg_len_panics := false |}.
Definition wcfg_ignores_err : wcfg :=
  {| value_reader_no_len := false; string_reader_drops_err := false; refl_drop8 := false;
     refl_struct_ignores_err := true; refl_neg_len_panics := false |}.

(* reader.go stringReader: the struct (s)<A,a> holding "hello", cut after 5 of its 9 bytes,
   is read as a struct holding the empty string *)
Example sig_read_prefix_refuted :
  forall parse,
  let t := TStruct "A" [("a"%string, TS SStr)] in
  let v := VTup [VStr (bytes_of_string "hello")] in
  good_ty t = true /\ has_ty v t = true /\ dyn_depth v <= 0 /\ 5 < List.length (spec_enc v) /\
  sig_read parse wcfg_drops_err 0 t (firstn 5 (spec_enc v)) = ROk (enc_str [], []) /\
  sig_read parse wpinned 0 t (firstn 5 (spec_enc v)) = ROk (enc_str [], []).
Proof. intro parse. vm_compute. repeat split; try reflexivity; lia. Qed.

(* encoding.go qiDecoder.value: the struct (ii) = (1, 2) cut after 4 of its 8 bytes is
   decoded as (1, 0) *)
Example refl_dec_prefix_refuted :
  let t := TTuple [TS SI32; TS SI32] in
  let v := VTup [VNum 4 1; VNum 4 2] in
  good_ty t = true /\ has_ty v t = true /\ refl_domain t = true /\ lens_ok v = true /\
  4 < List.length (spec_enc v) /\
  refl_dec wcfg_ignores_err tval_eqb t (firstn 4 (spec_enc v)) = ROk (VTup [VNum 4 1; VNum 4 0], []) /\
  refl_dec wpinned tval_eqb t (firstn 4 (spec_enc v)) = ROk (VTup [VNum 4 1; VNum 4 0], []).
Proof. vm_compute. repeat split; try reflexivity; lia. Qed.

Print Assumptions spec_dec_prefix.
Print Assumptions sig_read_prefix.
Print Assumptions refl_dec_prefix.
Print Assumptions new_value_prefix.
Print Assumptions sig_read_prefix_refuted.
Print Assumptions refl_dec_prefix_refuted.
