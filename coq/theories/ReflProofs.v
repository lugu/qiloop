(* ReflProofs.v — the reflection codec (type/encoding/encoding.go) against the documented
   serialization: structural equality is equality, the encoder writes the documented bytes
   (refl_drop8 off, types in refl_domain), the decoder consumes them exactly (lengths in range),
   returns the value (map keys distinct) and refuses every proper prefix (refl_struct_ignores_err
   off) (design/WIRE_THEOREMS.md, section ReflProofs.v). *)

From QV Require Import SigFacts Wire WireLemmas PrefixLemmas.
Local Open Scope N_scope.

Lemma ty_eqb_eq : forall a b, ty_eqb a b = true <-> a = b.
Proof. intros a b; split; [apply ty_eqb_true|intro H; subst b; apply ty_eqb_refl]. Qed.

Lemma tval_eqb_refl : forall a, tval_eqb a a = true.
Proof.
  induction a as [w b|b|s|l IHl|kvs IHkvs|l IHl|t v IHv] using tval_ind2; cbn [tval_eqb].
  - now rewrite Nat.eqb_refl, N.eqb_refl.
  - now destruct b.
  - now apply eqb_bytes_eq.
  - induction IHl as [|x r Hx Hr IH]; [reflexivity|]. now rewrite Hx, IH.
  - induction IHkvs as [|[k v] r [Hk Hv] Hr IH]; [reflexivity|]. cbn [fst snd] in Hk, Hv.
    now rewrite Hk, Hv, IH.
  - induction IHl as [|x r Hx Hr IH]; [reflexivity|]. now rewrite Hx, IH.
  - now rewrite ty_eqb_refl, IHv.
Qed.

Lemma tval_eqb_true : forall a b, tval_eqb a b = true -> a = b.
Proof.
  induction a as [w x|x|s|l IHl|kvs IHkvs|l IHl|t v IHv] using tval_ind2; intros b H;
    destruct b as [w' y|y|s'|l'|kvs'|l'|t' v']; cbn [tval_eqb] in H; try discriminate.
  - apply andb_true_iff in H as [H1 H2]. apply Nat.eqb_eq in H1. apply N.eqb_eq in H2. now subst.
  - f_equal. now apply Bool.eqb_prop.
  - f_equal. now apply eqb_bytes_eq.
  - f_equal. revert l' H.
    induction IHl as [|x r Hx Hr IH]; intros [|y r'] H; try discriminate; [reflexivity|].
    apply andb_true_iff in H as [H1 H2]. f_equal; [now apply Hx|now apply IH].
  - f_equal. revert kvs' H.
    induction IHkvs as [|[k v] r [Hk Hv] Hr IH]; intros [|[k' v'] r'] H; try discriminate; [reflexivity|].
    cbn [fst snd] in Hk, Hv.
    apply andb_true_iff in H as [H12 H3]. apply andb_true_iff in H12 as [H1 H2].
    f_equal; [f_equal; [now apply Hk|now apply Hv]|now apply IH].
  - f_equal. revert l' H.
    induction IHl as [|x r Hx Hr IH]; intros [|y r'] H; try discriminate; [reflexivity|].
    apply andb_true_iff in H as [H1 H2]. f_equal; [now apply Hx|now apply IH].
  - apply andb_true_iff in H as [H1 H2]. apply ty_eqb_true in H1. apply IHv in H2. now subst.
Qed.

Lemma tval_eqb_eq : forall a b, tval_eqb a b = true <-> a = b.
Proof. intros a b; split; [apply tval_eqb_true|intro H; subst b; apply tval_eqb_refl]. Qed.

Lemma refl_domain_expand1_r : forall t, refl_domain t = true -> refl_domain (expand1 t) = true.
Proof. intros t H. destruct t as [[]| | | |]; exact H. Qed.

Lemma flat_map_ext_Forall {A B} (f g : A -> list B) (l : list A) :
  Forall (fun x => f x = g x) l -> flat_map f l = flat_map g l.
Proof. intro H. induction H as [|x r Hx Hr IH]; [reflexivity|]. cbn [flat_map]. now rewrite Hx, IH. Qed.

(* the reflection codec never parses a signature: no signature parser is assumed here, only
   the configuration *)
Section P.
  Variable c : wcfg.

  Theorem refl_enc_spec : forall v t,
    refl_drop8 c = false -> has_ty v t = true -> refl_domain t = true -> refl_enc c v = spec_enc v.
  Proof.
    intros v t Hd8. revert v t.
    apply (has_ty_ind (fun v t => refl_domain t = true -> refl_enc c v = spec_enc v));
      try reflexivity; try discriminate; cbn [refl_enc spec_enc refl_domain].
    - intros. now rewrite Hd8, andb_false_r.
    - intros t' l _ HF Hdom. unfold enc_u32. f_equal. apply flat_map_ext_Forall.
      eapply Forall_impl; [|exact HF]. intros x [_ Hx]. auto.
    - intros tk tv kvs _ HF Hdom. apply andb_true_iff in Hdom as [Hdk Hdv].
      unfold enc_u32. f_equal. apply flat_map_ext_Forall.
      eapply Forall_impl; [|exact HF]. intros kv (_ & Hk & Hv). now rewrite Hk, Hv.
    - intros ts l HF Hdom. apply flat_map_ext_Forall.
      induction HF as [|x t l' ts' Hx _ IH]; [constructor|].
      cbn [forallb] in Hdom. apply andb_true_iff in Hdom as [Hd1 Hd2]. constructor; auto.
    - intros n fs l HF Hdom. apply flat_map_ext_Forall.
      induction HF as [|x t l' ts' Hx _ IH]; [constructor|].
      cbn [forallb] in Hdom. apply andb_true_iff in Hdom as [Hd1 Hd2]. constructor; auto.
    - intros v H _. now apply H.
  Qed.

  (* every list and map has at most listValueMaxSize entries *)
  Fixpoint lens_ok (v : tval) : bool :=
    match v with
    | VList l => (N.of_nat (List.length l) <=? listValueMaxSize) && forallb lens_ok l
    | VMap kvs => (N.of_nat (List.length kvs) <=? listValueMaxSize)
                  && forallb (fun kv => lens_ok (fst kv) && lens_ok (snd kv)) kvs
    | VTup l => forallb lens_ok l
    | VDyn _ v' => lens_ok v'
    | _ => true
    end.

  (* map keys pairwise distinct, at every map *)
  Fixpoint keys_nodup (v : tval) : Prop :=
    match v with
    | VList l | VTup l => fold_right (fun x a => keys_nodup x /\ a) True l
    | VMap kvs => NoDup (map fst kvs)
                  /\ fold_right (fun kv a => (keys_nodup (fst kv) /\ keys_nodup (snd kv)) /\ a) True kvs
    | VDyn _ v' => keys_nodup v'
    | _ => True
    end.

  Lemma keys_nodup_VList : forall l, keys_nodup (VList l) <-> Forall keys_nodup l.
  Proof. intro l. cbn [keys_nodup]. symmetry. apply Forall_fold_right. Qed.
  Lemma keys_nodup_VTup : forall l, keys_nodup (VTup l) <-> Forall keys_nodup l.
  Proof. intro l. cbn [keys_nodup]. symmetry. apply Forall_fold_right. Qed.
  Lemma keys_nodup_VMap : forall kvs, keys_nodup (VMap kvs) <->
    NoDup (map fst kvs) /\ Forall (fun kv => keys_nodup (fst kv) /\ keys_nodup (snd kv)) kvs.
  Proof.
    intro kvs. cbn [keys_nodup].
    rewrite (Forall_fold_right (fun kv => keys_nodup (fst kv) /\ keys_nodup (snd kv))). reflexivity.
  Qed.

  Lemma map_insert_fresh : forall m k v, ~ In k (map fst m) -> map_insert tval_eqb m k v = m ++ [(k, v)].
  Proof.
    induction m as [|[k' v'] m IH]; intros k v Hnin; [reflexivity|].
    cbn [map_insert app]. cbn [map fst In] in Hnin.
    destruct (tval_eqb k k') eqn:E.
    - apply tval_eqb_eq in E. subst k'. elim Hnin. now left.
    - rewrite IH; [reflexivity|]. intro Hin. apply Hnin. now right.
  Qed.

  Lemma map_of_acc_nodup : forall kvs acc, NoDup (map fst (acc ++ kvs)) ->
    fold_left (fun m kv => map_insert tval_eqb m (fst kv) (snd kv)) kvs acc = acc ++ kvs.
  Proof.
    induction kvs as [|[k v] kvs IH]; intros acc Hnd; [now rewrite app_nil_r|].
    cbn [fold_left fst snd].
    rewrite map_insert_fresh.
    - rewrite IH; [now rewrite <- app_assoc|]. now rewrite <- app_assoc.
    - rewrite map_app in Hnd. cbn [map fst] in Hnd. apply NoDup_remove_2 in Hnd.
      intro Hin. apply Hnd. apply in_or_app. now left.
  Qed.

  Lemma map_of_nodup : forall kvs, NoDup (map fst kvs) -> map_of tval_eqb kvs = kvs.
  Proof. intros kvs Hnd. unfold map_of. now rewrite map_of_acc_nodup. Qed.

  Lemma as_int32_small : forall n, n <= listValueMaxSize ->
    (Z.of_N listValueMaxSize <? as_int32 n)%Z = false /\ (as_int32 n <? 0)%Z = false.
  Proof.
    intros n Hn. unfold as_int32, listValueMaxSize in *.
    replace (n <? 2 ^ 31) with true by (symmetry; apply N.ltb_lt; lia).
    split; apply Z.ltb_ge; lia.
  Qed.

  Section Body.
    Hypothesis Hd8 : refl_drop8 c = false.

    (* a field that is refused stops the struct, unless field errors are ignored; on a valid
       encoding no field is refused *)
    Lemma fields_with_ok ps bs xs r :
      seq_with (map fst ps) bs = ROk (xs, r) -> fields_with c ps bs = ROk (xs, r).
    Proof.
      revert bs xs r. induction ps as [|[p z] ps IH]; intros bs xs r; [exact (fun H => H)|].
      cbn [fields_with map fst seq_with]. destruct (p bs) as [[x r1]|l| |]; try discriminate.
      destruct (seq_with _ r1) as [[xs' r2]|l| |] eqn:E; try discriminate. now rewrite (IH _ _ _ E).
    Qed.

    Lemma fields_with_seq : refl_struct_ignores_err c = false ->
      forall ps bs, fields_with c ps bs = seq_with (map fst ps) bs.
    Proof.
      intros Hign ps. induction ps as [|[p z] ps IH]; intro bs; [reflexivity|].
      cbn [fields_with map fst seq_with]. rewrite Hign.
      destruct (p bs) as [[x r]|l| |]; try reflexivity. rewrite IH. reflexivity.
    Qed.

    Lemma refl_body_num : forall obj s w bs, scalar_width s = Some w ->
      refl_body c tval_eqb obj (TS s) bs = do '(n, r) <- read_num w bs; ROk (VNum w n, r).
    Proof.
      intros obj s w bs Hw. destruct s; try discriminate Hw; injection Hw as <-; cbn [refl_body scalar_width];
        now rewrite ?Hd8.
    Qed.

    Lemma fields_with_reads {V} (X : V -> tval -> Prop) (enc : V -> bytes) B ps l :
      Forall2 (fun p v => reads (refl_struct_ignores_err c = false) B p (X v) (enc v)) (map fst ps) l ->
      reads (refl_struct_ignores_err c = false) B (fields_with c ps) (Forall2 X l) (flat_map enc l).
    Proof.
      intro HF. destruct (seq_with_reads HF) as [He Hs]. split.
      - intros rest H. destruct (He rest H) as (xs & Hx & HX). exists xs. split; [exact (fields_with_ok _ _ _ _ Hx)|exact HX].
      - intros HR k Hk HB. rewrite (fields_with_seq HR). exact (Hs HR k Hk HB).
    Qed.

    (* ObjectReference holds no "o": it is read alike under any handler for "o", by evaluation on
       the concrete type, as WireProofs.spec_obj_body *)
    Lemma refl_obj_body obj bs :
      refl_body c tval_eqb no_dyn ty_ObjectReference bs = refl_body c tval_eqb obj ty_ObjectReference bs.
    Proof.
      lazy [ty_ObjectReference ty_MetaObject ty_MetaMethod ty_MetaMethodParameter ty_MetaSignal ty_MetaProperty
            refl_body map snd].
      reflexivity.
    Qed.

    Definition refl_reads_at (v : tval) (t : ty) : Prop :=
      forall B, refl_domain t = true -> lens_ok v = true ->
        reads (refl_struct_ignores_err c = false) B (refl_dec c tval_eqb t) (given (keys_nodup v) v) (spec_enc v).

    Lemma refl_members_reads {T} (proj : T -> ty) B l ts :
      Forall2 (fun x t => refl_reads_at x (proj t)) l ts ->
      forallb lens_ok l = true -> forallb (fun t => refl_domain (proj t)) ts = true ->
      reads (refl_struct_ignores_err c = false) B (fun bs => do '(xs, r) <-
                 fields_with c (map (fun t => (refl_dec c tval_eqb (proj t), zero_val (proj t))) ts) bs;
                 ROk (VTup xs, r))
              (given (keys_nodup (VTup l)) (VTup l)) (spec_enc (VTup l)).
    Proof.
      intros HF Hlens Hd. cbn [spec_enc].
      apply (reads_map (Forall2 (fun v => given (keys_nodup v) v) l));
        [|now intros ys Hys Hk%keys_nodup_VTup; rewrite (Forall2_given_id keys_nodup l ys Hys Hk)].
      apply fields_with_reads. rewrite map_map. cbn [fst].
      revert Hlens Hd. induction HF as [|x t l ts Hx _ IH]; cbn [map forallb]; intros Hlens Hd;
        [constructor|].
      apply andb_true_iff in Hlens as [Hl1 Hl2]. apply andb_true_iff in Hd as [Hd1 Hd2].
      constructor; [apply Hx|apply IH]; assumption.
    Qed.

    (* the count is within the bound, so neither the refusal of long lists nor the
       negative-length case is met: refl_neg_len_panics does not matter; distinct keys are
       needed only for the map to come back as it was written *)
    Lemma refl_dec_reads : forall v t, has_ty v t = true -> refl_reads_at v t.
    Proof.
      apply has_ty_ind; unfold refl_reads_at, refl_dec.
      - intros s w b Hw Hb B _ _. apply (reads_ext (fun bs => refl_body_num _ s w bs Hw)).
        exact (reads_if (reads_val (read_num_reads Hb))).
      - intros [] B _ _; exact (reads_if (reads_val (read_num_bytes (e := [_]) eq_refl))).
      - intros s Hs B _ _. exact (reads_if (reads_val (read_str_reads Hs))).
      - intros B _ _. now apply reads_ret.
      - intros t' l _ HF B Hdom Hlens. cbn [refl_body spec_enc lens_ok] in *.
        apply andb_true_iff in Hlens as [Hle Hl]. apply N.leb_le in Hle.
        apply reads_u32; [exact (N.le_lt_trans _ _ (2 ^ 32) Hle eq_refl)|].
        cbv zeta. destruct (as_int32_small _ Hle) as [-> ->].
        apply (reads_map (Forall2 (fun v => given (keys_nodup v) v) l));
          [|now intros ys Hys Hk%keys_nodup_VList; rewrite (Forall2_given_id keys_nodup l ys Hys Hk)].
        apply rep_reads; [|exact (uniform_elems t' l (proj1 (Forall_and_inv _ _ HF)))].
        rewrite forallb_forall in Hl. rewrite Forall_forall in *.
        intros x Hin. exact (proj2 (HF x Hin) _ Hdom (Hl x Hin)).
      - intros tk tv kvs _ HF B Hdom Hlens. cbn [refl_body spec_enc lens_ok refl_domain] in *.
        apply andb_true_iff in Hdom as [Hdk Hdv].
        apply andb_true_iff in Hlens as [Hle Hl]. apply N.leb_le in Hle.
        apply reads_u32; [exact (N.le_lt_trans _ _ (2 ^ 32) Hle eq_refl)|].
        cbv zeta. destruct (as_int32_small _ Hle) as [-> ->].
        apply (reads_map (Forall2 (fun kv => given (keys_nodup (fst kv) /\ keys_nodup (snd kv)) kv) kvs)).
        + apply rep_reads; [|exact (uniform_entries tk tv kvs (proj1 (Forall_and_inv _ _ HF)))].
          rewrite forallb_forall in Hl. rewrite Forall_forall in *.
          intros kv Hin. specialize (Hl kv Hin). apply andb_true_iff in Hl as [Hlk Hlv].
          destruct (HF kv Hin) as [_ [Hk Hv]].
          apply (reads_post (pair_with_reads (Hk _ Hdk Hlk) (Hv _ Hdv Hlv))).
          destruct kv as [k v]. intros [k' v'] [Hk' Hv'] [Kk Kv]. cbn [fst snd] in *.
          now rewrite (Hk' Kk), (Hv' Kv).
        + intros ys Hys [Hnd Hk]%keys_nodup_VMap. rewrite <- (Forall2_given_id _ kvs ys Hys Hk).
          now rewrite map_of_nodup.
      - intros ts l HF B Hd Hlens. exact (refl_members_reads (fun t => t) B l ts HF Hlens Hd).
      - intros n fs l HF B Hd Hlens. exact (refl_members_reads snd B l fs HF Hlens Hd).
      - intros v HQ B _ Hlens. exact (reads_ext (refl_obj_body _) (HQ B eq_refl Hlens)).
      - intros t' v _ _ B Hd. discriminate Hd.
    Qed.
  End Body.

  Theorem refl_dec_spec : forall v t rest,
    refl_drop8 c = false ->
    wf_ty t = true -> has_ty v t = true -> refl_domain t = true -> lens_ok v = true -> keys_nodup v ->
    refl_dec c tval_eqb t (spec_enc v ++ rest) = ROk (v, rest).
  Proof.
    intros v t rest Hd8 _ Hty Hdom Hlen Hkey. revert rest.
    exact (reads_given (fun B => refl_dec_reads Hd8 v t Hty B Hdom Hlen) Hkey).
  Qed.

  (* refutation: with the 8-bit cases missing the encoder loses the field *)
  Example refl_drop8_refuted :
    let v := VTup [VNum 1 127; VNum 4 1] in
    let t := TStruct "S"%string [("a"%string, TS SI8); ("b"%string, TS SI32)] in
    good_ty t = true /\ has_ty v t = true /\ refl_domain t = true /\ refl_enc wpinned v <> spec_enc v.
  Proof. vm_compute. repeat split; discriminate. Qed.
End P.

Print Assumptions tval_eqb_eq.
Print Assumptions refl_enc_spec.
Print Assumptions refl_dec_spec.
Print Assumptions refl_drop8_refuted.
