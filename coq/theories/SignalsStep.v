(* SignalsStep.v — the transition function of Signals.v as relations.  [Step]: what [step] does in any
   configuration, one constructor per branch ([step_Step]).  [CStep]: what is left of it in a [repaired]
   configuration from a state with UidInv, Conserve and Proto (SignalsInv4.Step_CStep). *)
From QV Require Import Signals SignalsLemmas.
Local Open Scope N_scope.

Definition dreply (f : dframe) : option (N * N) :=
  match f with DReply a m | DError a m => Some (a, m) | DEvent _ _ _ => None end.
Definition answer_sub (x : sub) (f : dframe) : sub :=
  match s_pc x, f with
  | PWaitReg _, DReply _ _ => acked x
  | PWaitReg _, _ => with_pc x PFailed
  | _, _ => with_pc x PAborting
  end.
Definition new_user (c : nat) (m sig uid : N) : user := {| u_uid := uid; u_sig := sig; u_mid := m; u_conn := c |}.
Definition no_derror (f : dframe) : Prop := match f with DError _ _ => False | _ => True end.
Definition is_dreply (f : dframe) : Prop := match f with DReply _ _ => True | _ => False end.
Lemma is_dreply_no_derror f : is_dreply f -> no_derror f.
Proof. now destruct f. Qed.

(* every branch of [step], in any configuration.  Of its guards, that the object is not blocked ([dead],
   [stuck]) and that an answer goes to the FIRST call waiting for it are left out: nothing reads them *)
Inductive Step (g : scfg) (st : state) : label -> state -> Prop :=
| SInstall c sig : Step g st (LInstall c sig) (st_install st c sig)
| SCountFirst s x :
    nth_error (subs st) s = Some x -> s_pc x = PInstalled ->
    may_enter g (cl st (s_conn x)) (s_sig x) = true -> c_count (cl st (s_conn x)) (s_sig x) = O ->
    Step g st (LCount s) (st_count_first st s x)
| SCountMore s x :
    nth_error (subs st) s = Some x -> s_pc x = PInstalled ->
    may_enter g (cl st (s_conn x)) (s_sig x) = true -> c_count (cl st (s_conn x)) (s_sig x) <> O ->
    Step g st (LCount s) (st_count_more st s x)
| SSendReg s x h :
    nth_error (subs st) s = Some x -> s_pc x = PNeedReg -> h <> 0 ->
    ~ In h (c_drawn (cl st (s_conn x))) ->
    Step g st (LSendReg s h) (st_send_reg st s x h)
| SMboxReg c m sig uid rest (Hpend : pend st = None) (Hup : up st c = UReg m sig uid :: rest) :
    (snapshot_send g = false -> emit st = None) ->
    find_idx (same_user g c uid) (table st) = None ->
    Step g st (LMbox c) (st_mbox st c rest (table st ++ [new_user c m sig uid]) (Some (c, DReply A_register m, None)))
| SMboxRegDead c m sig uid rest i (Hpend : pend st = None) (Hup : up st c = UReg m sig uid :: rest) :
    (snapshot_send g = false -> emit st = None) ->
    find_idx (same_user g c uid) (table st) = Some i -> dup_relock g = true ->
    Step g st (LMbox c) (st_mbox_deadlock st c rest i)
| SMboxRegErr c m sig uid rest i (Hpend : pend st = None) (Hup : up st c = UReg m sig uid :: rest) :
    (snapshot_send g = false -> emit st = None) ->
    find_idx (same_user g c uid) (table st) = Some i -> dup_relock g = false ->
    Step g st (LMbox c) (st_mbox st c rest (table st) (Some (c, DError A_register m, None)))
| SMboxUnreg c m sig uid rest i (Hpend : pend st = None) (Hup : up st c = UUnreg m sig uid :: rest) :
    (snapshot_send g = false -> emit st = None) ->
    find_idx (is_user c uid) (table st) = Some i ->
    Step g st (LMbox c) (st_mbox st c rest (swap_remove (table st) i)
                           (Some (c, DReply A_unregister m, Some (u_mid (nth i (table st) no_user)))))
| SMboxUnregErr c m sig uid rest (Hpend : pend st = None) (Hup : up st c = UUnreg m sig uid :: rest) :
    (snapshot_send g = false -> emit st = None) ->
    find_idx (is_user c uid) (table st) = None ->
    Step g st (LMbox c) (st_mbox st c rest (table st) (Some (c, DError A_unregister m, None)))
| SReply c f note (Hpend : pend st = Some (c, f, note)) : Step g st LReply (st_reply st c f note)
| SEmitSnap sig p : emit st = None -> Step g st (LEmitSnap sig p) (st_emit_snap st sig p)
| SEmitSend sig p u us : emit st = Some (sig, p, u :: us) -> Step g st LEmitSend (st_emit_send st sig p u us)
| SRecvEvent c sig m p rest :
    down st c = DEvent sig m p :: rest -> Step g st (LCliRecv c) (st_recv_event st c rest sig p)
| SRecvDrop c f act m rest :
    down st c = f :: rest -> dreply f = Some (act, m) -> find_idx (waits c act m) (subs st) = None ->
    Step g st (LCliRecv c) (st_pop_down st c rest)
| SRecvAnswer c f act m rest s x :
    down st c = f :: rest -> dreply f = Some (act, m) ->
    nth_error (subs st) s = Some x -> waits c act m x = true ->
    Step g st (LCliRecv c) (st_recv_answer g st c rest s x (answer_sub x f))
| SCancelLast s x :
    nth_error (subs st) s = Some x -> s_pc x = PAcked ->
    may_enter g (cl st (s_conn x)) (s_sig x) = true -> Nat.pred (c_count (cl st (s_conn x)) (s_sig x)) = O ->
    Step g st (LCancel s) (st_cancel_last st s x)
| SCancelMore s x :
    nth_error (subs st) s = Some x -> s_pc x = PAcked ->
    may_enter g (cl st (s_conn x)) (s_sig x) = true -> Nat.pred (c_count (cl st (s_conn x)) (s_sig x)) <> O ->
    Step g st (LCancel s) (st_cancel_more st s x)
| SSendUnreg s x :
    nth_error (subs st) s = Some x -> s_pc x = PNeedUnreg -> Step g st (LSendUnreg s) (st_send_unreg st s x)
| SDeliver s x p q :
    nth_error (subs st) s = Some x -> live (s_pc x) = true -> s_queue x = p :: q ->
    Step g st (LDeliver s) (set_sub st s (sub_deliver x p q))
| SFanClose s x :
    nth_error (subs st) s = Some x -> s_pc x = PAborting -> Step g st (LFanClose s) (set_sub st s (sub_close x)).

(* [clean] without the emitter's switch: bus/signal.go compares (id, connection) and SubscribeID / cancel
   hold their section, but UpdateSignal still sends after RUnlock *)
Definition repaired (g : scfg) : Prop := uid_global g = false /\ sub_unserialised g = false.
Lemma clean_repaired g : clean g -> repaired g.
Proof. intros (H1 & _ & H3). now split. Qed.

(* What a label does from a state of a [repaired] configuration in which handler ids are distinct per
   connection (UidInv), every answer has its waiting call (Conserve) and the registration protocol is
   in phase (Proto): SignalsInv4.Step_CStep shows that [Step] does nothing else there.  Four branches
   of [Step] cannot be taken from such a state and are no constructors: a registerEvent that finds its
   id in the table (refused, or deadlocking under dup_relock), an unregisterEvent that finds no entry,
   an answer nobody waits for.  The guards are stated as what they mean there: [may_enter] is "the
   section is free", the [find_idx] of unregisterEvent is the entry it found, the answer being written
   is a reply and no answer is an error.  The mailbox goroutine's wait for the emitter stays as it is
   in [step], under the switch snapshot_send: only AckInv reads it.  [dead] and [stuck] are not
   mentioned: [Rest] keeps both false and no other invariant reads them; nor is the freshness of the
   handler id a registration draws: only KInv reads it, over [Step]. *)
Inductive CStep (g : scfg) (st : state) : label -> state -> Prop :=
| CInstall c sig : CStep g st (LInstall c sig) (st_install st c sig)
| CCountFirst s x (Hx : nth_error (subs st) s = Some x) (Hpc : s_pc x = PInstalled)
    (Hfree : c_lock (cl st (s_conn x)) (s_sig x) = false) (Hcnt : c_count (cl st (s_conn x)) (s_sig x) = O) :
    CStep g st (LCount s) (st_count_first st s x)
| CCountMore s x (Hx : nth_error (subs st) s = Some x) (Hpc : s_pc x = PInstalled)
    (Hfree : c_lock (cl st (s_conn x)) (s_sig x) = false) (Hcnt : c_count (cl st (s_conn x)) (s_sig x) <> O) :
    CStep g st (LCount s) (st_count_more st s x)
| CSendReg s x h (Hx : nth_error (subs st) s = Some x) (Hpc : s_pc x = PNeedReg) :
    CStep g st (LSendReg s h) (st_send_reg st s x h)
| CMboxReg c m sig uid rest (Hpend : pend st = None) (Hup : up st c = UReg m sig uid :: rest)
    (Hsnap : snapshot_send g = false -> emit st = None) :
    CStep g st (LMbox c) (st_mbox st c rest (table st ++ [new_user c m sig uid]) (Some (c, DReply A_register m, None)))
| CMboxUnreg c m sig uid rest i e (Hpend : pend st = None) (Hup : up st c = UUnreg m sig uid :: rest)
    (Hsnap : snapshot_send g = false -> emit st = None) (Hent : nth_error (table st) i = Some e)
    (Huser : is_user c uid e = true) :
    CStep g st (LMbox c) (st_mbox st c rest (swap_remove (table st) i) (Some (c, DReply A_unregister m, Some (u_mid e))))
| CReply c f note (Hpend : pend st = Some (c, f, note)) (Hreply : is_dreply f) :
    CStep g st LReply (st_reply st c f note)
| CEmitSnap sig p (Hemit : emit st = None) :
    CStep g st (LEmitSnap sig p) (st_emit_snap st sig p)
| CEmitSend sig p u us (Hemit : emit st = Some (sig, p, u :: us)) :
    CStep g st LEmitSend (st_emit_send st sig p u us)
| CRecvEvent c sig m p rest (Hdown : down st c = DEvent sig m p :: rest) :
    CStep g st (LCliRecv c) (st_recv_event st c rest sig p)
| CRecvAnswer c f act m rest s x (Hdown : down st c = f :: rest) (Hrep : dreply f = Some (act, m))
    (Hnoerr : no_derror f) (Hx : nth_error (subs st) s = Some x) (Hw : waits c act m x = true) :
    CStep g st (LCliRecv c) (st_recv_answer g st c rest s x (answer_sub x f))
| CCancelLast s x (Hx : nth_error (subs st) s = Some x) (Hpc : s_pc x = PAcked)
    (Hfree : c_lock (cl st (s_conn x)) (s_sig x) = false) (Hcnt : Nat.pred (c_count (cl st (s_conn x)) (s_sig x)) = O) :
    CStep g st (LCancel s) (st_cancel_last st s x)
| CCancelMore s x (Hx : nth_error (subs st) s = Some x) (Hpc : s_pc x = PAcked)
    (Hfree : c_lock (cl st (s_conn x)) (s_sig x) = false)
    (Hcnt : Nat.pred (c_count (cl st (s_conn x)) (s_sig x)) <> O) :
    CStep g st (LCancel s) (st_cancel_more st s x)
| CSendUnreg s x (Hx : nth_error (subs st) s = Some x) (Hpc : s_pc x = PNeedUnreg) :
    CStep g st (LSendUnreg s) (st_send_unreg st s x)
| CDeliver s x p q (Hx : nth_error (subs st) s = Some x) (Hlive : live (s_pc x) = true) (Hq : s_queue x = p :: q) :
    CStep g st (LDeliver s) (set_sub st s (sub_deliver x p q))
| CFanClose s x (Hx : nth_error (subs st) s = Some x) (Hpc : s_pc x = PAborting) :
    CStep g st (LFanClose s) (set_sub st s (sub_close x)).

(* the state after a step, field by field: unfolds the st_* of [Step] and the projections, everywhere *)
Ltac psimpl := cbn [st_install st_count_first st_count_more st_send_reg st_mbox st_mbox_deadlock st_reply st_emit_snap
  st_emit_send st_pop_down st_recv_event st_recv_answer st_cancel_last st_cancel_more st_send_unreg
  set_sub set_cl set_race push_up push_down release
  subs cl up down table pend emit dead stuck overflow nconn dlog ulog elog race17] in *.

Lemma step_Step g st l st' : step g st l = Some st' -> Step g st l st'.
Proof.
  destruct l as [c sig|s|s h|c| |sig p| |c|s|s|s|s]; cbn [step]; intro H.
  - injection H as <-. constructor.
  - destruct (nth_error (subs st) s) as [x|] eqn:Ex; [|discriminate].
    destruct (s_pc x) eqn:Ep; try discriminate.
    destruct (may_enter g (cl st (s_conn x)) (s_sig x)) eqn:Em; [|discriminate].
    destruct (Nat.eqb (c_count (cl st (s_conn x)) (s_sig x)) 0) eqn:Ec; injection H as <-.
    + apply Nat.eqb_eq in Ec. now apply SCountFirst.
    + apply Nat.eqb_neq in Ec. now apply SCountMore.
  - destruct (nth_error (subs st) s) as [x|] eqn:Ex; [|discriminate].
    destruct (s_pc x) eqn:Ep; try discriminate.
    destruct (negb (h =? 0) && negb (existsb (N.eqb h) (c_drawn (cl st (s_conn x))))) eqn:Eg; [|discriminate].
    injection H as <-. apply andb_prop in Eg as [E1 E2]. apply negb_true_iff in E1, E2.
    apply N.eqb_neq in E1. rewrite <- not_true_iff_false, (existsb_eqb_In N.eqb N.eqb_eq) in E2. now apply SSendReg.
  - destruct (dead st); [discriminate|]. destruct (stuck st c); [discriminate|]. cbn [orb] in H.
    destruct (pend st) eqn:Epd; [discriminate|]. destruct (up st c) as [|f rest] eqn:Eu; [discriminate|].
    destruct (negb (snapshot_send g) && emitting st) eqn:Ee; [discriminate|].
    assert (He : snapshot_send g = false -> emit st = None).
    { intro Hs. rewrite Hs in Ee. cbn in Ee. unfold emitting in Ee. now destruct (emit st). }
    destruct f as [m sig uid|m sig uid].
    + destruct (find_idx (same_user g c uid) (table st)) as [i|] eqn:Ef.
      * destruct (dup_relock g) eqn:Er; injection H as <-.
        -- apply (SMboxRegDead g st c m sig uid rest i); assumption.
        -- apply (SMboxRegErr g st c m sig uid rest i); assumption.
      * injection H as <-. apply (SMboxReg g st c m sig uid rest); assumption.
    + destruct (find_idx (is_user c uid) (table st)) as [i|] eqn:Ef; injection H as <-.
      * apply (SMboxUnreg g st c m sig uid rest i); assumption.
      * apply (SMboxUnregErr g st c m sig uid rest); assumption.
  - destruct (dead st); [discriminate|]. destruct (pend st) as [[[c f] note]|] eqn:Ep; [|discriminate].
    injection H as <-. now apply SReply.
  - unfold emitting in H. destruct (emit st) eqn:Ee; [discriminate|]. injection H as <-. now apply SEmitSnap.
  - destruct (emit st) as [[[sig p] [|u us]]|] eqn:Ee; try discriminate. injection H as <-. now apply SEmitSend.
  - destruct (down st c) as [|f rest] eqn:Ed; [discriminate|].
    assert (HA : forall act m, dreply f = Some (act, m) ->
              match find_idx (waits c act m) (subs st) with
              | None => Some (st_pop_down st c rest)
              | Some s => match nth_error (subs st) s with
                          | None => Some (st_pop_down st c rest)
                          | Some x => Some (st_recv_answer g st c rest s x (answer_sub x f))
                          end
              end = Some st' -> Step g st (LCliRecv c) st').
    { intros act m Er HH. destruct (find_idx (waits c act m) (subs st)) as [s|] eqn:Ef.
      - destruct (find_idx_some _ _ _ Ef) as (x & Ex & Wx). rewrite Ex in HH. injection HH as <-.
        eapply SRecvAnswer; eassumption.
      - injection HH as <-. eapply SRecvDrop; eassumption. }
    destruct f as [act m|act m|sig m p].
    1,2: apply (HA act m eq_refl); rewrite <- H; destruct (find_idx _ _) as [s|]; [|reflexivity];
      (destruct (nth_error (subs st) s) as [x|]; [|reflexivity]); unfold answer_sub; destruct (s_pc x); reflexivity.
    injection H as <-. apply (SRecvEvent g st c sig m p rest); assumption.
  - destruct (nth_error (subs st) s) as [x|] eqn:Ex; [|discriminate].
    destruct (s_pc x) eqn:Ep; try discriminate.
    destruct (may_enter g (cl st (s_conn x)) (s_sig x)) eqn:Em; [|discriminate].
    destruct (Nat.eqb (Nat.pred (c_count (cl st (s_conn x)) (s_sig x))) 0) eqn:Ec; injection H as <-.
    + apply Nat.eqb_eq in Ec. now apply SCancelLast.
    + apply Nat.eqb_neq in Ec. now apply SCancelMore.
  - destruct (nth_error (subs st) s) as [x|] eqn:Ex; [|discriminate].
    destruct (s_pc x) eqn:Ep; try discriminate. injection H as <-. now apply SSendUnreg.
  - destruct (nth_error (subs st) s) as [x|] eqn:Ex; [|discriminate].
    destruct (live (s_pc x)) eqn:El; [|discriminate]. destruct (s_queue x) as [|p q] eqn:Eq; [discriminate|].
    injection H as <-. now apply SDeliver.
  - destruct (nth_error (subs st) s) as [x|] eqn:Ex; [|discriminate].
    destruct (s_pc x) eqn:Ep; try discriminate. injection H as <-. now apply SFanClose.
Qed.
