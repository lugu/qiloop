(* PropertySubsProofs.v — proofs about PropertySubs.v: whatever the clients register and
   unregister, with whatever user ids, the subscribers an accepted write notifies are exactly the
   registrations for the property that were acknowledged and not unregistered since. *)
From Coq Require Import Permutation.
From QV Require Import Bytes Property ListFacts PropertyProofs PropertySubs.
Import ListNotations.
Local Open Scope N_scope.

Definition key (r : reg) : nat * N := (r_conn r, r_uid r).

Lemma same_user_key : forall c uid r, same_user c uid r = true <-> key r = (c, uid).
Proof. intros c uid r. exact (sub_eqb_eq (key r) (c, uid)). Qed.

Lemma sstep_register : forall c valid s cn obj sig uid mid,
  sstep c valid s (SRegister cn obj sig uid mid) =
    if object_ok obj && negb (existsb (same_user cn uid) (s_regs s))
    then ({| s_val := s_val s;
             s_regs := s_regs s ++ [{| r_conn := cn; r_uid := uid; r_sig := sig; r_mid := mid |}] |}, RDone, [])
    else (s, RFail, []).
Proof.
  intros. cbn [sstep]. unfold add_user. cbn [r_conn r_uid].
  destruct (object_ok obj), (existsb (same_user cn uid) (s_regs s)); reflexivity.
Qed.

Lemma register_keeps_subscribers : forall c valid s cn obj sig uid mid s' r ev,
  sstep c valid s (SRegister cn obj sig uid mid) = (s', r, ev) ->
  exists extra, subs_of prop_uid (s_regs s') = subs_of prop_uid (s_regs s) ++ extra.
Proof.
  intros c valid s cn obj sig uid mid s' r ev H. rewrite sstep_register in H.
  destruct (_ && _); injection H as <- _ _.
  - unfold subs_of. cbn [s_regs]. rewrite filter_app, map_app. eexists; reflexivity.
  - exists []. now rewrite app_nil_r.
Qed.

Definition not_subscribe (o : pop) : bool := match o with PSubscribe _ _ => false | _ => true end.

Lemma sstep_op : forall c valid s o, sstep c valid s (SOp o) =
  match check c valid o with
  | Some v => ({| s_val := Some v; s_regs := s_regs s |}, RDone, owed (s_regs s) v)
  | None => (s, match o with PGet nm => read (pstate_of s) nm | _ => RFail end, [])
  end.
Proof.
  intros c valid [v l] o. destruct o; try reflexivity.
  all: cbn [sstep]; rewrite pstep_spec; destruct (check _ _ _); [|reflexivity].
  all: cbn [pstate_of p_subs p_val s_regs]; unfold owed, subs_of, notify; now rewrite !map_map.
Qed.

Lemma srejected_unchanged : forall c valid s o s' ev,
  sstep c valid s (SOp o) = (s', RFail, ev) -> s' = s /\ ev = [].
Proof.
  intros c valid s o s' ev. rewrite sstep_op. destruct (check c valid o); [discriminate|]. intros [= <- _ <-]. auto.
Qed.

Lemma last_removelast_perm : forall (x : reg) r d, Permutation (x :: r) (last (x :: r) d :: removelast (x :: r)).
Proof.
  intros x r d. apply Permutation_sym. eapply Permutation_trans; [apply Permutation_cons_append|].
  now rewrite <- app_removelast_last.
Qed.

Lemma filter_all : forall (f : reg -> bool) l, (forall x, In x l -> f x = true) -> filter f l = l.
Proof.
  intros f l. induction l as [|x r IH]; cbn; intros H; auto.
  rewrite (H x) by auto. f_equal. apply IH. intros; apply H; auto.
Qed.

(* with distinct keys, removing the first entry of a user removes all there is of that user *)
Lemma remove_user_perm : forall cn uid l l', NoDup (map key l) ->
  remove_user (same_user cn uid) l = Some l' ->
  Permutation l' (filter (fun x => negb (same_user cn uid x)) l).
Proof.
  intros cn uid l. induction l as [|x r IH]; cbn; intros l' Hn H; try discriminate.
  inversion Hn as [|? ? Hfresh Hn']; subst.
  destruct (same_user cn uid x) eqn:Hx; cbn.
  - assert (Hr : filter (fun y => negb (same_user cn uid y)) r = r).
    { apply filter_all. intros y Hy. destruct (same_user cn uid y) eqn:Hk; [exfalso|reflexivity].
      apply same_user_key in Hx, Hk. apply Hfresh. rewrite Hx, <- Hk. now apply in_map. }
    rewrite Hr. inversion H; subst. destruct r as [|y r']; auto.
    apply Permutation_sym, last_removelast_perm.
  - destruct (remove_user (same_user cn uid) r) as [l1|] eqn:Hr; cbn in H; inversion H; subst.
    constructor. apply IH; auto.
Qed.

Definition sinv (s : sstate) (act : list reg) : Prop :=
  Permutation (s_regs s) act /\ NoDup (map key (s_regs s)).

Lemma sinv_step : forall c valid s act o s' r ev, sinv s act ->
  sstep c valid s o = (s', r, ev) -> sinv s' (track act o r).
Proof.
  intros c valid s act o s' r ev [Hp Hn] H. destruct o as [o | cn obj sig uid mid | cn obj sig uid | x | cn a].
  - rewrite sstep_op in H. destruct (check c valid o); injection H as <- _ _; split; assumption.
  - (* register: refused = nothing moves; accepted = appended on both sides, and the new key is fresh *)
    rewrite sstep_register in H.
    destruct (object_ok obj); [destruct (existsb _ _) eqn:Hex|]; injection H as <- <- _; try (split; assumption).
    split; cbn [s_regs]; [apply Permutation_app_tail, Hp|].
    rewrite map_app. apply NoDup_snoc; [exact Hn|]. intros Hin.
    apply in_map_iff in Hin as (y & Hy & Hin). apply same_user_key in Hy.
    apply not_true_iff_false in Hex. apply Hex, existsb_exists. eauto.
  - (* unregister: the table drops the first entry of the user, the clients all of them: the same with distinct keys *)
    cbn [sstep] in H. destruct (object_ok obj); [|injection H as <- <- _; split; assumption].
    destruct (remove_user _ _) as [l|] eqn:Hr; injection H as <- <- _; [|split; assumption].
    pose proof (remove_user_perm _ _ _ _ Hn Hr) as Hl. split; cbn [s_regs track].
    + rewrite Hl. apply Permutation_filter, Hp.
    + rewrite Hl. apply NoDup_map_filter, Hn.
  - injection H as <- <- _. split; assumption.
  - injection H as <- <- _. split; assumption.
Qed.

Definition is_aux (o : sop) : bool := match o with SAux _ _ => true | _ => false end.

Lemma srun_erase_aux : forall c valid ops s act,
  srun c valid s act (filter (fun o => negb (is_aux o)) ops) = srun c valid s act ops.
Proof.
  intros c valid ops. induction ops as [|o r IH]; intros s act; [reflexivity|].
  destruct o as [o | cn obj sig uid mid | cn obj sig uid | x | cn a]; cbn [filter is_aux negb srun].
  1-4: match goal with |- context [sstep ?c ?v ?s ?o] => destruct (sstep c v s o) as [[s1 res] ev] end; apply IH.
  cbn [sstep track]. apply IH.
Qed.

Lemma sinv_run : forall c valid ops s act s' act', sinv s act ->
  srun c valid s act ops = (s', act') -> sinv s' act'.
Proof.
  intros c valid ops. induction ops as [|o r IH]; cbn; intros s act s' act' Hi H.
  - inversion H; subst; auto.
  - destruct (sstep c valid s o) as [[s1 res] ev] eqn:Hs.
    eapply IH; [|exact H]. eapply sinv_step; eauto.
Qed.

Lemma sinv_init : sinv sinit [].
Proof. split; cbn; constructor. Qed.

Lemma acknowledged_subscriptions_one_event : forall c valid ops s act o s' ev,
  srun c valid sinit [] ops = (s, act) -> is_write o = true ->
  sstep c valid s (SOp o) = (s', RDone, ev) ->
  exists v, check c valid o = Some v /\ s_val s' = Some v /\ Permutation ev (owed act v).
Proof.
  intros c valid ops s act o s' ev Hr Hw Hs.
  destruct (sinv_run _ _ _ _ _ _ _ sinv_init Hr) as [Hp _]. rewrite sstep_op in Hs.
  destruct (check c valid o) as [v|]; [|destruct o; discriminate]. injection Hs as <- <-.
  exists v. repeat split. apply Permutation_map, Permutation_filter, Hp.
Qed.

Definition mk_reg (c : nat) (uid sig mid : N) : reg := {| r_conn := c; r_uid := uid; r_sig := sig; r_mid := mid |}.
Definition i32 (x : N) : cval := {| cv_sig := prop_sig; cv_data := le 4 x |}.
Definition ex_sops : list sop :=
  [SRegister 0 1 prop_uid 42 5;        (* connection 0 subscribes to "delay" with user id 42 *)
   SRegister 0 1 boom_uid 42 9;        (* ... and tries "boom" with the same id: refused *)
   SRegister 1 1 boom_uid 42 3;        (* the same id on another connection is another user *)
   SOp (PSet (NmStr prop_name) (i32 33));
   SSignal 8;
   SUnregister 0 1 boom_uid 42;        (* the signal id of unregisterEvent is not looked at *)
   SOp (PUpdate 34);
   SRegister 0 0 prop_uid 42 11;       (* registering again after unregistering *)
   SOp (PSet (NmUint prop_uid) (i32 (2 ^ 32 - 1)));
   SOp (PUpdate 35)].

(* statistics switched on by connection 2; connections 0 and 1 do the same thing (same user id);
   traces switched on by connection 0, statistics off by connection 1; connection 1 leaves *)
Definition ex_feature_sops : list sop :=
  [SAux 2 81;
   SRegister 0 1 prop_uid 42 5;
   SRegister 1 1 prop_uid 42 5;
   SOp (PSet (NmStr prop_name) (i32 33));
   SAux 0 85; SAux 1 81;
   SOp (PUpdate 34);
   SUnregister 1 1 prop_uid 42;
   SOp (PSet (NmStr prop_name) (i32 35))].

Fixpoint srun_out (c : pcfg) (valid : N -> bool) (s : sstate) (ops : list sop) : list (pres * list sevent) :=
  match ops with
  | [] => []
  | o :: r => let '(s1, res, ev) := sstep c valid s o in (res, ev) :: srun_out c valid s1 r
  end.
