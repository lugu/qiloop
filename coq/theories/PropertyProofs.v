(* PropertyProofs.v — the C14 lemmas: the sequential register (validated, typed, one event per
   accepted write, reads return the last accepted write) and the simulation of the fine-grained
   transition system by the atomic object of Lin.v (qstep_sim, qrun_sim), from which props/C14.v
   gets linearizability through LinProofs.atomic_lin; then the account of what a subscriber receives
   (W: data notified and not yet returned; events_match_accepted: events so far against qaccepted). *)
From Coq Require Import String Permutation.
From QV Require Import Bytes Property Lin LinProofs.
Import ListNotations.
Local Open Scope N_scope.

Section Seq.
  Variable c : pcfg.
  Variable valid : N -> bool.

  Lemma check_accepts : forall o v, check c valid o = Some v ->
    is_write o = true /\ validate valid (cv_data v) = true /\ is_typed v || store_untyped c = true /\
    match o with
    | PSet _ v0 => v = v0
    | PUpdate x => v = {| cv_sig := prop_sig; cv_data := le 4 x |}
    | _ => True
    end.
  Proof.
    intros [nm|nm v0|x|cn mid] v H; try discriminate; unfold check in H.
    - destruct (set_name nm); [|discriminate].
      destruct (_ && _) eqn:E in H; inversion H; subst.
      apply andb_prop in E as [E E3]. apply andb_prop in E as [_ E2]. auto.
    - destruct (validate valid (le 4 x)) eqn:E; inversion H; subst. repeat split; assumption || reflexivity.
  Qed.

  Lemma check_is_write : forall o v, check c valid o = Some v -> is_write o = true.
  Proof. intros o v H. apply (check_accepts _ _ H). Qed.

  Lemma pstep_spec : forall s o, pstep c valid s o =
    match check c valid o with
    | Some v => ({| p_val := Some v; p_subs := p_subs s |}, RDone, notify (p_subs s) v)
    | None =>
        match o with
        | PGet nm => (s, read s nm, [])
        | PSubscribe cn mid => ({| p_val := p_val s; p_subs := p_subs s ++ [(cn, mid)] |}, RDone, [])
        | _ => (s, RFail, [])
        end
    end.
  Proof. intros s [nm|nm v0|x|cn mid]; try reflexivity; unfold pstep; destruct (check _ _ _); reflexivity. Qed.

  Theorem rejected_unchanged : forall s o s' ev, pstep c valid s o = (s', RFail, ev) -> s' = s /\ ev = [].
  Proof.
    intros s o s' ev. rewrite pstep_spec.
    destruct (check c valid o); [|destruct o]; intros H; try discriminate H; injection H; intros; subst; auto.
  Qed.

  Theorem accepted_one_event : forall s o s' ev, is_write o = true -> pstep c valid s o = (s', RDone, ev) ->
    exists v, check c valid o = Some v /\ p_val s' = Some v /\ p_subs s' = p_subs s /\
              ev = map (fun sub => (sub, cv_data v)) (p_subs s).
  Proof.
    intros s o s' ev Hw. rewrite pstep_spec.
    destruct (check c valid o) as [v|]; [|destruct o; discriminate]. intros [= <- <-]. exists v. repeat split.
  Qed.

  Theorem write_outcomes : forall s o, is_write o = true ->
    snd (fst (pstep c valid s o)) = RDone \/ snd (fst (pstep c valid s o)) = RFail.
  Proof.
    intros s o Hw. rewrite pstep_spec. destruct (check c valid o); [|destruct o; try discriminate Hw]; auto.
  Qed.

  Lemma pstep_val : forall s o, p_val (fst (fst (pstep c valid s o))) =
    match check c valid o with Some v => Some v | None => p_val s end.
  Proof. intros s o. rewrite pstep_spec. destruct (check c valid o); [|destruct o]; reflexivity. Qed.

  Definition well_typed (v : cval) : Prop :=
    cv_sig v = prop_sig /\ List.length (cv_data v) = 4%nat /\
    exists x, dec_i32 (cv_data v) = Some x /\ valid x = true.

  Lemma checked_well_typed : pclean c -> forall o v, check c valid o = Some v -> well_typed v.
  Proof.
    intros Hc o v H. destruct (check_accepts _ _ H) as (_ & Hv & Ht & _).
    rewrite Hc, orb_false_r in Ht. apply andb_prop in Ht as [H1 H2].
    apply String.eqb_eq in H1. apply Nat.eqb_eq in H2.
    unfold validate in Hv. destruct (dec_i32 (cv_data v)) as [x|] eqn:E; [|discriminate].
    repeat split; auto. exists x; auto.
  Qed.

  Theorem stored_well_typed : pclean c -> forall s, preach c valid s ->
    forall v, p_val s = Some v -> well_typed v.
  Proof.
    intros Hc s R. induction R as [|s o R IH]; intros v; [discriminate|].
    rewrite pstep_val. destruct (check c valid o) eqn:E; [|apply IH].
    intros [= <-]. exact (checked_well_typed Hc _ _ E).
  Qed.

  Lemma prun_cons : forall s o r,
    fst (prun c valid s (o :: r)) = fst (prun c valid (fst (fst (pstep c valid s o))) r).
  Proof.
    intros s o r. simpl. destruct (pstep c valid s o) as [[s1 res] ev]. simpl.
    destruct (prun c valid s1 r) as [s2 l]. reflexivity.
  Qed.

  Lemma prun_last : forall ops s, p_val (fst (prun c valid s ops)) = last_accepted c valid (p_val s) ops.
  Proof.
    induction ops as [|o r IH]; intros s; [reflexivity|]. rewrite prun_cons, IH, pstep_val. reflexivity.
  Qed.

  Theorem read_returns_last_accepted : forall ops,
    read (fst (prun c valid pinit ops)) (NmStr prop_name) =
      match last_accepted c valid None ops with Some v => RVal v | None => RFail end.
  Proof. intros ops. unfold read. rewrite String.eqb_refl, prun_last. reflexivity. Qed.
End Seq.

Definition str_abcd : cval :=
  {| cv_sig := "s"; cv_data := unhex "0400000061626364" |}.     (* value.String("abcd") *)
Definition any_valid (x : N) : bool := true.
Definition nonneg (x : N) : bool := x <? 2 ^ 31.                 (* the Bomb's validator: duration >= 0 *)

Definition ex_ops : list pop :=
  [PGet (NmStr prop_name); PSubscribe 1 5; PUpdate 10; PSet (NmStr prop_name) {| cv_sig := "i"; cv_data := le 4 12 |};
   PSet (NmUint 101) {| cv_sig := "i"; cv_data := le 4 (2 ^ 32 - 1) |}; PSet (NmStr prop_name) str_abcd;
   PGet (NmStr prop_name)].
Lemma pres_eqb_eq : forall a b, pres_eqb a b = true <-> a = b.
Proof.
  split.
  - destruct a as [[s1 d1]| |], b as [[s2 d2]| |]; simpl; try discriminate; auto.
    intros H. apply andb_prop in H as [H1 H2]. apply String.eqb_eq in H1. apply eqb_bytes_eq in H2. now subst.
  - intros <-. destruct a as [v| |]; simpl; auto. rewrite String.eqb_refl. now apply eqb_bytes_eq.
Qed.

Section Conc.
  Variable c : pcfg.
  Variable valid : N -> bool.

  Lemma qget_qdel : forall t t' m, qget t' (qdel t m) = if t =? t' then None else qget t' m.
  Proof. exact (aget_adel N.eqb_spec). Qed.
  Lemma qget_qset : forall t t' v m, qget t' (qset t v m) = if t =? t' then Some v else qget t' m.
  Proof. exact (aget_aset N.eqb_spec). Qed.

  Notation atmap := (list (N * tstate pop pres)).

  Definition all_thr (P : thr -> Prop) (m : thrmap) : Prop := forall t th, qget t m = Some th -> P th.
  Lemma all_nil : forall P, all_thr P [].
  Proof. intros P t th. discriminate. Qed.
  Lemma all_set : forall P m t th, all_thr P m -> P th -> all_thr P (qset t th m).
  Proof. intros P m t th H Hth t' th'. rewrite qget_qset. destruct (t =? t'); [intros [= <-]; exact Hth|apply H]. Qed.
  Lemma all_del : forall P m t, all_thr P m -> all_thr P (qdel t m).
  Proof. intros P m t H t' th'. rewrite qget_qdel. destruct (t =? t'); [discriminate|apply H]. Qed.

  (* a thread as the atomic object of Lin.v sees it *)
  Definition abs_thr (th : thr) : tstate pop pres :=
    match th_phase th with
    | PhStart | PhChecked _ => TPend (th_op th) (th_inv th)
    | PhSaved _ => TDone (th_op th) (th_inv th) RDone
    | PhDone r => TDone (th_op th) (th_inv th) r
    end.
  Definition thr_ok (th : thr) : Prop :=
    match th_phase th with
    | PhChecked v | PhSaved v => check c valid (th_op th) = Some v
    | _ => True
    end.
  Definition sim (m : thrmap) (am : atmap) : Prop :=
    forall t, tget t am = option_map abs_thr (qget t m).
  Definition threads_ok : thrmap -> Prop := all_thr thr_ok.

  Lemma sim_get : forall m am t th, sim m am -> qget t m = Some th -> tget t am = Some (abs_thr th).
  Proof. intros m am t th H Hg. now rewrite (H t), Hg. Qed.
  Lemma sim_set : forall m am t th, sim m am -> sim (qset t th m) (tset t (abs_thr th) am).
  Proof. intros m am t th H t'. rewrite tget_tset, qget_qset. destruct (t =? t'); [reflexivity|apply H]. Qed.
  Lemma sim_del : forall m am t, sim m am -> sim (qdel t m) (tdel t am).
  Proof. intros m am t H t'. rewrite tget_tdel, qget_qdel. destruct (t =? t'); [reflexivity|apply H]. Qed.
  Lemma sim_same : forall m am t th th', sim m am -> qget t m = Some th -> abs_thr th' = abs_thr th ->
    sim (qset t th' m) am.
  Proof.
    intros m am t th th' H Hg Ha t'. rewrite qget_qset. destruct (N.eqb_spec t t') as [<-|]; [|apply H].
    simpl. rewrite Ha. exact (sim_get _ _ _ _ H Hg).
  Qed.

  (* what a client sees: invocations and responses *)
  Fixpoint qvis (tr : list (N * qlabel)) : list (tevent pop pres) :=
    match tr with
    | [] => []
    | (u, QInv t o) :: r => (u, EInv t o) :: qvis r
    | (u, QRet t x) :: r => (u, ERet t x) :: qvis r
    | _ :: r => qvis r
    end.

  Lemma rstep_check : forall s o v, check c valid o = Some v ->
    rstep c valid s o = ({| p_val := Some v; p_subs := p_subs s |}, RDone).
  Proof. intros s o v H. unfold rstep. now rewrite pstep_spec, H. Qed.

  (* What thread t, running o, does in one phase: a check that accepts only records the value (the
     write takes effect at the save); a check of anything else — a read, a subscription, a rejected
     write: [check] says None — is the whole operation of the register. *)
  Inductive tmove (s : pstate) (t : N) (o : pop) : phase -> qlabel -> pstate -> phase -> list pevent -> Prop :=
  | TChecked : forall v (Ec : check c valid o = Some v), tmove s t o PhStart (QCheck t) s (PhChecked v) []
  | TWhole : forall (Ec : check c valid o = None),
      tmove s t o PhStart (QCheck t) (fst (rstep c valid s o)) (PhDone (snd (rstep c valid s o))) []
  | TSave : forall v, tmove s t o (PhChecked v) (QSave t) {| p_val := Some v; p_subs := p_subs s |} (PhSaved v) []
  | TNotify : forall v, tmove s t o (PhSaved v) (QNotify t) s (PhDone RDone) (notify (p_subs s) v).

  (* A step of a run: a call is made, a thread (written out as a record) moves, a call returns.  A return
     announces the thread's own result: a run looks at qret_ok first. *)
  Inductive qmove (s : pstate) (m : thrmap) : N * qlabel -> pstate * thrmap -> list pevent -> Prop :=
  | MInv : forall u t o (Eg : qget t m = None),
      qmove s m (u, QInv t o) (s, qset t {| th_op := o; th_inv := u; th_phase := PhStart |} m) []
  | MThr : forall u t o i p l s' p' ev (Eg : qget t m = Some {| th_op := o; th_inv := i; th_phase := p |})
      (T : tmove s t o p l s' p' ev),
      qmove s m (u, l) (s', qset t {| th_op := o; th_inv := i; th_phase := p' |} m) ev
  | MRet : forall u t o i r (Eg : qget t m = Some {| th_op := o; th_inv := i; th_phase := PhDone r |}),
      qmove s m (u, QRet t r) (s, qdel t m) [].

  Lemma qstep_spec : forall s m e st' ev, qret_ok m (snd e) = true -> qstep c valid (s, m) e = Some (st', ev) ->
    qmove s m e st' ev.
  Proof.
    intros s m [u [t o|t|t|t|t r]] st' ev Hret H; unfold qstep in H; cbn [qret_ok snd] in Hret;
      destruct (qget t m) as [[o' i [|v|v|r0]]|] eqn:Eg; cbn [th_phase th_op with_phase th_inv] in H, Hret;
      try discriminate H.
    - injection H as <- <-. now apply MInv.
    - destruct (check c valid o') as [v|] eqn:Ec.
      + destruct o'; try discriminate Ec; rewrite Ec in H; injection H as <- <-; eapply MThr, TChecked, Ec; exact Eg.
      + pose proof (TWhole s t o' Ec) as Q. unfold rstep in Q. rewrite pstep_spec, Ec in Q.
        destruct o'; try rewrite Ec in H; injection H as <- <-; eapply MThr, Q; exact Eg.
    - injection H as <- <-. eapply MThr, TSave. exact Eg.
    - injection H as <- <-. eapply MThr, TNotify. exact Eg.
    - apply pres_eqb_eq in Hret as ->. injection H as <- <-. now apply (MRet s m u t o' i r).
  Qed.

  Lemma qstep_ok : forall s m e st' ev, threads_ok m -> qmove s m e st' ev -> threads_ok (snd st').
  Proof.
    intros s m e st' ev Hok []; try (apply all_set; [exact Hok|]).
    - exact I.
    - destruct T; try exact I; [exact Ec|exact (Hok _ _ Eg)].
    - apply all_del, Hok.
  Qed.

  Lemma qrun_cons_inv : forall st e r st' ev, qrun c valid st (e :: r) = Some (st', ev) ->
    exists st1 ev1 ev2, qstep c valid st e = Some (st1, ev1) /\
      qmove (fst st) (snd st) e st1 ev1 /\ qrun c valid st1 r = Some (st', ev2) /\ ev = ev1 ++ ev2.
  Proof.
    intros [s m] e r st' ev H. cbn [qrun] in H. destruct (qret_ok _ _) eqn:Hret; [|discriminate].
    destruct (qstep c valid (s, m) e) as [[st1 ev1]|] eqn:E1; [|discriminate].
    destruct (qrun c valid st1 r) as [[st2 ev2]|] eqn:E; [|discriminate]. injection H as <- <-.
    exists st1, ev1, ev2. auto using qstep_spec.
  Qed.

  Definition olab (u : N) (a : option (alabel pop pres)) : list (N * alabel pop pres) :=
    match a with Some x => [(u, x)] | None => [] end.

  (* one step of the model = at most one step of the atomic object, with the same visible event *)
  Lemma qstep_sim : forall s m am e st' ev, sim m am -> threads_ok m ->
    qmove s m e st' ev ->
    exists a am', arun (rstep c valid) (s, am) (olab (fst e) a) (fst st', am') /\ sim (snd st') am' /\
                  erase (olab (fst e) a) = qvis [e].
  Proof.
    intros s m am e st' ev Hs Hok []; [|destruct T|]; cbn [fst snd].
    - exists (Some (LInv t o)), (tset t (TPend o u) am). split; [|split; [apply sim_set, Hs|reflexivity]].
      apply arun_one, AInv. now rewrite (Hs t), Eg.
    - (* the write takes effect later *)
      exists None, am. split; [constructor|split; [|reflexivity]]. now apply (sim_same _ _ _ _ _ Hs Eg).
    - exists (Some (LLin t)), (tset t (TDone o i (snd (rstep c valid s o))) am).
      split; [|split; [apply sim_set, Hs|reflexivity]]. apply arun_one, ALin, (sim_get _ _ _ _ Hs Eg).
    - (* save: the linearization point of an accepted write *)
      exists (Some (LLin t)), (tset t (TDone o i RDone) am). split; [|split; [apply sim_set, Hs|reflexivity]].
      pose proof (ALin _ _ _ (rstep c valid) s am u t o i (sim_get _ _ _ _ Hs Eg)) as A.
      rewrite (rstep_check s o v (Hok _ _ Eg)) in A. exact (arun_one _ _ _ A).
    - (* notify: no effect on the register *)
      exists None, am. split; [constructor|split; [|reflexivity]]. now apply (sim_same _ _ _ _ _ Hs Eg).
    - exists (Some (LRet t r)), (tdel t am). split; [|split; [apply sim_del, Hs|reflexivity]].
      eapply arun_one, ARet, (sim_get _ _ _ _ Hs Eg).
  Qed.

  Lemma qrun_sim : forall tr s m am st' ev lb, sim m am -> threads_ok m -> stamped lb tr ->
    qrun c valid (s, m) tr = Some (st', ev) ->
    exists atr am', arun (rstep c valid) (s, am) atr (fst st', am') /\ erase atr = qvis tr /\ stamped lb atr.
  Proof.
    induction tr as [|[u l] r IH]; intros s m am st' ev lb Hs Hok Hst H.
    - injection H as <- _. exists [], am. repeat split. constructor.
    - destruct (qrun_cons_inv _ _ _ _ _ H) as ([s1 m1] & ev1 & ev2 & _ & Q & E2 & _).
      destruct Hst as [Hlt Hst].
      destruct (qstep_sim _ _ _ _ _ _ Hs Hok Q) as (a & am1 & A1 & Hs1 & V1). cbn [fst snd] in A1, Hs1, V1.
      destruct (IH _ _ _ _ _ _ Hs1 (qstep_ok _ _ _ _ _ Hok Q) Hst E2) as (atr & am2 & A2 & V2 & S2).
      exists (olab u a ++ atr), am2. split; [exact (arun_app _ _ _ _ _ A1 A2)|split].
      + rewrite erase_app, V1, V2. now destruct l.
      + destruct a; [exact (conj Hlt S2)|]. exact (stamped_weaken _ _ lb u (N.lt_le_incl _ _ Hlt) S2).
  Qed.

  Definition sub_eqb (a b : subscriber) : bool := Nat.eqb (fst a) (fst b) && (snd a =? snd b).
  Lemma sub_eqb_eq : forall a b, sub_eqb a b = true <-> a = b.
  Proof.
    intros [a1 a2] [b1 b2]. unfold sub_eqb. simpl. rewrite andb_true_iff, Nat.eqb_eq, N.eqb_eq.
    split; [intros [-> ->]; reflexivity|intros H; inversion H; auto].
  Qed.
  (* the payloads of the events addressed to one subscriber, in emission order *)
  Definition ev_for (sub : subscriber) (ev : list pevent) : list bytes :=
    map snd (filter (fun e => sub_eqb (fst e) sub) ev).
  Definition count_sub (sub : subscriber) (l : list subscriber) : nat :=
    List.length (filter (fun x => sub_eqb x sub) l).

  Lemma ev_for_app : forall sub a b, ev_for sub (a ++ b) = ev_for sub a ++ ev_for sub b.
  Proof. intros. unfold ev_for. now rewrite filter_app, map_app. Qed.

  Lemma ev_for_notify : forall sub subs v, ev_for sub (notify subs v) = repeat (cv_data v) (count_sub sub subs).
  Proof.
    intros sub subs v. unfold ev_for, notify, count_sub. induction subs as [|x r IH]; simpl; [reflexivity|].
    destruct (sub_eqb x sub); simpl; now rewrite IH.
  Qed.

  (* what a thread that has notified but not yet returned has put on the wire *)
  Definition wdata (th : thr) : list bytes :=
    match th_phase th with
    | PhDone RDone => match check c valid (th_op th) with Some v => [cv_data v] | None => [] end
    | _ => []
    end.
  (* W m: emitted, not yet returned. *)
  Definition W (m : thrmap) : list bytes := flat_map (fun p => wdata (snd p)) m.
  Lemma qstep_nodup : forall s m e st' ev, keys_nodup m -> qmove s m e st' ev -> keys_nodup (snd st').
  Proof.
    intros s m e st' ev Hn []; (apply (aset_nodup N.eqb_spec) || apply adel_nodup); exact Hn.
  Qed.

  Lemma W_split : forall t th m, keys_nodup m -> qget t m = Some th ->
    Permutation (W m) (wdata th ++ W (qdel t m)).
  Proof.
    intros t th m Hn Hg. exact (Permutation_flat_map _ (adel_perm N.eqb_spec _ _ _ Hn Hg)).
  Qed.
  Lemma W_move : forall t th th' m d, keys_nodup m -> qget t m = Some th -> wdata th = [] -> wdata th' = d ->
    Permutation (d ++ W m) (W (qset t th' m)).
  Proof.
    intros t th th' m d Hn Hg Hw <-. pose proof (W_split t th m Hn Hg) as P. rewrite Hw in P.
    apply Permutation_app_head, P.
  Qed.

  (* nobody subscribes [sub] a second time *)
  Definition is_sub_of (sub : subscriber) (o : pop) : bool :=
    match o with PSubscribe cn mid => sub_eqb (cn, mid) sub | _ => false end.
  Definition nosub (sub : subscriber) : thrmap -> Prop := all_thr (fun th => is_sub_of sub (th_op th) = false).
  Fixpoint nosub_tr (sub : subscriber) (tr : list (N * qlabel)) : Prop :=
    match tr with
    | [] => True
    | (_, QInv _ o) :: r => is_sub_of sub o = false /\ nosub_tr sub r
    | _ :: r => nosub_tr sub r
    end.

  Lemma rstep_subs : forall sub s o, is_sub_of sub o = false ->
    count_sub sub (p_subs (fst (rstep c valid s o))) = count_sub sub (p_subs s).
  Proof.
    intros sub s o H. unfold rstep. rewrite pstep_spec. destruct (check c valid o); [reflexivity|].
    destruct o; try reflexivity. unfold count_sub. cbn [fst p_subs]. rewrite filter_app, app_length.
    cbn in *. rewrite H. apply Nat.add_0_r.
  Qed.

  (* the data of the accepted writes that have returned, in the order of their returns *)
  Definition qacc (m : thrmap) (e : N * qlabel) : list bytes :=
    match snd e with
    | QRet t _ => match qget t m with Some th => wdata th | None => [] end
    | _ => []
    end.
  Fixpoint qaccepted (st : pstate * thrmap) (tr : list (N * qlabel)) : list bytes :=
    match tr with
    | [] => []
    | e :: r =>
        match qstep c valid st e with
        | Some (st1, _) => qacc (snd st) e ++ qaccepted st1 r
        | None => []
        end
    end.

  Lemma nosub_tr_cons : forall sub e r, nosub_tr sub (e :: r) -> nosub_tr sub [e] /\ nosub_tr sub r.
  Proof. intros sub [u l] r; destruct l; simpl; tauto. Qed.

  Lemma qstep_nosub : forall s m e st' ev sub, nosub sub m -> nosub_tr sub [e] ->
    qmove s m e st' ev -> nosub sub (snd st').
  Proof.
    intros s m e st' ev sub Hno Htr H. destruct H;
      try (apply all_set; [exact Hno|]); try exact (Hno _ _ Eg).
    - apply Htr.
    - apply all_del, Hno.
  Qed.

  Lemma qstep_count : forall s m e st' ev sub n, nosub sub m -> count_sub sub (p_subs s) = n ->
    qmove s m e st' ev -> count_sub sub (p_subs (fst st')) = n.
  Proof.
    intros s m e st' ev sub n Hno Hc []; try exact Hc. destruct T; try exact Hc.
    cbn [fst]. rewrite rstep_subs; [exact Hc|exact (Hno _ _ Eg)].
  Qed.

  (* A step either emits nothing and adds nothing, or (notify) emits
     for [sub] the one datum it adds, or (return) moves the thread's datum to the returned ones. *)
  Lemma qstep_events : forall s m e st' ev sub, keys_nodup m -> threads_ok m ->
    count_sub sub (p_subs s) = 1%nat -> qmove s m e st' ev ->
    Permutation (ev_for sub ev ++ W m) (qacc m e ++ W (snd st')).
  Proof.
    intros s m e st' ev sub Hn Hok Hc [].
    - (* invocation: a new thread with nothing on the wire *)
      cbn. now rewrite (adel_absent N.eqb_spec _ _ (proj1 (aget_none N.eqb_spec _ _) Eg) : qdel t m = m).
    - (* a thread that moves had nothing on the wire *)
      destruct T; apply (W_move _ _ _ _ _ Hn Eg eq_refl); try reflexivity.
      + (* get, subscribe, rejected write: done, and [check] says None *)
        cbn. rewrite Ec. now destruct (snd _).
      + (* notify: [sub] is there once, so it gets one event, the datum the thread now holds *)
        rewrite ev_for_notify, Hc. cbn. now rewrite (Hok _ _ Eg : check c valid o = Some v).
    - unfold qacc. cbn. rewrite Eg. now apply W_split.
  Qed.

  Theorem events_match_accepted : forall tr s m st' ev sub, keys_nodup m -> threads_ok m -> nosub sub m ->
    nosub_tr sub tr -> count_sub sub (p_subs s) = 1%nat ->
    qrun c valid (s, m) tr = Some (st', ev) ->
    Permutation (ev_for sub ev ++ W m) (qaccepted (s, m) tr ++ W (snd st')).
  Proof.
    induction tr as [|e r IH]; intros s m st' ev sub Hn Hok Hno Htr Hc H.
    - injection H as <- <-. reflexivity.
    - destruct (qrun_cons_inv _ _ _ _ _ H) as ([s1 m1] & ev1 & ev2 & E & Q & E2 & ->).
      apply nosub_tr_cons in Htr as [Htr1 Htr2].
      pose proof (qstep_events _ _ _ _ _ sub Hn Hok Hc Q) as P1.
      specialize (IH _ _ _ _ sub (qstep_nodup _ _ _ _ _ Hn Q) (qstep_ok _ _ _ _ _ Hok Q)
                    (qstep_nosub _ _ _ _ _ _ Hno Htr1 Q) Htr2 (qstep_count _ _ _ _ _ _ _ Hno Hc Q) E2).
      cbn [qaccepted]. rewrite E, ev_for_app, <- !app_assoc.
      rewrite (Permutation_app_swap_app (ev_for sub ev1)), P1, (Permutation_app_swap_app (ev_for sub ev2)).
      apply Permutation_app_head, IH.
  Qed.
End Conc.
