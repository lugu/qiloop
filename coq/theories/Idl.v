(* Idl.v — meta/idl: GenerateIDL (idl.go, with the TypeSet of meta/signature/type.go and
   MetaObject.ForEachMethodAndSignal) and ParseIDL (parser.go on goparsec's combinators, Peg.v;
   the references of ref.go resolved through the scope of scope.go; InterfaceType.MetaObject of
   interface.go).

   Go maps are association lists here.  GenerateIDL iterates over its map argument in Go's
   (unspecified) order: the model takes the interfaces in the order they are to be written.
   Panics of Go code inside callbacks (type assertions without ok) are not outcomes of the model:
   with the grammar as written the asserted shapes are the only ones that reach them; validated
   by the correspondence runs. *)
From QV Require Export Sig Peg SigParse.
Local Open Scope string_scope.

(* ================= numbers as decimal text ================= *)
Fixpoint N_digits (fuel : nat) (n : N) (acc : string) : string :=
  match fuel with
  | O => acc
  | S f =>
      let d := String (ascii_of_N (48 + n mod 10)) acc in
      if (n <? 10)%N then d else N_digits f (n / 10) d
  end.
(* fmt's %d of an unsigned number *)
Definition N_to_string (n : N) : string := N_digits (S (N.to_nat (N.size n))) n "".

Definition is_digit (c : ascii) : bool := let n := N_of_ascii c in ((48 <=? n) && (n <=? 57))%N.
Fixpoint dec_value (s : string) (acc : N) : N :=
  match s with
  | EmptyString => acc
  | String c r => dec_value r (10 * acc + (N_of_ascii c - 48))%N
  end.

(* ================= IDL types with references ================= *)
Inductive ity :=
| IBasic (s : scalar)
| IList (t : ity)
| IMap (k v : ity)
| ITuple (ts : list ity)
| IRef (n : string).              (* RefType: resolved through the scope when a signature is asked for *)

(* what the scope maps a name to *)
Inductive sentry :=
| ScStruct (name : string) (members : list (string * ity))
| ScItf.
Definition scope := list (string * sentry).

Fixpoint lookup {A} (n : string) (l : list (string * A)) : option A :=
  match l with
  | [] => None
  | (k, v) :: r => if String.eqb k n then Some v else lookup n r
  end.

(* Signature() of a parsed type.  Fuel bounds the nesting of resolutions; running out of it is
   the Go call chain RefType.Signature -> StructType.Signature -> RefType.Signature ... of a struct
   that refers to itself: a stack overflow, which ends the process. *)
Fixpoint isig (f : nat) (sc : scope) (t : ity) : option string :=
  match f with
  | O => None
  | S f' =>
      let fix members (l : list (string * ity)) : option string :=
          match l with
          | [] => Some ""
          | (_, m) :: r =>
              match isig f' sc m, members r with
              | Some a, Some b => Some (a ++ b)
              | _, _ => None
              end
          end in
      let fix tuple (l : list ity) : option string :=
          match l with
          | [] => Some ""
          | m :: r =>
              match isig f' sc m, tuple r with
              | Some a, Some b => Some (a ++ b)
              | _, _ => None
              end
          end in
      match t with
      | IBasic s => Some (scalar_letter s)
      | IList e => match isig f' sc e with Some a => Some ("[" ++ a ++ "]") | None => None end
      | IMap k v =>
          match isig f' sc k, isig f' sc v with
          | Some a, Some b => Some ("{" ++ a ++ b ++ "}")
          | _, _ => None
          end
      | ITuple ts => match tuple ts with Some a => Some ("(" ++ a ++ ")") | None => None end
      | IRef n =>
          match lookup n sc with
          | Some (ScStruct name ms) =>
              match ms with
              | [] => Some ("()<" ++ name ++ ">")
              | _ =>
                  match members ms with
                  | Some a => Some ("(" ++ a ++ ")<" ++ name ++ "," ++ join "," (map fst ms) ++ ">")
                  | None => None
                  end
              end
          | Some ScItf => Some "o"
          | None => Some ("()<not found in scope: " ++ n ++ ">")
          end
      end
  end.

(* SignatureIDL() of a parsed type (descriptions of parameters and return values) *)
Fixpoint iidl (f : nat) (sc : scope) (t : ity) : option string :=
  match f with
  | O => None
  | S f' =>
      let fix tuple (l : list ity) : option (list string) :=
          match l with
          | [] => Some []
          | m :: r =>
              match iidl f' sc m, tuple r with
              | Some a, Some b => Some (a :: b)
              | _, _ => None
              end
          end in
      match t with
      | IBasic s => Some (scalar_idl s)
      | IList e => match iidl f' sc e with Some a => Some ("Vec<" ++ a ++ ">") | None => None end
      | IMap k v =>
          match iidl f' sc k, iidl f' sc v with
          | Some a, Some b => Some ("Map<" ++ a ++ "," ++ b ++ ">")
          | _, _ => None
          end
      | ITuple ts => match tuple ts with Some l => Some ("Tuple<" ++ join "," l ++ ">") | None => None end
      | IRef n =>
          match lookup n sc with
          | Some (ScStruct name _) => Some name
          | Some ScItf => Some "obj"
          | None => Some ("not found in scope: " ++ n)
          end
      end
  end.

(* ================= the parser ================= *)
Inductive ival :=
| VType (t : ity)
| VParam (n : string) (t : ity)                          (* Parameter *)
| VParams (l : list (string * ity))                      (* []Parameter *)
| VStr (s : string)                                      (* string *)
| VUid (n : N)                                           (* uint32 *)
| VMethod (name : string) (id : N) (ret : ity) (ps : list (string * ity))
| VSignal (name : string) (id : N) (ps : list (string * ity))
| VProp (name : string) (id : N) (ps : list (string * ity))
| VItf (name : string) (ms : list (N * (string * ity * list (string * ity))))
       (ss ps : list (N * (string * list (string * ity))))   (* *InterfaceType *)
| VMember (n : string) (t : ity)                         (* signature.MemberType *)
| VStruct (name : string) (members : list (string * ity))  (* *signature.StructType *)
| VEnumMember (n : string) (v : Z)
| VEnum (name : string)                                  (* *signature.EnumType (its values are never observed) *)
| VDecls (l : list ival)                                 (* []signature.Type *)
| VPkg (name : string) (decls : list ival).              (* *PackageDeclaration *)

Notation inode := (node ival).
Notation iparser := (parser ival).

(* ----- character classes ----- *)
Definition is_alpha_ (c : ascii) : bool := is_alpha c || Ascii.eqb c "_".
Definition is_pkg_char (c : ascii) : bool := is_alnum_ c || Ascii.eqb c "-" || Ascii.eqb c ".".
Definition not_nl (c : ascii) : bool := negb (Ascii.eqb c "010").

(* ----- terminals ----- *)
(* ident(): [_A-Za-z][0-9a-zA-Z_]* *)
Definition iident : iparser := token1 is_alpha_ is_alnum_.
(* Token(`[_A-Za-z][0-9a-zA-Z-._]*`) *)
Definition pkg_ident : iparser := token1 is_alpha_ is_pkg_char.
(* Token(`.*`): the rest of the line after white space (new lines included) was skipped; may be empty *)
Definition rest_of_line : iparser := fun s =>
  let (a, b) := span not_nl (skip_ws s) in (Ok (NTerm a) b, 1%N).
(* parsec.Int(): -?[0-9]+ *)
Definition int_tok : iparser := fun s =>
  match skip_ws s with
  | String "-" r =>
      let (a, b) := span is_digit r in
      match a with EmptyString => (Fail, 1%N) | _ => (Ok (NTerm (String "-" a)) b, 1%N) end
  | r =>
      let (a, b) := span is_digit r in
      match a with EmptyString => (Fail, 1%N) | _ => (Ok (NTerm a) b, 1%N) end
  end.
(* typeIdent(): [_A-Za-z][0-9a-zA-Z_]*<[0-9a-zA-Z_]*>  then  [_A-Za-z][0-9a-zA-Z_]* *)
Definition type_ident : iparser := fun s =>
  match skip_ws s with
  | String c r =>
      if is_alpha_ c then
        let (a, b) := span is_alnum_ r in
        let plain := (Ok (NTerm (String c a)) b, 1%N) in
        match b with
        | String "<"%char r2 =>
            let (a2, b2) := span is_alnum_ r2 in
            match b2 with
            | String ">"%char b3 => (Ok (NTerm (String c a ++ "<" ++ a2 ++ ">")) b3, 1%N)
            | _ => plain
            end
        | _ => plain
        end
      else (Fail, 1%N)
  | EmptyString => (Fail, 1%N)
  end.

(* ----- fmt.Sscanf(comment, "uid:%d", &uid) with uid uint32 ----- *)
Definition is_scan_space (c : ascii) : bool :=
  (Ascii.eqb c " " || Ascii.eqb c "009" || Ascii.eqb c "013" || Ascii.eqb c "011" || Ascii.eqb c "012" || Ascii.eqb c "010")%char.
(* %d reads the longest run of decimal digits; strconv.ParseUint and the 32-bit check refuse
   values of 2^32 and above; what follows the digits is ignored *)
Definition scan_uid (comment : string) : option N :=
  match strip_prefix "uid:" comment with
  | None => None
  | Some r =>
      let (_, r1) := span is_scan_space r in
      let (tok, _) := span is_digit r1 in
      match tok with
      | EmptyString => None
      | _ => let v := dec_value tok 0 in if (v <? 2 ^ 32)%N then Some v else None
      end
  end.

(* ----- callbacks ----- *)
Definition as_type (n : inode) : option ity := match n with NVal (VType t) => Some t | _ => None end.
(* a value that implements signature.Type *)
Definition is_sig_type (n : inode) : bool :=
  match n with NVal (VType _) | NVal (VItf _ _ _ _) | NVal (VStruct _ _) | NVal (VEnum _) => true | _ => false end.

Definition scalar_of_idl (v : string) : option scalar :=
  if String.eqb v "int8" then Some SI8 else if String.eqb v "uint8" then Some SU8
  else if String.eqb v "int16" then Some SI16 else if String.eqb v "uint16" then Some SU16
  else if String.eqb v "int32" then Some SI32 else if String.eqb v "uint32" then Some SU32
  else if String.eqb v "int64" then Some SI64 else if String.eqb v "uint64" then Some SU64
  else if String.eqb v "float32" then Some SF32 else if String.eqb v "float64" then Some SF64
  else if String.eqb v "str" then Some SStr else if String.eqb v "bool" then Some SBool
  else if String.eqb v "any" then Some SValue else if String.eqb v "obj" then Some SObject
  else if String.eqb v "unknown" then Some SUnknown else None.

Definition inodify_basic (ns : list inode) : inode :=
  match ns with
  | [NTerm v] => match scalar_of_idl v with Some s => NVal (VType (IBasic s)) | None => NErr end
  | _ => NErr
  end.
Definition nodify_first (ns : list inode) : inode := match ns with n :: _ => n | [] => NErr end.
Definition nodify_second (ns : list inode) : inode := match ns with _ :: n :: _ => n | _ => NErr end.

Definition inodify_map (ns : list inode) : inode :=
  match ns with
  | [_; k; _; v; _] =>
      match as_type k, as_type v with
      | Some a, Some b => NVal (VType (IMap a b))
      | _, _ => NErr
      end
  | _ => NErr
  end.
Definition inodify_vec (ns : list inode) : inode :=
  match ns with
  | [_; e; _] => match as_type e with Some a => NVal (VType (IList a)) | None => NErr end
  | _ => NErr
  end.
(* nodifyList: the elements of Tuple<...> become parameters param0, param1, ... *)
Fixpoint types_of_nodes (l : list inode) : option (list ity) :=
  match l with
  | [] => Some []
  | n :: r => match as_type n, types_of_nodes r with Some t, Some ts => Some (t :: ts) | _, _ => None end
  end.
Definition inodify_list (ns : list inode) : inode :=
  match types_of_nodes ns with
  | Some ts => NVal (VParams (tuple_fields 0 ts))      (* names are generated; only the types are used *)
  | None => NErr
  end.
Definition inodify_tuple (ns : list inode) : inode :=
  match ns with
  | [_; NVal (VParams ps); _] => NVal (VType (ITuple (map snd ps)))
  | _ => NErr
  end.
Definition inodify_ref (ns : list inode) : inode :=
  match ns with
  | [NTerm v] => NVal (VType (IRef v))
  | _ => NErr
  end.

Definition inodify_comment_content (ns : list inode) : inode :=
  match ns with
  | [_; NTerm c] => match scan_uid c with Some u => NVal (VUid u) | None => NVal (VStr c) end
  | _ => NErr
  end.
Definition inodify_comment (ns : list inode) : inode :=
  match ns with
  | [NNone] => NVal (VStr "")
  | [n] => n
  | _ => NErr
  end.
Definition inodify_returns (ns : list inode) : inode :=
  match ns with
  | [NNone] => NVal (VType (IBasic SVoid))
  | [n] => if is_sig_type n then n else NErr
  | _ => NErr
  end.
Definition inodify_param (ns : list inode) : inode :=
  match ns with
  | [NTerm name; _; t] =>
      (* nodes[2].(signature.Type): the type parser only yields VType or an error *)
      match as_type t with Some ty => NVal (VParam name ty) | None => NErr end
  | _ => NErr
  end.
Fixpoint params_of_nodes (l : list inode) : option (list (string * ity)) :=
  match l with
  | [] => Some []
  | NVal (VParam n t) :: r => match params_of_nodes r with Some ps => Some ((n, t) :: ps) | None => None end
  | _ :: _ => None
  end.
Definition inodify_params (ns : list inode) : inode :=
  match params_of_nodes ns with Some ps => NVal (VParams ps) | None => NErr end.
Definition inodify_and_params (ns : list inode) : inode :=
  match ns with
  | [NNone] => NVal (VParams [])
  | [NVal (VParams ps)] => NVal (VParams ps)
  | _ => NErr
  end.
Definition uid_of (n : inode) : N := match n with NVal (VUid u) => u | _ => 0%N end.

Definition inodify_method (ns : list inode) : inode :=
  match ns with
  | [_; NTerm name; _; NVal (VParams ps); _; r; c] =>
      match as_type r with
      | Some rt => NVal (VMethod name (uid_of c) rt ps)
      | None => NErr     (* the return node is a Type only if it is a VType here *)
      end
  | _ => NErr
  end.
Definition inodify_signal (ns : list inode) : inode :=
  match ns with
  | [_; NTerm name; _; NVal (VParams ps); _; c] => NVal (VSignal name (uid_of c) ps)
  | _ => NErr
  end.
Definition inodify_property (ns : list inode) : inode :=
  match ns with
  | [_; NTerm name; _; NVal (VParams ps); _; c] => NVal (VProp name (uid_of c) ps)
  | _ => NErr
  end.

(* Go map assignment m[k] = v *)
Fixpoint upsert {A} (k : N) (v : A) (l : list (N * A)) : list (N * A) :=
  match l with
  | [] => [(k, v)]
  | (k', v') :: r => if N.eqb k k' then (k, v) :: r else (k', v') :: upsert k v r
  end.

(* nodifyActionList: ids 0 are replaced by 100, 101, ... (except the method registerEvent) *)
Fixpoint action_list (l : list inode) (custom : N)
         (ms : list (N * (string * ity * list (string * ity))))
         (ss ps : list (N * (string * list (string * ity)))) : inode :=
  match l with
  | [] => NVal (VItf "" ms ss ps)
  | NVal (VMethod name id ret pl) :: r =>
      if N.eqb id 0 && negb (String.eqb name "registerEvent")
      then action_list r (custom + 1) (upsert custom (name, ret, pl) ms) ss ps
      else action_list r custom (upsert id (name, ret, pl) ms) ss ps
  | NVal (VSignal name id pl) :: r =>
      if N.eqb id 0 then action_list r (custom + 1) ms (upsert custom (name, pl) ss) ps
      else action_list r custom ms (upsert id (name, pl) ss) ps
  | NVal (VProp name id pl) :: r =>
      if N.eqb id 0 then action_list r (custom + 1) ms ss (upsert custom (name, pl) ps)
      else action_list r custom ms ss (upsert id (name, pl) ps)
  | _ :: _ => NErr
  end.
Definition inodify_action_list (ns : list inode) : inode := action_list ns 100 [] [] [].

Definition inodify_interface (ns : list inode) : inode :=
  match ns with
  | [_; NTerm name; _; NVal (VItf _ ms ss ps); _; _] => NVal (VItf name ms ss ps)
  | _ => NErr
  end.

Definition inodify_member (ns : list inode) : inode :=
  match ns with
  | [NTerm name; _; t; _] => match as_type t with Some ty => NVal (VMember name ty) | None => NErr end
  | _ => NErr
  end.
Fixpoint members_of_nodes (l : list inode) : option (list (string * ity)) :=
  match l with
  | [] => Some []
  | NVal (VMember n t) :: r => match members_of_nodes r with Some ms => Some ((n, t) :: ms) | None => None end
  | _ :: _ => None
  end.
Definition inodify_member_list (ns : list inode) : inode :=
  match members_of_nodes ns with Some ms => NVal (VStruct "parameters" ms) | None => NErr end.
Definition inodify_structure (ns : list inode) : inode :=
  match ns with
  | [_; NTerm name; _; NVal (VStruct _ ms); _; _] => NVal (VStruct name ms)
  | _ => NErr
  end.

(* strconv.Atoi of -?[0-9]+ : fails only outside the int64 range *)
Definition atoi (v : string) : option Z :=
  match v with
  | String "-" d => let n := dec_value d 0 in if (n <=? 2 ^ 63)%N then Some (- Z.of_N n)%Z else None
  | d => let n := dec_value d 0 in if (n <? 2 ^ 63)%N then Some (Z.of_N n) else None
  end.
Definition inodify_enum_const (ns : list inode) : inode :=
  match ns with
  | [NTerm name; _; NTerm v; _] => match atoi v with Some z => NVal (VEnumMember name z) | None => NErr end
  | _ => NErr
  end.
Fixpoint all_enum_members (l : list inode) : bool :=
  match l with
  | [] => true
  | NVal (VEnumMember _ _) :: r => all_enum_members r
  | _ :: _ => false
  end.
Definition inodify_enum_members (ns : list inode) : inode :=
  if all_enum_members ns then NVal (VEnum "") else NErr.
Definition inodify_enum (ns : list inode) : inode :=
  match ns with
  | [_; NTerm name; _; NVal (VEnum _); _; _] => NVal (VEnum name)
  | _ => NErr
  end.

Fixpoint decls_of_nodes (l : list inode) : option (list ival) :=
  match l with
  | [] => Some []
  | n :: r =>
      if is_sig_type n then
        match n, decls_of_nodes r with
        | NVal v, Some vs => Some (v :: vs)
        | _, _ => None
        end
      else None
  end.
Definition inodify_decl_list (ns : list inode) : inode :=
  match decls_of_nodes ns with Some vs => NVal (VDecls vs) | None => NErr end.

Definition inodify_pkg_name_and (ns : list inode) : inode :=
  match ns with [_; NTerm v; _] => NVal (VStr v) | _ => NErr end.
Definition inodify_pkg_name (ns : list inode) : inode :=
  match ns with
  | [NNone] => NVal (VStr "")
  | [NVal (VStr v)] => NVal (VStr v)
  | _ => NErr
  end.
Definition inodify_package (ns : list inode) : inode :=
  match ns with
  | [NVal (VStr name); NVal (VDecls ds)] => NVal (VPkg name ds)
  | _ => NErr
  end.

(* ----- grammar ----- *)
Definition idl_basic_names : list string :=
  ["int8"; "uint8"; "int16"; "uint16"; "int32"; "uint32"; "int64"; "uint64"; "float32"; "float64";
   "int64"; "uint64"; "bool"; "str"; "obj"; "any"; "unknown"].
Definition ibasic_type : iparser := por (Some inodify_basic) (map atom idl_basic_names).

Definition imap_type (d : iparser) : iparser :=
  pand (Some inodify_map) [atom "Map<"; d; atom ","; d; atom ">"].
Definition ituple_type (d : iparser) : iparser :=
  pand (Some inodify_tuple) [atom "Tuple<"; many_sep (Some inodify_list) d (atom ","); atom ">"].
Definition ivec_type (d : iparser) : iparser := pand (Some inodify_vec) [atom "Vec<"; d; atom ">"].
Definition iref_type : iparser := pand (Some inodify_ref) [type_ident].

(* typeParser; fuel bounds the nesting: every recursive use sits behind "Map<", "Tuple<" or "Vec<" *)
Fixpoint itype (f : nat) (s : string) {struct f} : res inode * N :=
  match f with
  | O => (NoFuel, 0%N)
  | S f' =>
      por (Some nodify_first)
          [ibasic_type; imap_type (itype f'); ituple_type (itype f'); ivec_type (itype f'); iref_type] s
  end.

Definition icomments : iparser :=
  pand (Some inodify_comment)
       [maybe (Some nodify_first) (pand (Some inodify_comment_content) [atom "//"; rest_of_line])].
Definition ireturns (ty : iparser) : iparser :=
  pand (Some inodify_returns) [maybe (Some nodify_first) (pand (Some nodify_second) [atom "->"; ty])].
Definition iparameter (ty : iparser) : iparser := pand (Some inodify_param) [iident; atom ":"; ty].
Definition iparameters (ty : iparser) : iparser :=
  pand (Some inodify_and_params)
       [maybe (Some nodify_first) (many_sep (Some inodify_params) (iparameter ty) (atom ","))].
Definition imethod (ty : iparser) : iparser :=
  pand (Some inodify_method) [atom "fn"; iident; atom "("; iparameters ty; atom ")"; ireturns ty; icomments].
Definition isignal (ty : iparser) : iparser :=
  pand (Some inodify_signal) [atom "sig"; iident; atom "("; iparameters ty; atom ")"; icomments].
Definition iproperty (ty : iparser) : iparser :=
  pand (Some inodify_property) [atom "prop"; iident; atom "("; iparameters ty; atom ")"; icomments].
Definition iaction (ty : iparser) : iparser := por (Some nodify_first) [imethod ty; isignal ty; iproperty ty].
Definition iinterface (ty : iparser) : iparser :=
  pand (Some inodify_interface)
       [atom "interface"; iident; icomments; kleene (Some inodify_action_list) (iaction ty); atom "end"; icomments].
Definition imember (ty : iparser) : iparser := pand (Some inodify_member) [iident; atom ":"; ty; icomments].
Definition ienum_const : iparser := pand (Some inodify_enum_const) [iident; atom "="; int_tok; icomments].
Definition ienum : iparser :=
  pand (Some inodify_enum)
       [atom "enum"; iident; icomments; kleene (Some inodify_enum_members) ienum_const; atom "end"; icomments].
Definition istructure (ty : iparser) : iparser :=
  pand (Some inodify_structure)
       [atom "struct"; type_ident; icomments; kleene (Some inodify_member_list) (imember ty); atom "end"; icomments].
Definition ideclaration (ty : iparser) : iparser := por (Some nodify_first) [istructure ty; ienum; iinterface ty].
Definition ipackage_name : iparser :=
  pand (Some inodify_pkg_name)
       [maybe (Some nodify_first) (pand (Some inodify_pkg_name_and) [atom "package"; pkg_ident; icomments])].
Definition ipackage (ty : iparser) : iparser :=
  pand (Some inodify_package) [ipackage_name; kleene (Some inodify_decl_list) (ideclaration ty)].

(* ----- ParsePackage / ParseIDL ----- *)
(* a meta-object as ParseIDL returns it and GenerateIDL takes it: methods, signals, properties by
   uid; signatures are strings *)
Record mmethod := { mm_uid : N; mm_name : string; mm_params : string; mm_ret : string;
                    mm_pnames : option (list string) (* MetaMethod.Parameters names; None = nil *) }.
Record msignal := { ms_uid : N; ms_name : string; ms_sig : string }.
Record mobject := { mo_name : string (* Description / the map key of GenerateIDL *);
                    mo_methods : list mmethod; mo_signals : list msignal; mo_props : list msignal }.

Inductive idl_result :=
| IOk (objs : list mobject)
| IErr                 (* an error value *)
| ICrash               (* unbounded recursion through a self-referential struct: stack overflow *)
| IFuel | IHang.       (* model bounds; shown unreachable *)

(* scope: the first struct or interface declared under each name *)
Fixpoint scope_of (ds : list ival) (acc : scope) : scope :=
  match ds with
  | [] => acc
  | VStruct name ms :: r =>
      scope_of r (match lookup name acc with Some _ => acc | None => (acc ++ [(name, ScStruct name ms)])%list end)
  | VItf name _ _ _ :: r =>
      scope_of r (match lookup name acc with Some _ => acc | None => (acc ++ [(name, ScItf)])%list end)
  | _ :: r => scope_of r acc
  end.

Definition sig_fuel (sc : scope) (t : ity) : nat :=
  (* resolutions nest at most once per scope entry unless a struct refers to itself *)
  let fix depth (t : ity) : nat :=
      match t with
      | IBasic _ | IRef _ => 1
      | IList e => S (depth e)
      | IMap k v => S (Nat.max (depth k) (depth v))
      | ITuple ts => S (fold_right (fun t a => Nat.max (depth t) a) 0 ts)
      end in
  let md := fold_right (fun e a => match snd e with
                                  | ScStruct _ ms => Nat.max (fold_right (fun m b => Nat.max (depth (snd m)) b) 0 ms) a
                                  | ScItf => a end) 0 sc in
  (S (List.length sc)) * (S (S md)) + depth t + 1.

Definition tuple_sig (f : nat) (sc : scope) (ps : list (string * ity)) : option string :=
  isig (S f) sc (ITuple (map snd ps)).

Fixpoint meta_methods (sc : scope) (l : list (N * (string * ity * list (string * ity)))) : option (list mmethod) :=
  match l with
  | [] => Some []
  | (id, (n, ret, pl)) :: r =>
      let f := sig_fuel sc (ITuple (ret :: map snd pl)) in
      match isig f sc ret, tuple_sig f sc pl, iidl f sc ret, meta_methods sc r with
      | Some rs, Some p, Some _, Some rest =>
          Some ({| mm_uid := id; mm_name := n; mm_params := p; mm_ret := rs;
                   mm_pnames := Some (map fst pl) |} :: rest)
      | _, _, _, _ => None
      end
  end.
Fixpoint meta_signals (sc : scope) (l : list (N * (string * list (string * ity)))) : option (list msignal) :=
  match l with
  | [] => Some []
  | (id, (n, pl)) :: r =>
      let f := sig_fuel sc (ITuple (map snd pl)) in
      match tuple_sig f sc pl, meta_signals sc r with
      | Some p, Some rest => Some ({| ms_uid := id; ms_name := n; ms_sig := p |} :: rest)
      | _, _ => None
      end
  end.

Definition meta_of_itf (sc : scope) (v : ival) : option (option mobject) :=
  (* None = stack overflow; Some None = not an interface *)
  match v with
  | VItf name ms ss ps =>
      match meta_methods sc ms, meta_signals sc ss, meta_signals sc ps with
      | Some a, Some b, Some c => Some (Some {| mo_name := name; mo_methods := a; mo_signals := b; mo_props := c |})
      | _, _, _ => None
      end
  | _ => Some None
  end.

Fixpoint metas_of (sc : scope) (ds : list ival) : option (list mobject) :=
  match ds with
  | [] => Some []
  | d :: r =>
      match meta_of_itf sc d, metas_of sc r with
      | Some (Some m), Some ms => Some (m :: ms)
      | Some None, Some ms => Some ms
      | _, _ => None
      end
  end.

(* ParsePackage: the package parser never fails (Maybe, Kleene); then SkipWS and Endof *)
Definition parse_package (s : string) : res inode * N := ipackage (itype (S (String.length s))) s.

Definition parse_idl (s : string) : idl_result :=
  match fst (parse_package s) with
  | Ok root rest =>
      if is_empty (skip_ws rest) then
        match root with
        | NVal (VPkg _ ds) =>
            match metas_of (scope_of ds []) ds with
            | Some ms => IOk ms
            | None => ICrash
            end
        | _ => IErr
        end
      else IErr
  | Fail => IErr
  | NoFuel => IFuel
  | Hang => IHang
  end.

(* ================= GenerateIDL ================= *)
(* TypeSet: registered name, the Signature() of the registered type, and for a struct the lines
   of its declaration (member name, IDL name of the member type) *)
Definition tset := list (string * (string * option (list (string * string)))).

Definition set_sig (n : string) (s : tset) : option string :=
  match lookup n s with Some (sg, _) => Some sg | None => None end.

(* TypeSet.ResolveCollision *)
Fixpoint resolve_loop (fuel : nat) (i : N) (s : tset) (orig name sg : string) : string :=
  match fuel with
  | O => "can_not_register_name_" ++ orig
  | S f =>
      match set_sig name s with
      | Some sg' => if String.eqb sg' sg then name
                    else resolve_loop f (i + 1) s orig (orig ++ "_" ++ N_to_string i) sg
      | None => name
      end
  end.
Definition resolve_collision (s : tset) (orig sg : string) : string := resolve_loop 100 0 s orig orig sg.

(* Type.RegisterTo: structs are registered members first; a struct whose name is taken by a
   different type is renamed in place, so the result is the type with its new names *)
Section RegLists.
  Variable reg : ty -> tset -> ty * tset.
  Fixpoint reg_list (l : list ty) (s : tset) : list ty * tset :=
    match l with
    | [] => ([], s)
    | x :: r => let (x', s1) := reg x s in let (r', s2) := reg_list r s1 in (x' :: r', s2)
    end.
  Fixpoint reg_fields (l : list (string * ty)) (s : tset) : list (string * ty) * tset :=
    match l with
    | [] => ([], s)
    | (a, x) :: r => let (x', s1) := reg x s in let (r', s2) := reg_fields r s1 in ((a, x') :: r', s2)
    end.
End RegLists.
Definition struct_block (fs : list (string * ty)) : list (string * string) :=
  map (fun f => (fst f, idl_name (snd f))) fs.
Fixpoint register (t : ty) (s : tset) : ty * tset :=
  match t with
  | TS _ => (t, s)
  | TList e => let (e', s1) := register e s in (TList e', s1)
  | TMap k v => let (k', s1) := register k s in let (v', s2) := register v s1 in (TMap k' v', s2)
  | TTuple ts => let (ts', s1) := reg_list register ts s in (TTuple ts', s1)
  | TStruct n fs =>
      let (fs', s1) := reg_fields register fs s in
      let n' := resolve_collision s1 n (print (TStruct n fs')) in
      let t' := TStruct n' fs' in
      match lookup n' s1 with
      | Some _ => (t', s1)
      | None => (t', List.app s1 [(n', (print t', Some (struct_block fs')))])
      end
  end.

(* signature.CleanVarName *)
Definition go_keywords : list string :=
  ["break"; "default"; "func"; "interface"; "select"; "case"; "defer"; "go"; "map"; "struct"; "chan"; "else";
   "goto"; "package"; "switch"; "const"; "fallthrough"; "if"; "range"; "type"; "continue"; "for"; "import";
   "return"; "var"; "error"; "string"].
Fixpoint filter_chars (p : ascii -> bool) (s : string) : string :=
  match s with EmptyString => EmptyString | String c r => if p c then String c (filter_chars p r) else filter_chars p r end.
Definition clean_var_name (i : nat) (name : string) : string :=
  match name with
  | EmptyString => "P" ++ nat_to_string i
  | _ => let v := filter_chars is_alnum_ name in
         if existsb (String.eqb v) go_keywords then v ++ "_" ++ nat_to_string i else v
  end.

(* TupleType.ParamIDL *)
Definition param_idl (members : list (string * ty)) : string :=
  join ", " (map (fun m => fst m ++ ": " ++ idl_name (snd m)) members).

Fixpoint named_params (i : nat) (names : list string) (ts : list ty) : list string :=
  match names, ts with
  | n :: nr, t :: tr => (clean_var_name i n ++ ": " ++ idl_name t) :: named_params (S i) nr tr
  | _, _ => []
  end.

Definition tab : string := String "009" "".
Definition nl : string := String "010" "".

Definition as_members (t : ty) (single : string) : list (string * ty) :=
  match t with TTuple ts => tuple_fields 0 ts | _ => [(single, t)] end.

(* generateMethod: the line is written with the names as they are in the signature; the types are
   registered (and possibly renamed) afterwards *)
Definition gen_method (m : mmethod) (s : tset) : option (string * tset) :=
  match parse (mm_params m), parse (mm_ret m) with
  | POk pt, POk rt =>
      let members := as_members pt "P0" in
      let ps := match mm_pnames m with
                | Some names => if Nat.eqb (List.length names) (List.length members)
                                then join "," (named_params 0 names (map snd members))
                                else param_idl members
                | None => param_idl members
                end in
      let rs := if String.eqb (print rt) "v" then "" else "-> " ++ idl_name rt ++ " " in
      let line := tab ++ "fn " ++ mm_name m ++ "(" ++ ps ++ ") " ++ rs ++ "//uid:" ++ N_to_string (mm_uid m) ++ nl in
      let (_, s1) := register pt s in
      let (_, s2) := register rt s1 in
      Some (line, s2)
  | _, _ => None
  end.

(* generateSignal / generateProperty: the type is registered first, the line shows the new names *)
Definition gen_sigprop (kw single : string) (x : msignal) (s : tset) : option (string * tset) :=
  match parse (ms_sig x) with
  | POk t =>
      let (t', s1) := register t s in
      let line := tab ++ kw ++ " " ++ ms_name x ++ "(" ++ param_idl (as_members t' single) ++ ") //uid:"
                      ++ N_to_string (ms_uid x) ++ nl in
      Some (line, s1)
  | _ => None
  end.

Fixpoint gen_all {A} (g : A -> tset -> option (string * tset)) (l : list A) (s : tset) : option (string * tset) :=
  match l with
  | [] => Some ("", s)
  | x :: r =>
      match g x s with
      | Some (a, s1) => match gen_all g r s1 with Some (b, s2) => Some (a ++ b, s2) | None => None end
      | None => None
      end
  end.

Definition gen_interface (o : mobject) (s : tset) : option (string * tset) :=
  let name := resolve_collision s (mo_name o) "o" in
  let unresolved := "()<not found in scope: " ++ name ++ ">" in
  let s0 := List.app s [(name, (unresolved, None))] in
  match gen_all gen_method (mo_methods o) s0 with
  | Some (a, s1) =>
      match gen_all (gen_sigprop "sig" "P0") (mo_signals o) s1 with
      | Some (b, s2) =>
          match gen_all (gen_sigprop "prop" "param") (mo_props o) s2 with
          | Some (c, s3) => Some ("interface " ++ name ++ nl ++ a ++ b ++ c ++ "end" ++ nl, s3)
          | None => None
          end
      | None => None
      end
  | None => None
  end.

Definition gen_struct (e : string * (string * option (list (string * string)))) : string :=
  match snd (snd e) with
  | Some members =>
      "struct " ++ fst e ++ nl ++ String.concat "" (map (fun m => tab ++ fst m ++ ": " ++ snd m ++ nl) members) ++ "end" ++ nl
  | None => ""
  end.

(* GenerateIDL(writer, pkg, objs): objs in the order Go's map iteration delivered them, the
   actions of each object sorted by uid; None = an error was returned *)
Definition gen_idl (pkg : string) (objs : list mobject) : option string :=
  match gen_all gen_interface objs [] with
  | Some (body, s) => Some ("package " ++ pkg ++ nl ++ body ++ String.concat "" (map gen_struct s))
  | None => None
  end.

(* ================= what the round trip needs: the hypotheses idl_safe ================= *)
(* what the IDL name of a type is read back as *)
Fixpoint ity_of (t : ty) : ity :=
  match t with
  | TS SVoid => IRef "nothing"                       (* not a basic type of the IDL grammar *)
  | TS s => IBasic s
  | TList e => IList (ity_of e)
  | TMap k v => IMap (ity_of k) (ity_of v)
  | TTuple [] => IRef "Tuple<>"                      (* Many needs one element: read as a reference *)
  | TTuple ts => ITuple (map ity_of ts)
  | TStruct n _ => IRef n
  end.

Definition starts_with (p s : string) : bool :=
  match strip_prefix p s with Some _ => true | None => false end.

(* a struct name the type parser reads back as a reference to that name *)
Definition safe_name (n : string) : bool :=
  is_struct_name n && negb (existsb (fun k => starts_with k n) idl_basic_names) &&
  negb (starts_with "Map<" n) && negb (starts_with "Tuple<" n) && negb (starts_with "Vec<" n).

Fixpoint idl_safe (t : ty) : bool :=
  match t with
  | TS s => negb (scalar_eqb s SVoid)
  | TList e => idl_safe e
  | TMap k v => idl_safe k && idl_safe v
  | TTuple ts => match ts with [] => false | _ => forallb idl_safe ts end
  | TStruct n fs => safe_name n && forallb (fun f => is_ident (fst f) && idl_safe (snd f)) fs
  end.

(* every struct inside t is declared in the scope under its name, with its own members *)
Fixpoint scope_has (sc : scope) (t : ty) : Prop :=
  match t with
  | TS _ => True
  | TList e => scope_has sc e
  | TMap k v => scope_has sc k /\ scope_has sc v
  | TTuple ts => (fix all (l : list ty) : Prop := match l with [] => True | x :: r => scope_has sc x /\ all r end) ts
  | TStruct n fs =>
      lookup n sc = Some (ScStruct n (map (fun f => (fst f, ity_of (snd f))) fs)) /\
      (fix all (l : list (string * ty)) : Prop := match l with [] => True | x :: r => scope_has sc (snd x) /\ all r end) fs
  end.

(* what may follow a type expression: the end of the text, or a character that is neither part
   of a name nor '<' *)
Definition follow_idl (rest : string) : bool :=
  match rest with
  | EmptyString => true
  | String c _ => negb (is_alnum_ c) && negb (Ascii.eqb c "<")
  end.

(* [_A-Za-z][0-9a-zA-Z_]*: what ident() accepts as an action, parameter or member name *)
Definition is_iident (s : string) : bool :=
  match s with EmptyString => false | String c r => is_alpha_ c && all_chars is_alnum_ r end.

(* the text of one action line, as generateMethod / generateSignal / generateProperty write it *)
Definition param_str (p : string * ty) : string := fst p ++ ": " ++ idl_name (snd p).
Definition ret_str (rt : ty) : string := if String.eqb (print rt) "v" then "" else "-> " ++ idl_name rt ++ " ".
Definition method_line (name ps rs : string) (uid : N) : string :=
  tab ++ "fn " ++ name ++ "(" ++ ps ++ ") " ++ rs ++ "//uid:" ++ N_to_string uid ++ nl.
Definition sigprop_line (kw name ps : string) (uid : N) : string :=
  tab ++ kw ++ " " ++ name ++ "(" ++ ps ++ ") //uid:" ++ N_to_string uid ++ nl.

(* the round trip as a decidable statement: GenerateIDL succeeds and ParseIDL gives back the same
   interfaces (by name) with the same action ids, names and signatures *)
Definition same_method (a b : mmethod) : bool :=
  N.eqb (mm_uid a) (mm_uid b) && String.eqb (mm_name a) (mm_name b) && String.eqb (mm_params a) (mm_params b) &&
  String.eqb (mm_ret a) (mm_ret b).
Definition same_signal (a b : msignal) : bool :=
  N.eqb (ms_uid a) (ms_uid b) && String.eqb (ms_name a) (ms_name b) && String.eqb (ms_sig a) (ms_sig b).
Fixpoint all2 {A} (f : A -> A -> bool) (l1 l2 : list A) : bool :=
  match l1, l2 with
  | [], [] => true
  | x :: r1, y :: r2 => f x y && all2 f r1 r2
  | _, _ => false
  end.
Definition same_object (a b : mobject) : bool :=
  String.eqb (mo_name a) (mo_name b) && all2 same_method (mo_methods a) (mo_methods b) &&
  all2 same_signal (mo_signals a) (mo_signals b) && all2 same_signal (mo_props a) (mo_props b).
(* objs: actions sorted by uid (as ForEachMethodAndSignal visits them); the parsed lists are in
   the order of first appearance, which is the same when the uids are distinct and non-zero *)
Definition roundtrip_ok (pkg : string) (objs : list mobject) : bool :=
  match gen_idl pkg objs with
  | Some text => match parse_idl text with IOk objs' => all2 same_object objs objs' | _ => false end
  | None => false
  end.

(* ================= the repaired ParsePackage (design/C18.fix.self_referential_struct_crash.diff) ==========
   RefType.Signature marks a reference that is asked for its signature while it is already being
   resolved (the invalid struct name "recursive type: N") instead of recursing, and ParsePackage
   refuses a package one of whose declared structures has such a signature.  A reference is
   re-entered exactly when the unguarded recursion would not end, i.e. when the bounded resolution
   [isig] runs out of fuel. *)
Definition struct_resolves (sc : scope) (d : ival) : bool :=
  match d with
  | VStruct _ ms =>
      let t := ITuple (map snd ms) in
      match isig (sig_fuel sc t) sc t with Some _ => true | None => false end
  | _ => true
  end.

Definition parse_idl_g (guard : bool) (s : string) : idl_result :=
  match fst (parse_package s) with
  | Ok root rest =>
      if is_empty (skip_ws rest) then
        match root with
        | NVal (VPkg _ ds) =>
            let sc := scope_of ds [] in
            if guard && negb (forallb (struct_resolves sc) ds) then IErr
            else match metas_of sc ds with
                 | Some ms => IOk ms
                 | None => if guard then IErr else ICrash
                 end
        | _ => IErr
        end
      else IErr
  | Fail => IErr
  | NoFuel => IFuel
  | Hang => IHang
  end.

(* ================= the repairs of design/C18.fix.*.diff as switches =================
   Each switch is false on the pinned code; the harness observes it on the witness family of the
   corresponding finding and the correspondence run uses the grammar with the observed switches.
   With every switch false the definitions below are the ones above (parse_idl_cfg_pinned). *)
Record icfg := { c_guard : bool;     (* ParsePackage refuses self-referential structures *)
                 c_word : bool;      (* basicType(): the names must end at a word boundary *)
                 c_void : bool;      (* "nothing" is a basic type and Tuple<> is the empty tuple *)
                 c_uid0 : bool }.    (* a written uid 0 is kept; only absent uids are numbered *)
Definition icfg_pinned : icfg := {| c_guard := false; c_word := false; c_void := false; c_uid0 := false |}.

(* Token(`name\b`): the name, not followed by a letter, digit or underscore *)
Definition atom_w (m : string) : iparser := fun s =>
  match strip_prefix m (skip_ws s) with
  | Some r => match r with
              | String c _ => if is_alnum_ c then (Fail, 1%N) else (Ok (NTerm m) r, 1%N)
              | EmptyString => (Ok (NTerm m) r, 1%N)
              end
  | None => (Fail, 1%N)
  end.

Definition scalar_of_idl_g (c : icfg) (v : string) : option scalar :=
  if c_void c && String.eqb v "nothing" then Some SVoid else scalar_of_idl v.
Definition inodify_basic_g (c : icfg) (ns : list inode) : inode :=
  match ns with
  | [NTerm v] => match scalar_of_idl_g c v with Some s => NVal (VType (IBasic s)) | None => NErr end
  | _ => NErr
  end.
Definition idl_basic_names_g (c : icfg) : list string :=
  if c_void c then (idl_basic_names ++ ["nothing"])%list else idl_basic_names.
Definition ibasic_type_g (c : icfg) : iparser :=
  por (Some (inodify_basic_g c)) (map (if c_word c then atom_w else atom) (idl_basic_names_g c)).
Definition ituple_type_g (c : icfg) (d : iparser) : iparser :=
  pand (Some inodify_tuple)
       [atom "Tuple<";
        (if c_void c then kleene_sep (Some inodify_list) d (atom ",") else many_sep (Some inodify_list) d (atom ","));
        atom ">"].
Definition itype_g (c : icfg) : nat -> string -> res inode * N :=
  fix itype_g (f : nat) (s : string) {struct f} : res inode * N :=
  match f with
  | O => (NoFuel, 0%N)
  | S f' =>
      por (Some nodify_first)
          [ibasic_type_g c; imap_type (itype_g f'); ituple_type_g c (itype_g f'); ivec_type (itype_g f'); iref_type] s
  end.

(* an absent uid: 2^32 cannot be read from a comment (scan_uid) *)
Definition no_uid : N := (2 ^ 32)%N.
Definition uid_of_g (c : icfg) (n : inode) : N :=
  match n with NVal (VUid u) => u | _ => if c_uid0 c then no_uid else 0%N end.
Definition is_absent (c : icfg) (id : N) : bool := if c_uid0 c then N.eqb id no_uid else N.eqb id 0.

Definition inodify_method_g (c : icfg) (ns : list inode) : inode :=
  match ns with
  | [_; NTerm name; _; NVal (VParams ps); _; r; cm] =>
      match as_type r with
      | Some rt => NVal (VMethod name (uid_of_g c cm) rt ps)
      | None => NErr
      end
  | _ => NErr
  end.
Definition inodify_signal_g (c : icfg) (ns : list inode) : inode :=
  match ns with
  | [_; NTerm name; _; NVal (VParams ps); _; cm] => NVal (VSignal name (uid_of_g c cm) ps)
  | _ => NErr
  end.
Definition inodify_property_g (c : icfg) (ns : list inode) : inode :=
  match ns with
  | [_; NTerm name; _; NVal (VParams ps); _; cm] => NVal (VProp name (uid_of_g c cm) ps)
  | _ => NErr
  end.

(* registerEvent without a written uid keeps the zero value of the field *)
Definition action_list_g (c : icfg) :=
  fix action_list_g (l : list inode) (custom : N)
         (ms : list (N * (string * ity * list (string * ity))))
         (ss ps : list (N * (string * list (string * ity)))) {struct l} : inode :=
  match l with
  | [] => NVal (VItf "" ms ss ps)
  | NVal (VMethod name id ret pl) :: r =>
      if is_absent c id && negb (String.eqb name "registerEvent")
      then action_list_g r (custom + 1)%N (upsert custom (name, ret, pl) ms) ss ps
      else action_list_g r custom (upsert (if c_uid0 c && is_absent c id then 0%N else id) (name, ret, pl) ms) ss ps
  | NVal (VSignal name id pl) :: r =>
      if is_absent c id then action_list_g r (custom + 1)%N ms (upsert custom (name, pl) ss) ps
      else action_list_g r custom ms (upsert id (name, pl) ss) ps
  | NVal (VProp name id pl) :: r =>
      if is_absent c id then action_list_g r (custom + 1)%N ms ss (upsert custom (name, pl) ps)
      else action_list_g r custom ms ss (upsert id (name, pl) ps)
  | _ :: _ => NErr
  end.

Definition imethod_g (c : icfg) (ty : iparser) : iparser :=
  pand (Some (inodify_method_g c)) [atom "fn"; iident; atom "("; iparameters ty; atom ")"; ireturns ty; icomments].
Definition isignal_g (c : icfg) (ty : iparser) : iparser :=
  pand (Some (inodify_signal_g c)) [atom "sig"; iident; atom "("; iparameters ty; atom ")"; icomments].
Definition iproperty_g (c : icfg) (ty : iparser) : iparser :=
  pand (Some (inodify_property_g c)) [atom "prop"; iident; atom "("; iparameters ty; atom ")"; icomments].
Definition iaction_g (c : icfg) (ty : iparser) : iparser :=
  por (Some nodify_first) [imethod_g c ty; isignal_g c ty; iproperty_g c ty].
Definition iinterface_g (c : icfg) (ty : iparser) : iparser :=
  pand (Some inodify_interface)
       [atom "interface"; iident; icomments;
        kleene (Some (fun ns => action_list_g c ns 100%N [] [] [])) (iaction_g c ty); atom "end"; icomments].
Definition ideclaration_g (c : icfg) (ty : iparser) : iparser :=
  por (Some nodify_first) [istructure ty; ienum; iinterface_g c ty].
Definition ipackage_g (c : icfg) (ty : iparser) : iparser :=
  pand (Some inodify_package) [ipackage_name; kleene (Some inodify_decl_list) (ideclaration_g c ty)].
Definition parse_package_g (c : icfg) (s : string) : res inode * N :=
  ipackage_g c (itype_g c (S (String.length s))) s.

Definition parse_idl_cfg (c : icfg) (s : string) : idl_result :=
  match fst (parse_package_g c s) with
  | Ok root rest =>
      if is_empty (skip_ws rest) then
        match root with
        | NVal (VPkg _ ds) =>
            let sc := scope_of ds [] in
            if c_guard c && negb (forallb (struct_resolves sc) ds) then IErr
            else match metas_of sc ds with
                 | Some ms => IOk ms
                 | None => if c_guard c then IErr else ICrash
                 end
        | _ => IErr
        end
      else IErr
  | Fail => IErr
  | NoFuel => IFuel
  | Hang => IHang
  end.

Lemma parse_idl_cfg_pinned s : parse_idl_cfg icfg_pinned s = parse_idl s.
Proof. reflexivity. Qed.
Lemma parse_idl_cfg_guard s : parse_idl_cfg {| c_guard := true; c_word := false; c_void := false; c_uid0 := false |} s = parse_idl_g true s.
Proof. reflexivity. Qed.
