(* C06 — Only connections that presented accepted credentials reach any service.
   Property theorems only; the model is theories/Auth.v, the proofs theories/AuthProofs.v.
   Every statement is for every authenticator function `auth`, every reader of the value
   signatures the model does not decode itself (`skip`), every message-type filter of the
   connection (`flt`), every table of existing services and
   objects (`ex`), every number of connections (connection names are arbitrary naturals) and
   every list of labels, i.e. every frame sequence on every connection in every interleaving of
   reader, connection and service-0 mailbox goroutines. *)
From QV Require Import Auth AuthProofs.
Local Open Scope N_scope.

(* a message reaches the router for a service other than 0 at position i only if, strictly
   earlier, an authenticate request arrived on the SAME connection whose decoded user/token
   pair the authenticator accepts *)
Theorem C06_no_delivery_without_accepted_authenticate :
  forall skip flt auth ex ls i l outs c f,
  nth_error (trace skip flt auth ex init ls) i = Some (l, outs) -> In (ODeliver c f) outs ->
  f_svc f <> 0 /\
  exists j fa, (j < i)%nat /\ nth_error ls j = Some (LArrive c fa) /\ accepted skip flt auth fa.
Proof.
  intros skip flt auth ex ls i l outs c f ->%trace_nth (Ha & Hs & _)%step_out. split; [exact Hs|].
  destruct (authed_only_by_own_accepted_request _ _ _ _ _ _ Ha) as (fa & (j & Hj & E)%in_firstn_nth & A). now exists j, fa.
Qed.
Print Assumptions C06_no_delivery_without_accepted_authenticate.

(* the authentication flag of a connection can only come from an accepted request that
   arrived on that connection: authenticating one connection grants nothing to another *)
Theorem C06_flag_only_from_own_accepted_request :
  forall skip flt auth ex ls c,
  c_authed (get (exec skip flt auth ex init ls) c) = true ->
  exists fa, In (LArrive c fa) ls /\ accepted skip flt auth fa.
Proof. exact authed_only_by_own_accepted_request. Qed.
Print Assumptions C06_flag_only_from_own_accepted_request.

(* a connection whose consumer goroutine meets a frame for another service before being
   authenticated is answered with exactly one error frame, closed, and nothing concerning it
   (frame, close, delivery) ever happens afterwards, whatever is sent or scheduled later *)
Theorem C06_unauthenticated_is_refused_and_closed :
  forall skip flt auth ex pre post c f,
  let st := exec skip flt auth ex init pre in
  refusal_due st c f ->
  exists rest,
    trace skip flt auth ex st (LConn c :: post) =
      (LConn c, if c_closed (get st c) then []
                else [OFrame c T_Error (f_svc f) (f_obj f) (f_act f) (f_id f) (BErr ENotAuth); OClose c]) :: rest /\
    forall l o, In (l, o) rest -> forall e, In e o -> out_conn e <> Some c.
Proof. exact unauthenticated_is_refused_and_closed. Qed.
Print Assumptions C06_unauthenticated_is_refused_and_closed.

(* nothing in the client's map other than the user and token lookups influences the step *)
Theorem C06_only_credentials_matter :
  forall skip flt auth ex st c f f' q,
  s_mbox st = (c, f) :: q ->
  f_type f' = f_type f -> f_svc f' = f_svc f -> f_obj f' = f_obj f -> f_act f' = f_act f -> f_id f' = f_id f ->
  (exists m r m' r', dec_capmap skip (f_payload f) = DOk m r /\
                     dec_capmap skip (f_payload f') = DOk m' r' /\ creds m = creds m') ->
  step skip flt auth ex (set_mbox st ((c, f') :: q)) LMbox = (let '(s, o) := step skip flt auth ex st LMbox in (s, o)).
Proof. exact only_credentials_matter. Qed.
Print Assumptions C06_only_credentials_matter.

Theorem C06_wrongly_typed_credentials_refused :
  forall skip flt auth ex st c f q m r,
  s_mbox st = (c, f) :: q -> f_act f = AuthenticateActionID ->
  dec_capmap skip (f_payload f) = DOk m r -> creds m = None ->
  step skip flt auth ex st LMbox = (set_mbox st q, send_reply (get st c) c f BAuthRefused).
Proof. exact wrongly_typed_credentials_refused. Qed.
Print Assumptions C06_wrongly_typed_credentials_refused.

(* the decoder model never answers "out of fuel" *)
Theorem C06_decoder_fuel_sufficient :
  forall skip fuel b, (List.length b < fuel)%nat -> dec_value skip fuel b <> DFuel.
Proof. exact dec_value_fuel. Qed.
Print Assumptions C06_decoder_fuel_sufficient.

(* the hypotheses are met: an accepted request followed by a delivery; and a forged state entry
   on one connection, next to an authenticated other connection, is refused and closed *)
Example C06_nonvacuous :
  accepted ex_skip pinned_filter_pass ex_auth ex_good /\
  nth_error (trace ex_skip pinned_filter_pass ex_auth ex_exists init [LArrive 0 ex_good; LConn 0; LMbox; LArrive 0 ex_probe; LConn 0]) 4
    = Some (LConn 0, [ODeliver 0 ex_probe]) /\
  nth_error (map snd (trace ex_skip pinned_filter_pass ex_auth ex_exists init
     [LArrive 1 ex_good; LConn 1; LMbox; LArrive 0 ex_forged; LConn 0; LMbox; LArrive 0 ex_probe; LConn 0;
      LArrive 0 ex_good; LConn 0; LMbox])) 7 = Some [OFrame 0 T_Error 1 1 100 4 (BErr ENotAuth); OClose 0].
Proof.
  exact (conj ex_good_accepted (conj (f_equal (fun t => nth_error t 4) ex_run_good)
                                     (f_equal (fun t => nth_error t 7) ex_run_forged))).
Qed.
