(* C09 — type signatures round-trip through the parser.
   Property theorems only; the model is theories/SigParse.v (signature.Parse on goparsec's
   combinators, theories/Peg.v), the printer is Sig.print (Type.Signature()), proofs are in
   theories/SigParseProofs.v, for the repaired grammar in SigParseMerged.v, for the IDL type names in IdlProofs.v.

   Not covered by a theorem: Go-level panics inside the nodify callbacks (type assertions on
   node positions); the model gives every callback the node shapes the grammar produces.
   Their absence is validated by the correspondence runs only. *)
From QV Require Import Sig Peg SigParse SigParseProofs SigParseMerged Idl IdlProofs.
From Coq Require Import NArith.
Local Open Scope string_scope.

(* every signature of the grammar, nested arbitrarily, parses to exactly the type it prints
   (struct and member names included) — so its printed signature is the identical string *)
Theorem C09_print_parse : forall t, wf_ty t = true -> parse (print t) = POk t.
Proof. exact parse_print. Qed.
Print Assumptions C09_print_parse.

(* printing is a fixed point for whatever the parser accepts, white space or not *)
Theorem C09_fixed_point : forall s t, parse s = POk t -> parse (print t) = POk t.
Proof. exact parse_fixed_point. Qed.
Print Assumptions C09_fixed_point.

(* what the parser accepts is a type of the grammar *)
Theorem C09_accepts_grammar_only : forall s t, parse s = POk t -> wf_ty t = true.
Proof. exact parse_wf. Qed.
Print Assumptions C09_accepts_grammar_only.

(* ... and the accepted input is that type's printed signature, with white space between tokens
   at most: every other string is rejected *)
Theorem C09_accepts_only_printed_signatures : forall s t, parse s = POk t -> unspace s = print t.
Proof. exact parse_canonical. Qed.
Print Assumptions C09_accepts_only_printed_signatures.

(* any input is accepted or rejected with an error: the recursion bound chosen by Parse's model
   (length of the input + 1) is never reached, Kleene never spins *)
Theorem C09_total : forall s, parse s <> PFuel.
Proof. exact parse_total. Qed.
Print Assumptions C09_total.
Theorem C09_reject_is_error : forall s, (exists t, parse s = POk t) \/ parse s = PErr.
Proof. exact parse_outcomes. Qed.
Print Assumptions C09_reject_is_error.

Theorem C09_print_injective : forall t u, wf_ty t = true -> wf_ty u = true -> print t = print u -> t = u.
Proof. exact print_inj. Qed.
Print Assumptions C09_print_injective.

(* Go representation: reading Type()'s kind tree back as a signature gives the signature with
   the names dropped (structs as tuples, v as the empty struct, o as the ObjectReference struct);
   the members of the Go struct are the cleaned member names, P0, P1, ... for tuples *)
Theorem C09_names_consistent_go : forall t, shape_sig (go_type t) = print (anon t).
Proof. exact go_type_consistent. Qed.
Print Assumptions C09_names_consistent_go.
Theorem C09_names_consistent_members : forall n fs,
  shape_fields (go_type (TStruct n fs)) = map (fun f => clean_name (fst f)) fs.
Proof. exact go_type_fields_struct. Qed.
Print Assumptions C09_names_consistent_members.
Theorem C09_names_consistent_object : go_type (TS SObject) = go_type ty_ObjectReference.
Proof. exact go_type_object. Qed.
Print Assumptions C09_names_consistent_object.

(* IDL name: SignatureIDL() of a type (without void/empty tuple inside, struct names not beginning
   with a basic type name or a container keyword: idl_safe) is read back by the IDL type parser, and
   resolved through a scope declaring the structs it is the type's signature again (layer 1 of C18) *)
Theorem C09_names_consistent_idl : forall t sc g, idl_safe t = true -> scope_has sc t -> ty_depth t < g ->
  exists i, fst (itype (S (String.length (idl_name t))) (idl_name t)) = Ok (NVal (VType i)) "" /\
            isig g sc i = Some (print t).
Proof. exact idl_type_roundtrip. Qed.
Print Assumptions C09_names_consistent_idl.

(* Type() itself: total once the two reflect panics are repaired ... *)
Theorem C09_holds_type_total : forall cfg t, c_key_panic cfg = false -> c_dup_panic cfg = false ->
  go_type_result cfg t <> None.
Proof. exact go_type_total. Qed.
Print Assumptions C09_holds_type_total.
(* ... and on every type without an uncomparable key and without clashing member names it is the
   kind tree go_type t of the theorems above, repaired or not *)
Theorem C09_type_unaffected : forall cfg t, bad_key t = false -> dup_member t = false -> go_type_result cfg t = Some (go_type t).
Proof. exact go_type_good. Qed.
Print Assumptions C09_type_unaffected.
(* ... and on the pinned code a signature of the grammar whose Type() panics *)
Theorem C09_refuted_type_panics_uncomparable_key :
  exists t, wf_ty t = true /\ parse "{[i]i}" = POk t /\
            go_type_result {| c_key_panic := true; c_dup_panic := false |} t = None.
Proof. exists (TMap (TList (TS SI32)) (TS SI32)). vm_compute. repeat split. Qed.
Print Assumptions C09_refuted_type_panics_uncomparable_key.
Theorem C09_refuted_type_panics_duplicate_member :
  exists t, wf_ty t = true /\ parse "(ii)<A,x,x>" = POk t /\
            go_type_result {| c_key_panic := false; c_dup_panic := true |} t = None.
Proof. exists (TStruct "A" [("x", TS SI32); ("x", TS SI32)]). vm_compute. repeat split. Qed.
Print Assumptions C09_refuted_type_panics_duplicate_member.

(* C07's subject, proved here because it is a fact about this grammar: n nested empty tuples
   cost at least 2^n parser invocations (the struct alternative is tried before the tuple
   alternative on the same prefix) *)
Theorem C09_steps_exponential : forall n, (2 ^ N.of_nat n <= parse_steps (nest n))%N.
Proof. exact nest_steps_exponential. Qed.
Print Assumptions C09_steps_exponential.

(* the repaired grammar (design/C07.grammar.fix.diff; model decl_m / parse_m: the prefix
   "(" list ")" once, then the optional struct definition).  The correspondence run compares the
   implementation with parse_m when the source has this grammar (TieC09.tie_grammar_switch). *)
(* the two grammars agree on every input and for every recursion bound: same node and rest, same
   failure (the model's own outcomes NoFuel / Hang included) *)
Theorem C09_merged_grammar_same : forall f s, fst (decl_m f s) = fst (decl f s).
Proof. exact decl_m_decl. Qed.
Print Assumptions C09_merged_grammar_same.
Theorem C09_merged_same : forall s, parse_m s = parse s.
Proof. exact parse_m_parse. Qed.
Print Assumptions C09_merged_same.
Theorem C09_merged_print_parse : forall t, wf_ty t = true -> parse_m (print t) = POk t.
Proof. exact parse_m_print. Qed.
Print Assumptions C09_merged_print_parse.
Theorem C09_merged_fixed_point : forall s t, parse_m s = POk t -> parse_m (print t) = POk t.
Proof. exact parse_m_fixed_point. Qed.
Print Assumptions C09_merged_fixed_point.
Theorem C09_merged_accepts_grammar_only : forall s t, parse_m s = POk t -> wf_ty t = true.
Proof. exact parse_m_wf. Qed.
Print Assumptions C09_merged_accepts_grammar_only.
Theorem C09_merged_accepts_only_printed_signatures : forall s t, parse_m s = POk t -> unspace s = print t.
Proof. exact parse_m_canonical. Qed.
Print Assumptions C09_merged_accepts_only_printed_signatures.
Theorem C09_merged_total : forall s, parse_m s <> PFuel.
Proof. exact parse_m_total. Qed.
Print Assumptions C09_merged_total.
Theorem C09_merged_reject_is_error : forall s, (exists t, parse_m s = POk t) \/ parse_m s = PErr.
Proof. exact parse_m_outcomes. Qed.
Print Assumptions C09_merged_reject_is_error.
(* whichever grammar is observed, the model the implementation is compared with is parse *)
Theorem C09_observed_grammar_same : forall merged s, parse_g merged s = parse s.
Proof. exact parse_g_parse. Qed.
Print Assumptions C09_observed_grammar_same.
(* what the repair is for (C07): a number of parser invocations linear in the input *)
Theorem C09_merged_steps_linear : forall s, (parse_steps_m s <= 30 * N.of_nat (String.length s) + 24)%N.
Proof. exact parse_steps_m_linear. Qed.
Print Assumptions C09_merged_steps_linear.

Example C09_nonvacuous :
  wf_ty (TMap (TS SStr) (TStruct "A<B>" [("x", TList (TS SI32)); ("y", TTuple [])])) = true /\
  parse "{s([i]())<A<B>,x,y>}" = POk (TMap (TS SStr) (TStruct "A<B>" [("x", TList (TS SI32)); ("y", TTuple [])])) /\
  parse " { s ( [ i ] ( ) ) < A<B> , x , y > }" = parse "{s([i]())<A<B>,x,y>}" /\
  parse "{s([i]())<A<B>,x,y>} " = PErr /\ parse "(i)<A>" = PErr.
Proof. vm_compute. repeat split. Qed.
Example C09_nonvacuous_merged :
  parse_m "{s([i]())<A<B>,x,y>}" = POk (TMap (TS SStr) (TStruct "A<B>" [("x", TList (TS SI32)); ("y", TTuple [])])) /\
  parse_m "((i)(s)<A,b>)" = POk (TTuple [TTuple [TS SI32]; TStruct "A" [("b", TS SStr)]]) /\
  parse_m "(i)<A>" = PErr /\ parse_m "(i)<A,a" = PErr /\ parse_m "()<A,a" = PErr /\
  (parse_steps_m (nest 10) = 530 /\ parse_steps (nest 10) = 84909)%N.
Proof. repeat apply conj; [vm_compute; reflexivity ..|exact (nest_steps 9)]. Qed.
