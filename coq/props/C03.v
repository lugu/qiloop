(* C03 — All serializers agree with each other and with the documented layout.  Theorems only;
   proofs in theories/WireProofs.v and ReflProofs.v, instantiated at the signature parser in WireTop.v; the
   witnesses in WireRefute.v. *)
From QV Require Import Wire WireDefs WireProofs ReflProofs ParseOpt WireTop WireRefute.
Local Open Scope N_scope.

(* spec_enc is the serialization written from doc/about-qimessaging.md.  For every type and
   every well-typed value (maps in whatever order the encoder iterates them): *)
(* No restriction on the widths of container elements: lists of void, of empty tuples, of
   lists of those, maps with zero-width entries ... are covered (the count is then followed by
   nothing, and the decoders return that many copies of the only value of the element type).
   wf_ty only says that struct and field names are identifiers; types nested in dynamic
   values need it for their signature to be parsed back. *)

(* the reflection encoder writes exactly the documented bytes *)
Theorem C03_refl_enc : forall c v t, refl_drop8 c = false -> has_ty v t = true -> refl_domain t = true ->
  refl_enc c v = spec_enc v.
Proof. exact refl_enc_spec. Qed.
Print Assumptions C03_refl_enc.

(* the signature-driven reader accepts exactly those bytes and returns them unchanged *)
Theorem C03_sig_read : forall c v t fuel rest, value_reader_no_len c = false ->
  wf_ty t = true -> has_ty v t = true -> (dyn_depth v <= fuel)%nat ->
  sig_read parse_opt c fuel t (spec_enc v ++ rest) = ROk (spec_enc v, rest).
Proof. exact sig_read_spec_top. Qed.
Print Assumptions C03_sig_read.

(* the reflection decoder recovers the value (lists/maps within its 4096 bound, distinct keys) *)
Theorem C03_refl_dec : forall c v t rest, refl_drop8 c = false ->
  wf_ty t = true -> has_ty v t = true -> refl_domain t = true -> lens_ok v = true -> keys_nodup v ->
  refl_dec c tval_eqb t (spec_enc v ++ rest) = ROk (v, rest).
Proof. exact refl_dec_spec. Qed.
Print Assumptions C03_refl_dec.

(* the typed decoder of the documented format (what generated code implements) is its inverse *)
Theorem C03_spec_dec : forall v t fuel rest, wf_ty t = true -> has_ty v t = true -> (dyn_depth v <= fuel)%nat ->
  spec_dec parse_opt fuel t (spec_enc v ++ rest) = ROk (v, rest).
Proof. exact spec_dec_enc_top. Qed.
Print Assumptions C03_spec_dec.

(* the serializers compose: what the reflection encoder writes, the typed decoder of the
   documented format reads back as the same value, consuming exactly those bytes *)
Theorem C03_refl_enc_spec_dec : forall c v t fuel rest, refl_drop8 c = false -> wf_ty t = true ->
  has_ty v t = true -> refl_domain t = true -> (dyn_depth v <= fuel)%nat ->
  spec_dec parse_opt fuel t (refl_enc c v ++ rest) = ROk (v, rest).
Proof. exact refl_enc_spec_dec. Qed.
Print Assumptions C03_refl_enc_spec_dec.

(* for a fixed signature the documented layout determines the value: two well-typed values
   followed by any bytes that give the same byte string are equal, and so are the trailing bytes *)
Theorem C03_layout_injective : forall t v1 v2 r1 r2, wf_ty t = true -> has_ty v1 t = true -> has_ty v2 t = true ->
  spec_enc v1 ++ r1 = spec_enc v2 ++ r2 -> v1 = v2 /\ r1 = r2.
Proof. exact spec_enc_injective. Qed.
Print Assumptions C03_layout_injective.

Theorem C03_refuted_value_reader :
  has_ty dyn5 (TS SValue) = true /\
  exists d, sig_read parse_opt only_value_reader 1 (TS SValue) (spec_enc dyn5) = ROk (d, []) /\ d <> spec_enc dyn5.
Proof. exact (ValueProofs.sig_read_value_refuted parse_opt parse_opt_print only_value_reader eq_refl). Qed.
Print Assumptions C03_refuted_value_reader.
Theorem C03_refuted_drop8 :
  has_ty s8 (TTuple [TS SI8; TS SI32]) = true /\ refl_enc only_drop8 s8 <> spec_enc s8.
Proof. split; vm_compute; [reflexivity|discriminate]. Qed.
Print Assumptions C03_refuted_drop8.
(* finding refl_list_over_4096: the hypothesis lens_ok of C03_refl_dec is needed — a list of 4097
   bytes is encoded as documented and refused by the decoder *)
Theorem C03_refuted_list_over_4096 :
  has_ty bytes4097 (TList (TS SU8)) = true /\ refl_enc wclean bytes4097 = spec_enc bytes4097 /\
  exists l, refl_dec wclean tval_eqb (TList (TS SU8)) (spec_enc bytes4097) = RErr l.
Proof. exact (refl_long_list_refused wclean (VNum 1 0) (TS SU8) 4097 eq_refl eq_refl eq_refl (conj eq_refl eq_refl)). Qed.
Print Assumptions C03_refuted_list_over_4096.

Example C03_nonvacuous :
  good_ty ex_ty = true /\ has_ty ex_val ex_ty = true /\ dyn_depth ex_val = 1%nat /\ (List.length (spec_enc ex_val) = 39)%nat.
Proof. exact ex_val_ok. Qed.
Example C03_nonvacuous_zero_width :
  wf_ty zw_ty = true /\ wfz zw_ty = false /\ has_ty zw_val zw_ty = true /\ dyn_depth zw_val = 1%nat /\ (List.length (spec_enc zw_val) = 42)%nat.
Proof. exact zw_val_ok. Qed.
