(* C07 — Decoders and parsers are total and resource-bounded on arbitrary input.  Theorems only;
   proofs in theories/TotalProofs.v, CostProofs.v, SigParseProofs.v, SigParseMerged.v, DepthCostProofs.v. *)
From QV Require Import Reader Message Wire Value GenDec Cost CostProofs TotalProofs ParseOpt SigParse SigParseProofs SigParseMerged WireRefute WireTop DepthCost DepthCostProofs.
Local Open Scope N_scope.

(* Totality on arbitrary bytes: a value or an error, never a panic, never stuck. *)
Theorem C07_message_total : forall s, read_msg s <> None.
Proof. exact read_msg_total. Qed.
Print Assumptions C07_message_total.
Theorem C07_value_total : forall c bs, new_value parse_opt c bs <> RFuel /\ new_value parse_opt c bs <> RPanic.
Proof. intros c bs. split; [apply new_value_total|apply new_value_no_panic]. Qed.
Print Assumptions C07_value_total.
Theorem C07_sig_read_total : forall c t bs,
  sig_read parse_opt c (S (List.length bs)) t bs <> RFuel /\ sig_read parse_opt c (S (List.length bs)) t bs <> RPanic.
Proof. intros c t bs. split; [apply sig_read_total|apply sig_read_no_panic]. Qed.
Print Assumptions C07_sig_read_total.
Theorem C07_refl_dec_total : forall c t bs, refl_neg_len_panics c = false ->
  refl_dec c tval_eqb t bs <> RFuel /\ refl_dec c tval_eqb t bs <> RPanic.
Proof. intros c t bs H. split; [apply refl_dec_total|now apply refl_dec_no_panic]. Qed.
Print Assumptions C07_refl_dec_total.
Theorem C07_generated_total : forall t bs, plain_m t = true ->
  gen_dec parse_opt t bs <> RFuel /\ gen_dec parse_opt t bs <> RPanic.
Proof. intros t bs H. split; [now apply gen_dec_total|apply gen_dec_no_panic]. Qed.
Print Assumptions C07_generated_total.
Theorem C07_capmap_total : forall c bs, dec_capmap parse_opt c bs <> RFuel /\ dec_capmap parse_opt c bs <> RPanic.
Proof. intros c bs. split; [apply dec_capmap_total|apply dec_capmap_no_panic]. Qed.
Print Assumptions C07_capmap_total.
Theorem C07_parse_total : forall s, parse s <> PFuel.
Proof. exact parse_total. Qed.
Print Assumptions C07_parse_total.

(* Resources of the typed decoders (instrumented model), any input, any budget. *)
(* reflection decoder: allocation linear in the input; what is not paid for by input read is
   bounded by the documented limits (one failed string, 4096-element containers) *)
Theorem C07_alloc_refl : forall neg t bs budget,
  alloc (snd (cdec PRefl neg t bs budget)) <= len bs + MaxStringSize + (len bs / 4 + 1) * (listValueMaxSize * max_esz t).
Proof. exact cdec_alloc_refl. Qed.
Print Assumptions C07_alloc_refl.
Theorem C07_alloc_sig : forall neg t bs budget, alloc (snd (cdec PSig neg t bs budget)) <= len bs + MaxStringSize.
Proof. exact cdec_alloc_sig. Qed.
Print Assumptions C07_alloc_sig.
(* iterations: linear in the input for every policy when no container has zero-width elements,
   and then a budget above the input length is never what stops the decoder *)
Theorem C07_iters : forall pol neg t bs budget, wfz t = true -> iters (snd (cdec pol neg t bs budget)) <= len bs.
Proof. exact cdec_iters_wfz. Qed.
Print Assumptions C07_iters.
Theorem C07_budget_enough : forall pol neg t bs budget, wfz t = true -> len bs < budget -> fst (cdec pol neg t bs budget) <> CBudget.
Proof. exact cdec_budget_enough. Qed.
Print Assumptions C07_budget_enough.
Theorem C07_iters_refl : forall neg t bs budget,
  iters (snd (cdec PRefl neg t bs budget)) <= (len bs / 4 + 1) * listValueMaxSize + len bs.
Proof. exact cdec_iters_refl. Qed.
Print Assumptions C07_iters_refl.
Theorem C07_no_panic : forall pol t bs budget, fst (cdec pol false t bs budget) <> CPanic.
Proof. exact cdec_no_panic. Qed.
Print Assumptions C07_no_panic.

(* Refutations: the three findings of the pinned code, and the repaired panic. *)
(* generated decoders allocate from the wire count: 4 bytes of input, unbounded allocation *)
Theorem C07_refuted_gen_alloc : forall k, exists t bs, len bs = 4 /\ k <= alloc (snd (cdec PGen false t bs 1000)).
Proof. exact cdec_gen_alloc_unbounded. Qed.
Print Assumptions C07_refuted_gen_alloc.
(* the signature reader loops count times over elements that read nothing *)
Theorem C07_refuted_sig_spin : fst (cdec PSig false (TList (TS SVoid)) [xff; xff; xff; xff] 1000000) = CBudget.
Proof. exact cdec_sig_spin_refuted. Qed.
Print Assumptions C07_refuted_sig_spin.
(* the signature grammar: n nested parentheses cost at least 2^n parser invocations *)
Theorem C07_refuted_parse_exponential : forall n, 2 ^ N.of_nat n <= parse_steps (nest n).
Proof. exact nest_steps_exponential. Qed.
Print Assumptions C07_refuted_parse_exponential.
(* the pinned reflection decoder panicked on a negative list length (repaired: 7100291) *)
Theorem C07_refuted_neg_len : refl_dec only_neg_len tval_eqb (TList (TS SI32)) [xff; xff; xff; xff] = RPanic.
Proof. vm_compute. reflexivity. Qed.
Print Assumptions C07_refuted_neg_len.

(* The repaired signature grammar (design/C07.grammar.fix.diff: "(" list ")" parsed once, the
   struct definition optional; model parse_m, chosen by the observed grammar text, TieC09). *)
(* at most 30 parser invocations per character of the input, plus 24: every string, accepted or not.
   This bounds time.  It says nothing about the goroutine stack, which the Go parser uses in proportion
   to the nesting depth: finding sig_parse_stack_unbounded (a 2 MB signature of nested "[" overflows the
   1 GB stack limit); the nesting depth is bounded and refuted below (C07_parse_depth_bound,
   C07_refuted_parse_depth_constant) and the finding is witnessed by the harness on every run. *)
Theorem C07_parse_merged_linear : forall s, parse_steps_m s <= 30 * N.of_nat (String.length s) + 24.
Proof. exact parse_steps_m_linear. Qed.
Print Assumptions C07_parse_merged_linear.
(* the witness of C07_refuted_parse_exponential costs at most 60 n + 24 *)
Theorem C07_parse_merged_nest_linear : forall n, parse_steps_m (nest n) <= 60 * N.of_nat n + 24.
Proof. exact nest_steps_m_linear. Qed.
Print Assumptions C07_parse_merged_nest_linear.
(* and the repair changes no result: same value or error for every string, so C07_parse_total holds for it *)
Theorem C07_parse_merged_same : forall s, parse_m s = parse s.
Proof. exact parse_m_parse. Qed.
Print Assumptions C07_parse_merged_same.
Theorem C07_parse_merged_total : forall s, parse_m s <> PFuel.
Proof. exact parse_m_total. Qed.
Print Assumptions C07_parse_merged_total.

(* The two resources Cost.v does not count (theories/DepthCost.v). *)
(* Bytes copied by the signature-driven reader.  sig_copy is sig_read with a meter: [copied] is the number
   of bytes written into result buffers (every reader returns what it read, every composite reader
   re-buffers what its members returned), [nesting] the deepest nesting of reader invocations reached. *)
(* the meter does not change the reader: same value, rest or error, every input, every fuel *)
Theorem C07_sig_copy_same : forall c fuel t bs, snd (sig_copy parse_opt c fuel t bs) = sig_read parse_opt c fuel t bs.
Proof. intros c fuel t bs. apply sig_copy_read. Qed.
Print Assumptions C07_sig_copy_same.
(* Upper bound, every type, every input, every outcome (errors included): a byte the reader consumed
   is copied at most once per reader it is nested in; so copied <= nesting * |input|.  (Needs the repaired
   stringReader: with the dropped error 4 input bytes make 4004 result bytes, 8004 copied, drops_err_copy_unbounded.) *)
Theorem C07_sig_copy_bound : forall c fuel t bs, string_reader_drops_err c = false ->
  copied (fst (sig_copy parse_opt c fuel t bs)) <= nesting (fst (sig_copy parse_opt c fuel t bs)) * used bs (snd (sig_copy parse_opt c fuel t bs)) /\
  copied (fst (sig_copy parse_opt c fuel t bs)) <= nesting (fst (sig_copy parse_opt c fuel t bs)) * len bs.
Proof.
  intros c fuel t bs H. split; [apply sig_copy_bound|apply sig_copy_bound_len]; exact H.
Qed.
Print Assumptions C07_sig_copy_bound.
(* for a type that holds no dynamic value the nesting is the type's own (rdepth t, no input can raise it):
   the reader is linear in the input for each such type, with the type's depth as the constant *)
Theorem C07_sig_copy_static : forall c fuel t bs, string_reader_drops_err c = false -> plain_m t = true ->
  nesting (fst (sig_copy parse_opt c fuel t bs)) <= rdepth t /\
  copied (fst (sig_copy parse_opt c fuel t bs)) <= rdepth t * len bs.
Proof.
  intros c fuel t bs H Ht. split; [apply sig_copy_nest_static; exact Ht|apply sig_copy_static_linear; assumption].
Qed.
Print Assumptions C07_sig_copy_static.
(* Bound in the type and the input alone, dynamic values included: the nesting a reader reaches is at most the nesting of its type
   plus twice the input (every dynamic value pays 4 bytes and its signature text, and a signature text
   yields a type at most as deep as it has opening brackets: C07_parse_depth_type), so the reader copies
   at most (rdepth t + 2 |input|) * |input| bytes: quadratic, and by the refutation below not better *)
Theorem C07_sig_copy_quadratic : forall c fuel t bs, string_reader_drops_err c = false ->
  nesting (fst (sig_copy parse_opt c fuel t bs)) <= rdepth t + 2 * len bs /\
  copied (fst (sig_copy parse_opt c fuel t bs)) <= (rdepth t + 2 * len bs) * len bs.
Proof.
  intros c fuel t bs H. split; [apply sig_copy_nl|apply sig_copy_quadratic]; try exact H; exact parse_opt_rdepth.
Qed.
Print Assumptions C07_sig_copy_quadratic.
(* No bound linear in the input alone.  n dynamic values nested in one another (n times the
   string "m", then "v": 5 (n + 1) bytes) are accepted and returned whole by the reader of type "m", which
   copies 5 + 10 + ... + 5 (n + 1) = 5 (n + 1) (n + 2) / 2 bytes: finding sig_reader_depth_quadratic *)
Theorem C07_refuted_sig_copy_linear : forall k : N, exists bs,
  sig_read parse_opt wclean (S (List.length bs)) (TS SValue) bs = ROk (bs, []) /\
  k * len bs < sig_copied wclean (TS SValue) bs.
Proof. exact sig_copy_not_linear. Qed.
Print Assumptions C07_refuted_sig_copy_linear.
Theorem C07_sig_copy_nested_exact : forall n,
  len (nested_m n) = 5 * (N.of_nat n + 1) /\
  2 * sig_copied wclean (TS SValue) (nested_m n) = 5 * (N.of_nat n + 1) * (N.of_nat n + 2) /\
  sig_nest wclean (TS SValue) (nested_m n) = N.of_nat n + 2.
Proof.
  intro n. destruct (sig_copied_nested n) as (_ & Hc & Hn). rewrite Hc, Hn.
  split; [apply nested_m_blen|]. split; [apply copy_m_closed|reflexivity].
Qed.
Print Assumptions C07_sig_copy_nested_exact.

(* Recursion depth of the signature parser.  The type rule of the model takes a fuel that is the number
   of entries of the rule inside one another it still allows; parse_depth s is the least fuel with which
   the rule answers on s (a node or a refusal, not "out of fuel"): the nesting of entries parsing s makes.
   The Go parser uses more than 500 bytes of goroutine stack per entry; the runtime's limit is 1 GB. *)
(* it is a threshold: any fuel from parse_depth s on gives the same answer, any fuel below gives none *)
Theorem C07_parse_depth_threshold : forall s d,
  (parse_within d s = true <-> (parse_depth s <= d)%nat) /\
  ((parse_depth s <= d)%nat -> fst (decl_m d s) = fst (decl_m (parse_depth s) s)).
Proof. intros s d. split; [apply parse_depth_spec|apply decl_m_stable]. Qed.
Print Assumptions C07_parse_depth_threshold.
(* the type Parse returns is no deeper than the parse that made it (so a deep type needs a deep parse) *)
Theorem C07_parse_depth_type : forall s t, parse_m s = POk t -> (ty_depth t <= parse_depth s)%nat.
Proof. exact parse_depth_ty. Qed.
Print Assumptions C07_parse_depth_type.
(* At most one entry per opening bracket of the text, and one more; hence at most |s| + 1 *)
Theorem C07_parse_depth_bound : forall s,
  (parse_depth s <= open_count s + 1)%nat /\ (parse_depth s <= String.length s + 1)%nat.
Proof. intro s. split; [apply parse_depth_le_open_count|apply parse_depth_le_length]. Qed.
Print Assumptions C07_parse_depth_bound.
(* No constant bound.  n opening square brackets (refused), and the signature of n lists around
   an int32 (accepted), need exactly n + 1 nested entries: finding sig_parse_stack_unbounded *)
Theorem C07_refuted_parse_depth_constant : forall n,
  parse_depth (brackets n) = (n + 1)%nat /\
  parse_m (nested_list n) = POk (list_ty n) /\ parse_depth (nested_list n) = (n + 1)%nat.
Proof.
  intro n. split; [apply parse_depth_brackets_eq|]. split; [apply parse_m_nested_list|apply parse_depth_nested_list_eq].
Qed.
Print Assumptions C07_refuted_parse_depth_constant.

Example C07_nonvacuous : wfz WireTop.ex_ty = true /\ plain_m ty_MetaObject = true.
Proof. split; vm_compute; reflexivity. Qed.
(* 22 nested parentheses (the witness the harness runs): 1166 invocations against at least 2^22 *)
Example C07_nonvacuous_merged : parse_steps_m (nest 22) = 1166 /\ 2 ^ 22 <= parse_steps (nest 22).
Proof. exact nest22_steps. Qed.
(* 8000 nested dynamic values, the witness the harness runs: 40,005 bytes in, 160,060,005 bytes copied;
   and 200 levels by evaluation of the model itself *)
Example C07_nonvacuous_copy :
  len (nested_m (N.to_nat 8000)) = 40005 /\ sig_copied wclean (TS SValue) (nested_m (N.to_nat 8000)) = 160060005.
Proof. exact sig_copied_8000. Qed.
Example C07_nonvacuous_copy_200 :
  len (nested_m 200) = 1005 /\ sig_copied wclean (TS SValue) (nested_m 200) = 101505 /\ sig_nest wclean (TS SValue) (nested_m 200) = 202.
Proof. exact sig_copied_200. Qed.
(* the parser on "[[[i]]]": four entries of the type rule inside one another *)
Example C07_nonvacuous_depth : parse_depth "[[[i]]]" = 4%nat /\ parse_depth (brackets 300) = 301%nat.
Proof. split; [vm_compute; reflexivity|]. rewrite (proj1 (C07_refuted_parse_depth_constant 300)). reflexivity. Qed.
