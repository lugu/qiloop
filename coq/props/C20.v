(* C20 — Structural conversion preserves every value.
   Property theorems only; model in theories/Conv.v, proofs in theories/ConvProofs.v.

   convert c t1 t2 v   : what conversion.ConvertFrom(&x, v) leaves in a fresh x : t2 for v : t1
   compat t1 t2        : integers to integers of the same signedness at least as wide, float32 to
                         float64, strings, booleans, slices, maps, structs matched by field name
                         (case-insensitively, names unambiguous), nested arbitrarily
   agree t1 t2 v v'    : every element, key and field of v' equals the one of v at the same place
   convert_onto c t1 t2 v old : the same for an x : t2 that is not fresh; `old : dval` is what x held
                         (slices: length and whole backing array), e.g. a reply variable used again
   enter e c t1 t2 v old : the same through entry point e — EConvertFrom (the value itself),
                         EDecodeFrom (conversion.DecodeFrom: the bytes of v : t1 and the type t1), ECall2
                         (bus.Proxy.Call2: t1 = type of the return signature advertised in the meta object,
                         t2 = type of the caller's variable; read directly when both have one signature text,
                         same_sigb, handed to DecodeFrom otherwise); old = None: x is fresh
   clean c             : the defect switches map_value_into_key and map_keeps_old_entries are off *)
From Coq Require Import List ZArith String Permutation.
From QV Require Import Conv ConvProofs.
Import ListNotations.

(* first clause: the conversion succeeds, keeps every element, key and field, stays well typed,
   and converting back recovers the source exactly — for all compatible type pairs of any
   nesting and all values of the source type *)
Theorem C20_holds : forall c, clean c -> forall t1 t2 v, compat t1 t2 -> has_type t1 v ->
  exists v', convert c t1 t2 v = COk v' /\ has_type t2 v' /\ agree t1 t2 v v' /\ convert c t2 t1 v' = COk v.
Proof.
  intros c Hc t1 t2 v H1 H2. destruct (convert_compat c Hc t1 t2 v H1 H2) as [v' [A T G B]].
  exists v'. unfold convert. rewrite <- !convert_into_fresh. auto.
Qed.
Print Assumptions C20_holds.

(* the scalars found in the result (elements, keys, fields, left to right) are exactly the
   scalars of the source; the order may differ only where struct fields are declared in a
   different order, which `agree` above accounts for *)
Theorem C20_leaves : forall c, clean c -> forall t1 t2 v v', compat t1 t2 -> has_type t1 v ->
  convert c t1 t2 v = COk v' -> Permutation (leaves v') (leaves v).
Proof.
  intros c Hc t1 t2 v v' H1 H2 H3. destruct (C20_holds c Hc t1 t2 v H1 H2) as [v'' [E [_ [A _]]]].
  rewrite H3 in E. inversion E; subst v''. symmetry. exact (agree_leaves t1 t2 v v' H1 A).
Qed.
Print Assumptions C20_leaves.

(* the destination need not be fresh: whatever it held before (a longer slice, a map with other
   entries, a struct with set fields, nested), the conversion of a compatible pair leaves exactly
   what it leaves in a fresh variable — no element, entry or field of the previous content
   survives — and the way back recovers the source whatever *its* destination held *)
Theorem C20_destination_irrelevant : forall c, clean c -> forall t1 t2 v old, compat t1 t2 -> has_type t1 v ->
  convert_onto c t1 t2 v old = convert c t1 t2 v.
Proof. intros c Hc t1 t2 v old. exact (enter_compat c Hc EConvertFrom t1 t2 v (Some old)). Qed.
Print Assumptions C20_destination_irrelevant.

Theorem C20_holds_reused_destination : forall c, clean c -> forall t1 t2 v old, compat t1 t2 -> has_type t1 v ->
  exists v', convert_onto c t1 t2 v old = COk v' /\ has_type t2 v' /\ agree t1 t2 v v' /\
             forall old', convert_onto c t2 t1 v' old' = COk v.
Proof.
  intros c Hc t1 t2 v old H1 H2. destruct (convert_compat c Hc t1 t2 v H1 H2) as [v' [A T G B]].
  exists v'. unfold convert_onto. auto.
Qed.
Print Assumptions C20_holds_reused_destination.

(* a destination holding zero values is a fresh one (any switches, any types) *)
Theorem C20_zero_destination_is_fresh : forall c t1 t2 v, convert_onto c t1 t2 v (dzero t2) = convert c t1 t2 v.
Proof. exact (fun c t1 t2 v => convert_into_fresh c t2 t1 v). Qed.
Print Assumptions C20_zero_destination_is_fresh.

(* second clause: kinds from different classes {bool, string, integer, float, slice, map, struct}
   are refused, whatever the value and whatever the switch *)
Theorem C20_refuses_other_kinds : forall c t1 t2 v, class_of t1 <> class_of t2 -> convert c t1 t2 v = CErr.
Proof. intros c t1 t2 v H. now apply convert_to_class_mismatch. Qed.
Print Assumptions C20_refuses_other_kinds.

(* ... and so is any conversion that meets, at some element, key or matched field the value
   actually holds, kinds of different classes *)
Theorem C20_refuses_other_kinds_nested : forall c, clean c -> forall t1 t2 v,
  other_kind_reached t2 t1 v = true -> convert c t1 t2 v = CErr.
Proof. intros c [H _] t1 t2 v Hr. apply into_fresh. now apply other_kind_refused. Qed.
Print Assumptions C20_refuses_other_kinds_nested.

(* every entry point: for compatible types ConvertFrom, DecodeFrom and Proxy.Call2 (whether the
   reply is read directly or converted) leave what ConvertFrom leaves in a fresh variable, whatever
   the destination held — so the first clause holds at each of them, and the way back through any
   converting entry point recovers the source.  The model has no state: the outcome of a call is a
   function of its own arguments, which is what the sequences of the correspondence run are
   compared with. *)
Theorem C20_entry_is_conversion : forall c, clean c -> forall e t1 t2 v old, compat t1 t2 -> has_type t1 v ->
  enter e c t1 t2 v old = convert c t1 t2 v.
Proof. exact enter_compat. Qed.
Print Assumptions C20_entry_is_conversion.

Theorem C20_holds_at_every_entry_point : forall c, clean c -> forall e t1 t2 v old, compat t1 t2 -> has_type t1 v ->
  exists v', enter e c t1 t2 v old = COk v' /\ has_type t2 v' /\ agree t1 t2 v v' /\
             forall e' old', e' <> ECall2 -> enter e' c t2 t1 v' old' = COk v.
Proof.
  intros c Hc e t1 t2 v old H1 H2. destruct (convert_compat c Hc t1 t2 v H1 H2) as [v' [A T G B]].
  exists v'. rewrite (enter_compat c Hc e t1 t2 v old H1 H2). unfold convert. rewrite <- convert_into_fresh.
  repeat split; auto. intros e' old' He. rewrite enter_conv; [apply B | contradiction].
Qed.
Print Assumptions C20_holds_at_every_entry_point.

(* a reply whose advertised signature is the caller's own is read as it is: for compatible types
   that is the conversion *)
Theorem C20_direct_read_is_conversion : forall c, clean c -> forall t1 t2 v,
  same_sigb t1 t2 = true -> compat t1 t2 -> has_type t1 v -> convert c t1 t2 v = COk v.
Proof.
  intros c Hc t1 t2 v Hs H1 H2. apply into_fresh. now apply same_sig_convert.
Qed.
Print Assumptions C20_direct_read_is_conversion.

(* second clause at every entry point: there is no way around the refusal *)
Theorem C20_every_entry_refuses_other_kinds : forall e c t1 t2 v old,
  class_of t1 <> class_of t2 -> enter e c t1 t2 v old = CErr.
Proof.
  intros e c t1 t2 v old H. rewrite enter_conv; [now apply convert_into_class_mismatch|].
  intros _. destruct (same_sigb t1 t2) eqn:E; [|reflexivity]. destruct (H (same_sig_class t1 t2 E)).
Qed.
Print Assumptions C20_every_entry_refuses_other_kinds.

Theorem C20_every_entry_refuses_other_kinds_nested : forall c, clean c -> forall e t1 t2 v,
  other_kind_reached t2 t1 v = true -> (e = ECall2 -> same_sigb t1 t2 = false) -> enter e c t1 t2 v None = CErr.
Proof.
  intros c [Hc _] e t1 t2 v H Hd. rewrite enter_conv by exact Hd. now apply other_kind_refused.
Qed.
Print Assumptions C20_every_entry_refuses_other_kinds_nested.

(* the pinned convertMap (value converted into the key variable, element never filled) breaks
   the first clause: map[int8]int8{1:5} becomes map[int16]int16{5:0} ... *)
Theorem C20_refuted_map_value_into_key :
  compat wit_t1 wit_t2 /\ has_type wit_t1 wit_v /\
  convert cfg_pinned wit_t1 wit_t2 wit_v = COk (VMap [(VInt 5, VInt 0)]) /\
  ~ (exists v', convert cfg_pinned wit_t1 wit_t2 wit_v = COk v' /\ agree wit_t1 wit_t2 wit_v v').
Proof. exact refuted_map_value_into_key. Qed.
Print Assumptions C20_refuted_map_value_into_key.

(* ... and map[string]int8{"a":1} is refused when converted into its own type *)
Theorem C20_refuted_map_refused :
  compat wit2_t wit2_t /\ has_type wit2_t wit2_v /\ convert cfg_pinned wit2_t wit2_t wit2_v = CErr.
Proof. exact refuted_map_refused. Qed.
Print Assumptions C20_refuted_map_refused.

(* ... and map[int8]int8{1:5} is accepted into map[int16]string *)
Theorem C20_refuted_map_other_kind_accepted :
  other_kind_reached wit3_t2 wit_t1 wit_v = true /\
  convert cfg_pinned wit_t1 wit3_t2 wit_v = COk (VMap [(VInt 5, VStr "")]).
Proof. exact refuted_map_other_kind_accepted. Qed.
Print Assumptions C20_refuted_map_other_kind_accepted.

(* the pinned convertMap stores into the map the destination already holds: map[int8]int8{1:5}
   into a map[int16]int16 holding {7:7} gives {7:7, 1:5}; the entry 7:7 is not the source's and
   converting back yields two entries *)
Theorem C20_refuted_map_keeps_old_entries :
  compat wit_t1 wit_t2 /\ has_type wit_t1 wit_v /\ has_type wit_t2 (visible wit4_old) /\
  convert_onto cfg_keeps wit_t1 wit_t2 wit_v wit4_old = COk (VMap [(VInt 7, VInt 7); (VInt 1, VInt 5)]) /\
  ~ (exists v', convert_onto cfg_keeps wit_t1 wit_t2 wit_v wit4_old = COk v' /\ agree wit_t1 wit_t2 wit_v v') /\
  convert cfg_keeps wit_t2 wit_t1 (VMap [(VInt 7, VInt 7); (VInt 1, VInt 5)]) <> COk wit_v.
Proof. exact refuted_map_keeps_old_entries. Qed.
Print Assumptions C20_refuted_map_keeps_old_entries.

(* the hypotheses are met by a nested instance (struct with permuted, differently-cased fields
   holding an integer, a slice of floats, a map and a boolean) *)
Example C20_nonvacuous :
  compat ex_t1 ex_t2 /\ has_type ex_t1 ex_v /\ convert cfg_clean ex_t1 ex_t2 ex_v = COk ex_v' /\
  convert cfg_clean ex_t2 ex_t1 ex_v' = COk ex_v.
Proof. split; [|split; [|split]]; vm_compute; reflexivity. Qed.
