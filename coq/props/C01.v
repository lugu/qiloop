(* C01 — Message framing is lossless, self-delimiting and matches the documented layout.
   This file holds the property theorems only, each an instance of, or a few lines from, the lemmas of
   theories/MessageProofs.v and theories/ReaderProofs.v. *)
From QV Require Import Reader ReaderProofs Message MessageProofs.
Local Open Scope N_scope.

(* bytes on the wire = documented 28-byte header ++ payload *)
Theorem C01_layout : forall m, h_magic (m_header m) = Magic ->
  enc_msg m = doc_frame (h_id (m_header m)) (h_size (m_header m)) (h_version (m_header m))
                (h_type (m_header m)) (h_flags (m_header m)) (h_service (m_header m))
                (h_object (m_header m)) (h_action (m_header m)) (m_payload m).
Proof.
  intros m Hm. unfold enc_msg, doc_frame. rewrite enc_header_eq, Hm.
  change (be 4 Magic) with [x42; xde; xad; x42]. reflexivity.
Qed.
Print Assumptions C01_layout.

(* lossless and self-delimiting for every fragmentation with positive chunks,
   including data returned together with io.EOF, and any bytes following the frame *)
Theorem C01_roundtrip_frag : forall m rest sch, valid_msg m -> pos_sched sch ->
  exists sch', read_msg {| s_data := enc_msg m ++ rest; s_sched := sch |} =
                 Some (Ok m, {| s_data := rest; s_sched := sch' |}) /\ pos_sched sch'.
Proof. exact read_msg_roundtrip. Qed.
Print Assumptions C01_roundtrip_frag.

(* lossless: the frame determines the message and where it ends.  Two valid messages, each
   followed by any bytes, that give the same byte string are the same message followed by the
   same bytes; no valid frame is a proper prefix of another *)
Theorem C01_injective : forall m1 m2 r1 r2, valid_msg m1 -> valid_msg m2 ->
  enc_msg m1 ++ r1 = enc_msg m2 ++ r2 -> m1 = m2 /\ r1 = r2.
Proof. exact enc_msg_injective. Qed.
Print Assumptions C01_injective.
Theorem C01_prefix_free : forall m1 m2 r, valid_msg m1 -> valid_msg m2 ->
  enc_msg m1 = enc_msg m2 ++ r -> m1 = m2 /\ r = [].
Proof. exact (injective_not_prefix enc_msg valid_msg enc_msg_injective). Qed.
Print Assumptions C01_prefix_free.

(* messages written back to back read back as the same sequence, then io.EOF *)
Theorem C01_sequence : forall ms sch, Forall valid_msg ms -> pos_sched sch ->
  exists sch', read_all (S (List.length ms)) {| s_data := concat (map enc_msg ms); s_sched := sch |} =
                 Some (ms, EEOF, {| s_data := []; s_sched := sch' |}).
Proof. exact read_all_sequence. Qed.
Print Assumptions C01_sequence.

(* self-delimiting at stream level: a byte stream splits into valid frames in at most one way *)
Theorem C01_stream_injective : forall ms1 ms2, Forall valid_msg ms1 -> Forall valid_msg ms2 ->
  concat (map enc_msg ms1) = concat (map enc_msg ms2) -> ms1 = ms2.
Proof.
  intros ms1 ms2. rewrite <- !flat_map_concat_map.
  apply (injective_stream enc_msg valid_msg enc_msg_injective).
  intros m _. apply enc_msg_nonempty.
Qed.
Print Assumptions C01_stream_injective.

(* a refused header costs exactly the 28 header bytes: the payload is never touched *)
Theorem C01_refuse_before_payload : forall b rest sch,
  List.length b = 28%nat -> header_refused b -> pos_sched sch ->
  exists sch', read_msg {| s_data := b ++ rest; s_sched := sch |} =
                 Some (Err EOther, {| s_data := rest; s_sched := sch' |}).
Proof. exact refuse_before_payload. Qed.
Print Assumptions C01_refuse_before_payload.

Theorem C01_refused_magic : forall h, h_magic h < 2 ^ 32 -> h_magic h <> Magic ->
  exists e, dec_header (enc_header h) = Err e.
Proof. exact refused_magic. Qed.
Print Assumptions C01_refused_magic.
Theorem C01_refused_version : forall h, h_magic h = Magic -> h_version h < 2 ^ 16 -> h_version h <> Version ->
  exists e, dec_header (enc_header h) = Err e.
Proof. exact refused_version. Qed.
Print Assumptions C01_refused_version.
Theorem C01_refused_type : forall h, h_magic h = Magic -> h_version h = Version -> h_type h < 2 ^ 8 ->
  (h_type h = 0 \/ 8 < h_type h) -> exists e, dec_header (enc_header h) = Err e.
Proof. exact refused_type. Qed.
Print Assumptions C01_refused_type.

(* Message.Write: one Write call carrying the whole frame; with short writes the accepted
   bytes concatenate to the frame; a size mismatch writes nothing *)
Theorem C01_write_once : forall m calls, valid_msg m ->
  write_msg m {| w_calls := calls; w_sched := [] |} =
    Some (Ok {| w_calls := calls ++ [enc_msg m]; w_sched := [] |}).
Proof. exact write_msg_once. Qed.
Print Assumptions C01_write_once.
Theorem C01_write_short_writes : forall m calls sch, valid_msg m -> pos_wsched sch ->
  exists w', write_msg m {| w_calls := calls; w_sched := sch |} = Some (Ok w') /\
    exists more, w_calls w' = calls ++ more /\ concat more = enc_msg m.
Proof.
  intros m calls sch Hv Hpos. rewrite write_msg_valid by exact Hv.
  apply (writeN_loop_concat _ _ {| w_calls := calls; w_sched := sch |} Hpos). right. cbn. lia.
Qed.
Print Assumptions C01_write_short_writes.
Theorem C01_write_size_mismatch : forall m w,
  N.of_nat (List.length (m_payload m)) mod 2 ^ 32 <> h_size (m_header m) ->
  write_msg m w = Some (Err EOther).
Proof. intros m w H. unfold write_msg. apply N.eqb_neq in H. now rewrite H. Qed.
Print Assumptions C01_write_size_mismatch.

(* hypotheses are satisfiable: a concrete frame read over 1-byte reads with EOF glued to the data *)
Example C01_nonvacuous : valid_msg ex_msg /\
  read_msg {| s_data := enc_msg ex_msg ++ [xff]; s_sched := repeat (1%nat, true) 31 |} =
    Some (Ok ex_msg, {| s_data := [xff]; s_sched := [] |}).
Proof. exact (conj ex_msg_valid ex_msg_read). Qed.
