(* C14 — A property is an atomic, typed register with validated writes and change events.
   Property theorems only; model: theories/Property.v, proofs: theories/PropertyProofs.v,
   linearizability machinery: theories/Lin.v, LinProofs.v; the subscriber table (registerEvent /
   unregisterEvent with client-chosen user ids): theories/PropertySubs.v, PropertySubsProofs.v; objects with
   several properties (one table, one register per property): theories/PropertyMulti.v, PropertyMultiProofs.v.  Every theorem holds for every
   implementor-side validator [valid]. *)
From Coq Require Import NArith List String Permutation.
From QV Require Import Bytes Property PropertyProofs Lin LinProofs PropertySubs PropertySubsProofs PropertyMulti PropertyMultiProofs.
Import ListNotations.
Local Open Scope N_scope.

(* a write the validator (or the name resolution, or the payload decoding) rejects changes
   nothing and emits nothing *)
Theorem C14_rejected_write_unchanged : forall c valid s o s' ev,
  pstep c valid s o = (s', RFail, ev) -> s' = s /\ ev = [].
Proof. exact rejected_unchanged. Qed.
Print Assumptions C14_rejected_write_unchanged.

(* an accepted write — by a client or by the service itself — stores the value and emits exactly
   one event per subscriber, carrying the new value *)
Theorem C14_accepted_write_one_event : forall c valid s o s' ev, is_write o = true ->
  pstep c valid s o = (s', RDone, ev) ->
  exists v, check c valid o = Some v /\ p_val s' = Some v /\ p_subs s' = p_subs s /\
            ev = map (fun sub => (sub, cv_data v)) (p_subs s).
Proof. exact accepted_one_event. Qed.
Print Assumptions C14_accepted_write_one_event.

Theorem C14_client_write_stores_its_value : forall c valid nm v v', check c valid (PSet nm v) = Some v' -> v' = v.
Proof. intros c valid nm v v' H. apply (check_accepts _ _ _ _ H). Qed.
Print Assumptions C14_client_write_stores_its_value.
Theorem C14_service_update_stores_declared_type : forall c valid x v, check c valid (PUpdate x) = Some v ->
  v = {| cv_sig := prop_sig; cv_data := le 4 x |}.
Proof. intros c valid x v H. apply (check_accepts _ _ _ _ H). Qed.
Print Assumptions C14_service_update_stores_declared_type.

Theorem C14_write_outcomes : forall c valid s o, is_write o = true ->
  snd (fst (pstep c valid s o)) = RDone \/ snd (fst (pstep c valid s o)) = RFail.
Proof. exact write_outcomes. Qed.
Print Assumptions C14_write_outcomes.
Theorem C14_reads_and_subscriptions_silent : forall c valid s o, is_write o = false ->
  p_val (fst (fst (pstep c valid s o))) = p_val s /\ snd (pstep c valid s o) = [].
Proof. intros c valid s [] Hw; try discriminate Hw; split; reflexivity. Qed.
Print Assumptions C14_reads_and_subscriptions_silent.

(* every stored value has the declared signature, is four bytes long and passed the validator;
   hence the generated getter, which insists on the declared signature, succeeds *)
Theorem C14_holds_stored_value_typed : forall c valid, pclean c -> forall s, preach c valid s ->
  forall v, p_val s = Some v -> well_typed valid v.
Proof. exact stored_well_typed. Qed.
Print Assumptions C14_holds_stored_value_typed.
Theorem C14_holds_typed_get_succeeds : forall c valid, pclean c -> forall s, preach c valid s ->
  forall v, p_val s = Some v -> exists x, getter (read s (NmStr prop_name)) = Some x /\ valid x = true.
Proof.
  intros c valid Hc s R v Hv. destruct (stored_well_typed c valid Hc s R v Hv) as (Hs & _ & x & Hd & Hx).
  exists x. split; [|exact Hx]. unfold read. rewrite String.eqb_refl, Hv. simpl.
  rewrite Hs, String.eqb_refl. exact Hd.
Qed.
Print Assumptions C14_holds_typed_get_succeeds.

(* reading returns the value of the most recent accepted write of the sequence *)
Theorem C14_read_returns_last_accepted_write : forall c valid ops,
  read (fst (prun c valid pinit ops)) (NmStr prop_name) =
    match last_accepted c valid None ops with Some v => RVal v | None => RFail end.
Proof. exact read_returns_last_accepted. Qed.
Print Assumptions C14_read_returns_last_accepted_write.

(* concurrent clients: for every interleaving of the checks (name, decoding, validator — outside any
   lock), saves (under the mutex), notifications (after the mutex is released) and returns of any
   number of concurrent client writes, service-side updates, reads and subscriptions, the history
   the callers observe is linearizable with respect to the register: the writes take effect in one
   order consistent with real time and every read returns the latest accepted write *)
Theorem C14_linearizable : forall c valid tr st' ev, stamped 0 tr ->
  qrun c valid (pinit, []) tr = Some (st', ev) ->
  linearizable (rstep c valid) pinit (ops_of (qvis tr)).
Proof.
  intros c valid tr st' ev Hst H.
  destruct (qrun_sim c valid tr pinit [] [] st' ev 0 (fun t => eq_refl) (all_nil _) Hst H) as (atr & am' & A & <- & S).
  eapply atomic_lin; eauto.
Qed.
Print Assumptions C14_linearizable.

(* ... and in every such run that starts and ends with no call in progress, a subscriber that
   registered (once) before it receives exactly the data of the accepted writes that returned:
   one event per accepted write, none for a rejected one *)
Theorem C14_events_exactly_accepted_writes : forall c valid tr s s' ev sub, nosub_tr sub tr ->
  count_sub sub (p_subs s) = 1%nat -> qrun c valid (s, []) tr = Some ((s', []), ev) ->
  Permutation (ev_for sub ev) (qaccepted c valid (s, []) tr).
Proof.
  intros c valid tr s s' ev sub Htr Hc H.
  pose proof (events_match_accepted c valid tr s [] (s', []) ev sub (NoDup_nil _) (all_nil _) (all_nil _) Htr Hc H) as P.
  simpl in P. now rewrite !app_nil_r in P.
Qed.
Print Assumptions C14_events_exactly_accepted_writes.

(* the checker used on recorded histories is sound and complete for that definition *)
Theorem C14_checker_sound_complete : forall c valid init (h : list (orec pop pres)),
  lin_check (rstep c valid) pres_eqb init h = true -> linearizable (rstep c valid) init h.
Proof.
  intros c valid init h. apply lin_check_sound. apply pres_eqb_eq.
Qed.
Print Assumptions C14_checker_sound_complete.

(* who the subscribers are: the table behind registerEvent / unregisterEvent, keyed by ids the
   clients choose and shared by every signal and property of the object (PropertySubs.v) *)

(* on that table, reads, client writes and service-side updates are the steps of the register above,
   the subscribers being the entries registered for the property *)
Theorem C14_subs_operations_are_register_steps : forall c valid s o, not_subscribe o = true ->
  sstep c valid s (SOp o) =
    (let '(p', r, ev) := pstep c valid (pstate_of s) o in
     ({| s_val := p_val p'; s_regs := s_regs s |}, r, map (fun e => (prop_uid, e)) ev)).
Proof. intros c valid s [] H; try discriminate H; reflexivity. Qed.
Print Assumptions C14_subs_operations_are_register_steps.

(* a registration — accepted, or refused because the connection already uses that user id for this or
   any other signal of the object — leaves every existing entry, hence every subscription to the
   property, where it was *)
Theorem C14_subs_registration_keeps_entries : forall c valid s cn obj sig uid mid s' r ev,
  sstep c valid s (SRegister cn obj sig uid mid) = (s', r, ev) ->
  ev = [] /\ s_val s' = s_val s /\
  ((r = RDone /\ s_regs s' = s_regs s ++ [{| r_conn := cn; r_uid := uid; r_sig := sig; r_mid := mid |}]) \/
   (r = RFail /\ s' = s)).
Proof.
  intros c valid s cn obj sig uid mid s' r ev H. rewrite sstep_register in H.
  destruct (_ && _); injection H as <- <- <-; auto.
Qed.
Print Assumptions C14_subs_registration_keeps_entries.

(* after any sequence of registrations (colliding or not), unregistrations, signal emissions, reads
   and writes: a rejected write changes nothing and emits nothing; an accepted write sends exactly
   one event carrying the new value to each registration for the property that was acknowledged and
   not unregistered since ([act]: computed from the answers the clients got), and nothing else *)
Theorem C14_subs_rejected_write_unchanged : forall c valid s o s' ev,
  sstep c valid s (SOp o) = (s', RFail, ev) -> s' = s /\ ev = [].
Proof. exact srejected_unchanged. Qed.
Print Assumptions C14_subs_rejected_write_unchanged.
Theorem C14_subs_acknowledged_subscription_one_event : forall c valid ops s act o s' ev,
  srun c valid sinit [] ops = (s, act) -> is_write o = true ->
  sstep c valid s (SOp o) = (s', RDone, ev) ->
  exists v, check c valid o = Some v /\ s_val s' = Some v /\ Permutation ev (owed act v).
Proof. exact acknowledged_subscriptions_one_event. Qed.
Print Assumptions C14_subs_acknowledged_subscription_one_event.

(* executed: connection 0 subscribes to "delay" with user id 42; its attempt to register "boom" with
   the same id is refused and moves nothing (the accepted write of 33 reaches it); the same id on
   connection 1 is another user; unregistering ends the subscription (no event for 34), registering
   again restarts it (rejected write: nothing; 35: one event under the new message id) *)
Theorem C14_subs_id_collision_example : srun_out pcfg_clean nonneg sinit ex_sops =
  [(RDone, []); (RFail, []); (RDone, []);
   (RDone, [(prop_uid, ((0%nat, 5), le 4 33))]);
   (RDone, [(boom_uid, ((1%nat, 3), le 4 8))]);
   (RDone, []);
   (RDone, []);
   (RDone, []);
   (RFail, []);
   (RDone, [(prop_uid, ((0%nat, 11), le 4 35))])]
  /\ snd (srun pcfg_clean nonneg sinit [] ex_sops) = [mk_reg 1 42 boom_uid 3; mk_reg 0 42 prop_uid 11].
Proof. vm_compute. split; reflexivity. Qed.
Print Assumptions C14_subs_id_collision_example.

(* the optional per-object features (method statistics, traces) and the other methods of the generic
   object are transparent for the register and its subscribers: such a call — from whichever
   connection, wherever it stands in a sequence — changes nothing and emits nothing, so it can be
   erased from any sequence: same final state, same acknowledged registrations; hence the theorem
   above holds with them interleaved anywhere ([ops] there ranges over them too) *)
Theorem C14_subs_features_transparent : forall c valid s cn a, sstep c valid s (SAux cn a) = (s, RDone, []).
Proof. reflexivity. Qed.
Print Assumptions C14_subs_features_transparent.
Theorem C14_subs_features_erasable : forall c valid ops s act,
  srun c valid s act (filter (fun o => negb (is_aux o)) ops) = srun c valid s act ops.
Proof. exact srun_erase_aux. Qed.
Print Assumptions C14_subs_features_erasable.
(* executed: statistics on; two connections subscribe with the same user id under the same message id;
   each accepted write — by a third connection, by the service — reaches both, each on its own
   connection, also after traces went on and statistics off; one leaves, the other keeps its events *)
Theorem C14_subs_features_example : srun_out pcfg_clean nonneg sinit ex_feature_sops =
  [(RDone, []); (RDone, []); (RDone, []);
   (RDone, [(prop_uid, ((0%nat, 5), le 4 33)); (prop_uid, ((1%nat, 5), le 4 33))]);
   (RDone, []); (RDone, []);
   (RDone, [(prop_uid, ((0%nat, 5), le 4 34)); (prop_uid, ((1%nat, 5), le 4 34))]);
   (RDone, []);
   (RDone, [(prop_uid, ((0%nat, 5), le 4 35))])].
Proof. vm_compute. reflexivity. Qed.
Print Assumptions C14_subs_features_example.

(* an object with several properties: one register per declared property (PropertyMulti.v) *)

(* an operation acts on the register its name resolves to exactly as the one-property register above
   does — same answer, same events — and every OTHER property of the object keeps its value and its
   subscribers: a write to one property (accepted or not) never changes what another property reads *)
Theorem C14_multi_operation_is_local : forall t c valid ms o k po, List.length ms = List.length t ->
  localize t o = Some (k, po) ->
  let '(s1, r, ev) := pstep c valid (mreg ms k) po in
  let '(ms', r', ev') := mstep t c valid ms o in
  r' = r /\ ev' = map (fun e => (uid_of t k, e)) ev /\ mreg ms' k = s1 /\
  List.length ms' = List.length t /\
  forall j, j <> k -> mreg ms' j = mreg ms j.
Proof. exact mstep_local. Qed.
Print Assumptions C14_multi_operation_is_local.
Theorem C14_multi_unknown_name_fails : forall t c valid ms o, localize t o = None ->
  mstep t c valid ms o = (ms, RFail, []).
Proof. intros t c valid ms o H. unfold mstep. now rewrite H. Qed.
Print Assumptions C14_multi_unknown_name_fails.

(* after ANY sequence of operations on the object, the register of property k is what the operations
   addressed to k alone make of it; so reading a property returns the last accepted write of THAT
   property, whatever was written to the others in between *)
Theorem C14_multi_register_is_its_own_history : forall t c valid ops ms k, List.length ms = List.length t ->
  mreg (fst (mrun t c valid ms ops)) k = fst (prun c valid (mreg ms k) (ops_for t k ops)).
Proof. exact mrun_projection. Qed.
Print Assumptions C14_multi_register_is_its_own_history.
Theorem C14_multi_read_returns_last_accepted_write_of_that_property : forall t c valid ops n k,
  idx_name t n = Some k ->
  snd (fst (mstep t c valid (fst (mrun t c valid (minit t) ops)) (MGet (NmStr n)))) =
    match last_accepted c valid None (ops_for t k ops) with Some v => RVal v | None => RFail end.
Proof.
  intros t c valid ops n k Hn. unfold mstep. simpl localize. rewrite Hn. simpl.
  rewrite mrun_projection by apply minit_length.
  rewrite mreg_minit.
  apply read_returns_last_accepted.
Qed.
Print Assumptions C14_multi_read_returns_last_accepted_write_of_that_property.

(* the checker applied to the recorded histories of such an object decides linearizability with
   respect to the family of registers; executed: UpdateA(1) ; UpdateA(2) overlapping UpdateB(2), both
   accepted ; then a = 2, b = 2 is linearizable and a = 1 (the accepted write to a lost because another
   property was written at the same time) is not *)
Theorem C14_multi_checker_sound_complete : forall t c valid init (h : list (orec mop pres)),
  lin_check (mrstep t c valid) pres_eqb init h = true <-> linearizable (mrstep t c valid) init h.
Proof. intros t c valid. apply lin_check_iff, pres_eqb_eq. Qed.
Print Assumptions C14_multi_checker_sound_complete.
Theorem C14_multi_lost_write_example :
  linearizable (mrstep ex_table pcfg_clean nonneg) (minit ex_table) (ex_hist 2) /\
  ~ linearizable (mrstep ex_table pcfg_clean nonneg) (minit ex_table) (ex_hist 1).
Proof.
  split.
  - apply (lin_check_iff _ _ _ _ _ pres_eqb_eq). vm_compute. reflexivity.
  - intros H. apply (lin_check_iff _ _ _ _ _ pres_eqb_eq) in H. vm_compute in H. discriminate.
Qed.
Print Assumptions C14_multi_lost_write_example.

(* the pinned code: a wrongly-typed value whose bytes decode is accepted and stored as is *)
(* setProperty("delay", String("abcd")) is accepted, stored under signature "s", announced to the
   subscriber with the string's bytes, and every later typed get fails *)
Theorem C14_refuted_store_untyped :
  let '(s1, l) := prun pcfg_pinned nonneg pinit
                    [PSubscribe 0 7; PUpdate 10; PSet (NmStr prop_name) str_abcd; PGet (NmStr prop_name)] in
  l = [(RDone, []); (RDone, [((0%nat, 7), le 4 10)]); (RDone, [((0%nat, 7), cv_data str_abcd)]); (RVal str_abcd, [])] /\
  getter (read s1 (NmStr prop_name)) = None /\ is_typed str_abcd = false.
Proof. vm_compute. auto. Qed.
Print Assumptions C14_refuted_store_untyped.

(* the hypotheses are met: a get before any write fails, a subscriber sees the two accepted writes,
   a negative value, a wrongly-typed value are rejected and change nothing *)
Example C14_nonvacuous : pclean pcfg_clean /\ snd (prun pcfg_clean nonneg pinit ex_ops) =
  [(RFail, []); (RDone, []); (RDone, [((1%nat, 5), le 4 10)]); (RDone, [((1%nat, 5), le 4 12)]);
   (RFail, []); (RFail, []); (RVal {| cv_sig := "i"; cv_data := le 4 12 |}, [])].
Proof. split; [reflexivity|vm_compute; reflexivity]. Qed.
