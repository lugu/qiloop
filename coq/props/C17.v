(* C17 — each connection handler is closed exactly once, whatever races with it.
   Model: theories/Endpoint.v (labelled transition system of bus/net/endpoint.go, one label per
   critical section of handlersMutex, two per `go handler.closeWith` goroutine, one per consumer
   receive).  "Every interleaving" is "every list of labels".  Proofs: theories/EndpointProofs.v. *)
From QV Require Import Reader Message Endpoint EndpointProofs.

(* no interleaving of MakeHandler / RemoveHandler / dispatch (with any filters, keep or not) /
   Close / read error / closeWith goroutines / consumer receives sends on a closed queue or
   closes a queue twice *)
Theorem C17_no_panic : forall ls, match run ls with RPanic _ _ => False | _ => True end.
Proof. intro ls. apply run_from_no_panic, init_inv. Qed.
Print Assumptions C17_no_panic.

(* ... and none deadlocks, provided filters and closers do not call back into the endpoint *)
Theorem C17_no_deadlock : forall ls, Forall contract_label ls -> match run ls with RDeadlock _ => False | _ => True end.
Proof. intro ls. apply run_from_no_deadlock; [apply init_inv|apply init_good]. Qed.
Print Assumptions C17_no_deadlock.
(* the proviso is needed *)
Theorem C17_contract_needed : run [LMake never false (Some true) 1; LRemove 0%Z] = RDeadlock 1.
Proof. exact reentrant_closer_deadlocks. Qed.
Print Assumptions C17_contract_needed.

(* at every reachable state the history of every handler is
     made, messages*                        or
     made, messages*, closer?               or
     made, messages*, closer?, close(queue)
   (closer? = the close callback when there is one): the callback at most once, the queue closed at
   most once and only after the callback, and no message once the callback has run *)
Theorem C17_lifecycle : forall ls s rs hid h, run ls = RRun s rs -> nth_error (st_hs s) hid = Some h ->
  lifecycle h /\ closer_calls (h_log h) <= closer_count h /\ queue_closes (h_log h) <= 1.
Proof. intros ls s rs hid h Hrun. exact (inv_lifecycle s hid h (run_inv ls s rs Hrun)). Qed.
Print Assumptions C17_lifecycle.

(* while a handler is in the table its queue is open and its callback has not run *)
Theorem C17_registered_open : forall ls s rs hid h, run ls = RRun s rs -> nth_error (st_hs s) hid = Some h ->
  registered s hid = true -> open_shape h /\ h_closed h = false.
Proof. intros ls s rs hid h Hrun. exact (inv_registered_open s hid h (run_inv ls s rs Hrun)). Qed.
Print Assumptions C17_registered_open.

(* every handler registered before a shutdown (Close, or the read error that ends process) has, once
   its goroutine is through, had its callback called exactly once and then its queue closed exactly once *)
Theorem C17_shutdown_closes_once : forall l1 e b l2 s rs hid h,
  run (l1 ++ LCloseAll e b :: l2) = RRun s rs -> hid < made_count l1 -> ~ In hid (go_hids (st_go s)) ->
  nth_error (st_hs s) hid = Some h -> closed_once h.
Proof. exact shutdown_closes_once. Qed.
Print Assumptions C17_shutdown_closes_once.

(* ... and the goroutines can always get through: from every reachable state their labels alone lead to
   a state where none is pending *)
Theorem C17_goroutines_finish : forall ls s rs, run ls = RRun s rs ->
  exists ls' s' rs', Forall is_go_label ls' /\ run (ls ++ ls') = RRun s' rs' /\ st_go s' = [].
Proof. exact goroutines_finish. Qed.
Print Assumptions C17_goroutines_finish.

(* RemoveHandler: an id that names no registered handler (negative, out of range, never handed out,
   already removed, removed by its own filter, cleared by Close) is an error and changes nothing *)
Theorem C17_remove_unknown_is_error : forall s id, slot_at s id = None -> step s (LRemove id) = Run s RInvalid.
Proof. intros s id H. cbn [step]. unfold do_remove. now rewrite H. Qed.
Print Assumptions C17_remove_unknown_is_error.

(* a registered one is closed exactly once on the spot, and removing it again is an error *)
Theorem C17_remove_registered : forall ls s rs id hid, run ls = RRun s rs -> slot_at s id = Some hid ->
  (forall h, nth_error (st_hs s) hid = Some h -> h_closer h <> Some true) ->
  exists s' h', step s (LRemove id) = Run s' ROk /\ slot_at s' id = None /\
                step s' (LRemove id) = Run s' RInvalid /\
                nth_error (st_hs s') hid = Some h' /\ closed_once h'.
Proof.
  intros ls s rs id hid Hrun Es Hc.
  destruct (remove_registered s id hid (run_inv ls s rs Hrun) Es Hc) as (s' & h' & H1 & H2 & H3 & H4).
  exists s', h'. split; [exact H1|]. split; [exact H2|]. split; [now apply C17_remove_unknown_is_error|]. split; assumption.
Qed.
Print Assumptions C17_remove_registered.

(* MakeHandler always succeeds and hands out an id that names no registered handler at that moment;
   every other id keeps its meaning *)
Theorem C17_ids_reused_only_after_removal : forall s f fre cl cap,
  exists s' i, step s (LMake f fre cl cap) = Run s' (RId i) /\
    slot_at s (Z.of_nat i) = None /\ slot_at s' (Z.of_nat i) = Some (List.length (st_hs s)) /\
    (forall j, j <> i -> slot_at s' (Z.of_nat j) = slot_at s (Z.of_nat j)).
Proof. exact make_fresh_id. Qed.
Print Assumptions C17_ids_reused_only_after_removal.

(* a concrete run through every kind of label: ids, dispatch results, the blocked-call reply, final histories *)
Example C17_nonvacuous : exists s rs, run ex_labels = RRun s rs /\
  map hsummary (st_hs s) = [(1, 1, true, [1%N]); (0, 1, true, [1%N]); (0, 0, false, [])] /\
  rs = [RId 0; RId 1; RDisp DNil; RDisp DBlocked; RNone; RNone; RNone; RNone; RInvalid; RId 0] /\
  List.length (st_sent s) = 1.
Proof. exact ex_run. Qed.
