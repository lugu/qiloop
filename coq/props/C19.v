(* C19 — A session can be shared by concurrent goroutines.
   Property theorems only; model in theories/Session.v, proofs in theories/SessionProofs.v (whole lives: SessionLife.v,
   SessionLifeProofs.v; the view of the directory: SessionView.v, SessionViewProofs.v).

   init c epss      : one goroutine per entry of epss, each inside Session.client(info) with
                      info.Endpoints = that entry; empty pool, free RWMutex, no connection
   exec s ls        : run the schedule ls (labels (goroutine, dial outcome)); Fatal = the Go
                      runtime's fatal error on a misused RWMutex; Stuck = ls is not a schedule
   clean c          : the defect switch runlock_after_lock is off
   Every statement holds for every number of goroutines, every assignment of endpoint
   addresses to them, every schedule and every outcome of the dials.

   The C19_life_* theorems are about the LIFE of the pool (theories/SessionLife.v):
   lexec c linit es : run the events es on a fresh session: LSpawn epss (new requests arrive, one
                      per entry of epss), LStep l (one instruction of one request), LLose a (the
                      pooled connection to address a is lost, between two bursts: it is closed and
                      its closer — Lock; delete; Unlock — runs)
   They hold for every sequence of events.

   The C19_view_* theorems are about the session's VIEW of the directory (theories/SessionView.v):
   vexec loop_prog (vinit d0) es : the directory starts with the services d0 and the session with
                      that list; events: VChange d (a service becomes ready / is removed: the
                      directory now holds d and has put one signal on the connection), VAnswer (the
                      directory answers the loop's Services() call with what it holds then), VDeliver
                      (the next reply / signal on the connection reaches the session), VLoop (one
                      instruction of updateLoop: receive a signal, call Services(), store the list)
   quiet s          : nothing on the connection, no delivered signal waiting, the loop back at its select *)
From Coq Require Import List.
From QV Require Import Session SessionProofs SessionLife SessionLifeProofs SessionView SessionViewProofs.
Import ListNotations.

(* the process does not crash *)
Theorem C19_no_fatal : forall c, clean c -> forall epss ls, exec (init c epss) ls <> Fatal.
Proof. exact no_fatal. Qed.
Print Assumptions C19_no_fatal.

(* the session holds at most one pooled client per address *)
Theorem C19_one_client_per_address : forall c, clean c -> forall epss ls s,
  exec (init c epss) ls = Run s -> NoDup (map fst (s_pool (st_sh s))).
Proof. exact one_client_per_address. Qed.
Print Assumptions C19_one_client_per_address.

(* every request that returned a client got the pooled client of one of the addresses of its
   service, and the connection behind that client is open *)
Theorem C19_caller_gets_pooled : forall c, clean c -> forall epss ls s,
  exec (init c epss) ls = Run s -> forall i t cl,
  nth_error (st_thr s) i = Some t -> t_res t = Returned cl ->
  exists a, In a (t_eps t) /\ lookup a (s_pool (st_sh s)) = Some cl /\ mem cl (s_open (st_sh s)) = true.
Proof. exact caller_gets_pooled. Qed.
Print Assumptions C19_caller_gets_pooled.

(* hence all requests for services behind the same endpoint share one client *)
Theorem C19_same_address_same_client : forall c, clean c -> forall epss ls s,
  exec (init c epss) ls = Run s -> forall i j t u a c1 c2,
  nth_error (st_thr s) i = Some t -> nth_error (st_thr s) j = Some u ->
  t_eps t = [a] -> t_eps u = [a] -> t_res t = Returned c1 -> t_res u = Returned c2 -> c1 = c2.
Proof. exact same_address_same_client. Qed.
Print Assumptions C19_same_address_same_client.

(* a request never returns a nil client without an error, and it fails only when the service
   lists no endpoint or the dial failed *)
Theorem C19_never_nil : forall c, clean c -> forall epss ls s,
  exec (init c epss) ls = Run s -> forall i t, nth_error (st_thr s) i = Some t -> t_res t <> ReturnedNil.
Proof. exact never_nil. Qed.
Print Assumptions C19_never_nil.
Theorem C19_failed_only_without_endpoint : forall sh i t ch sh' t',
  tstep sh i t ch = TNext sh' t' -> t_res t' = Failed -> t_eps t = [] \/ ch = None.
Proof. exact failed_only_without_endpoint. Qed.
Print Assumptions C19_failed_only_without_endpoint.

(* once all requests have returned, every connection still open is a pooled one, so at most one
   connection per remote endpoint stays open (the losers of the race closed theirs) *)
Theorem C19_open_are_pooled : forall c, clean c -> forall epss ls s,
  exec (init c epss) ls = Run s -> forall x,
  all_done s = true -> In x (s_open (st_sh s)) -> pooled x (s_pool (st_sh s)) = true.
Proof. exact open_are_pooled. Qed.
Print Assumptions C19_open_are_pooled.
Theorem C19_one_connection_per_address : forall c, clean c -> forall epss ls s,
  exec (init c epss) ls = Run s -> forall x y t u a,
  all_done s = true -> In x (s_open (st_sh s)) -> In y (s_open (st_sh s)) ->
  nth_error (st_thr s) x = Some t -> nth_error (st_thr s) y = Some u ->
  t_sel t = Some a -> t_sel u = Some a -> x = y.
Proof. exact one_connection_per_address. Qed.
Print Assumptions C19_one_connection_per_address.

(* no schedule deadlocks: while a request is running some goroutine can step; and every
   schedule is finite *)
Theorem C19_no_deadlock : forall c, clean c -> forall epss ls s,
  exec (init c epss) ls = Run s -> all_done s = false -> exists l s', step s l = Run s'.
Proof. intros c Hc epss ls s E. exact (no_deadlock s (reach_inv c Hc epss ls s E)). Qed.
Print Assumptions C19_no_deadlock.
Theorem C19_schedules_finite : forall c epss ls s,
  exec (init c epss) ls = Run s -> List.length ls <= List.length epss * ksize (prog c).
Proof. intros c epss ls s E. rewrite <- potential_init. exact (PeanoNat.Nat.le_trans _ _ _ (PeanoNat.Nat.le_add_r _ _) (exec_bounded ls _ _ E)). Qed.
Print Assumptions C19_schedules_finite.

(* the pinned program (RUnlock after Lock) crashes: two goroutines, one endpoint, both miss the
   first lookup *)
Theorem C19_refuted_runlock_after_lock : exec (init cfg_pinned wit_epss) wit_sched = Fatal.
Proof. exact refuted_runlock_after_lock. Qed.
Print Assumptions C19_refuted_runlock_after_lock.

(* the same schedule, completed, on the clean program: both requests share client 0, one
   connection stays open *)
Example C19_nonvacuous :
  exists s, exec (init cfg_clean wit_epss) (wit_sched ++ [(1, None); (1, None)]) = Run s /\ all_done s = true /\
            s_pool (st_sh s) = [(0, 0)] /\ s_open (st_sh s) = [0] /\
            map t_res (st_thr s) = [Returned 0; Returned 0].
Proof. eexists. vm_compute. repeat split. Qed.

Theorem C19_life_no_fatal : forall c, clean c -> forall es, lexec c linit es <> Fatal.
Proof. exact life_no_fatal. Qed.
Print Assumptions C19_life_no_fatal.

Theorem C19_life_one_client_per_address : forall c, clean c -> forall es s,
  lexec c linit es = Run s -> NoDup (map fst (s_pool (st_sh s))).
Proof. exact life_one_client_per_address. Qed.
Print Assumptions C19_life_one_client_per_address.

(* the moment a request returns — first burst or after any number of losses — the client it
   returns is the pooled client of one of the addresses of its service, over an open connection *)
Theorem C19_life_request_returns_live_client : forall c, clean c -> forall es s,
  lexec c linit es = Run s -> forall i ch s' t' cl,
  step s (i, ch) = Run s' -> nth_error (st_thr s') i = Some t' -> t_res t' = Returned cl ->
  mem cl (s_open (st_sh s')) = true /\ exists a, In a (t_eps t') /\ lookup a (s_pool (st_sh s')) = Some cl.
Proof. exact life_request_returns_live_client. Qed.
Print Assumptions C19_life_request_returns_live_client.

(* at any time, a client that was returned and whose connection is still up is the pooled one:
   requests after a loss share the new connection with each other, requests before it keep
   sharing the old one as long as it lives *)
Theorem C19_life_live_client_is_pooled : forall c, clean c -> forall es s,
  lexec c linit es = Run s -> forall i t cl,
  nth_error (st_thr s) i = Some t -> t_res t = Returned cl -> mem cl (s_open (st_sh s)) = true ->
  exists a, In a (t_eps t) /\ lookup a (s_pool (st_sh s)) = Some cl.
Proof. exact life_live_client_is_pooled. Qed.
Print Assumptions C19_life_live_client_is_pooled.

(* between the bursts every open connection is a pooled one: at most one per remote endpoint *)
Theorem C19_life_open_are_pooled : forall c, clean c -> forall es s,
  lexec c linit es = Run s -> forall x,
  all_done s = true -> In x (s_open (st_sh s)) -> pooled x (s_pool (st_sh s)) = true.
Proof. exact life_open_are_pooled. Qed.
Print Assumptions C19_life_open_are_pooled.
Theorem C19_life_one_connection_per_address : forall c, clean c -> forall es s,
  lexec c linit es = Run s -> forall x y t u a,
  all_done s = true -> In x (s_open (st_sh s)) -> In y (s_open (st_sh s)) ->
  nth_error (st_thr s) x = Some t -> nth_error (st_thr s) y = Some u ->
  t_sel t = Some a -> t_sel u = Some a -> x = y.
Proof. exact life_one_connection_per_address. Qed.
Print Assumptions C19_life_one_connection_per_address.

(* the session forgets a lost connection (the next request for that address dials again) *)
Theorem C19_life_loss_forgets : forall a s s', lose a s = Run s' -> lookup a (s_pool (st_sh s')) = None.
Proof.
  intros a s s' E. pose proof (lose_spec a s) as H. rewrite E in H. destruct H as (_ & x & _ & ->).
  cbn [st_sh lost_sh s_pool]. now rewrite lookup_remove_key, PeanoNat.Nat.eqb_refl.
Qed.
Print Assumptions C19_life_loss_forgets.

Theorem C19_life_no_deadlock : forall c, clean c -> forall es s,
  lexec c linit es = Run s -> all_done s = false -> exists l s', step s l = Run s'.
Proof. intros c Hc es s Hrun. exact (linv_no_deadlock s (life_linv c Hc es s Hrun)). Qed.
Print Assumptions C19_life_no_deadlock.

(* request, loss, request: the second request gets a new client over a new connection *)
Theorem C19_life_witness :
  exists s, lexec cfg_clean linit wit_life = Run s /\ all_done s = true /\
            s_pool (st_sh s) = [(0, 1)] /\ s_open (st_sh s) = [1] /\
            map t_res (st_thr s) = [Returned 0; Returned 1].
Proof. eexists. vm_compute. repeat split. Qed.
Print Assumptions C19_life_witness.

(* once the directory is quiet and nothing is in flight, the session's list is exactly what the
   directory holds — every registered service is found by Proxy / Object, with its current endpoint
   and id — whatever the interleaving of changes, snapshots, deliveries and loop steps before *)
Theorem C19_view_quiescent : forall d0 es s,
  vexec loop_prog (vinit d0) es = Some s -> quiet s = true -> v_list s = v_dir s.
Proof. exact view_quiescent. Qed.
Print Assumptions C19_view_quiescent.

(* a burst of three registrations, two of them after the snapshot of the refresh in progress and
   delivered before its list is stored: the loop refreshes again and ends with all three *)
Theorem C19_view_witness :
  exists s, burst_end loop_prog = Some s /\ quiet s = true /\ v_list s = d3 /\ v_dir s = d3.
Proof. eexists. split; [vm_compute; reflexivity|]. vm_compute. repeat split; reflexivity. Qed.
Print Assumptions C19_view_witness.

(* the same burst with a loop that discards the delivered signals after storing its list: quiet,
   and two registered services are missing from the session's list *)
Theorem C19_view_refuted_drain_after_store :
  exists s, burst_end (loop_prog ++ [UDrain]) = Some s /\ quiet s = true /\ v_dir s = d3 /\ v_list s = d1.
Proof. exact drain_after_store_loses. Qed.
Print Assumptions C19_view_refuted_drain_after_store.
