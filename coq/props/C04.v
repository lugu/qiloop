(* C04 — Every call gets exactly one answer — its own — and runs its method exactly once.
   Property theorems only; the model is theories/Call.v (a labelled transition system of clients,
   FIFO connections, the server's connection goroutine, per-object mailboxes, generated stubs and
   the client endpoint's dispatch), the proofs theories/CallProofs.v, the concrete runs
   theories/CallWitness.v; the last five theorems are about calls issued while the connection is lost
   (theories/Teardown.v, proofs theories/TeardownProofs.v).  "For every schedule" = for every list of labels `ls`; connections and
   clients are named by arbitrary naturals (any number of them); the method table `tg`, the result
   function `fr`, the argument-decoding predicate `ok` and the method-error predicate `ce` are
   arbitrary, and so is the connection's message-type filter `flt`.  `bounded st`: no client has drawn more than 2^31 message ids. *)
From QV Require Import Call CallProofs CallWitness.
From QV Require Teardown TeardownProofs.
Local Open Scope N_scope.

(* client.nextMessageID: two calls of one client whose issue indices differ by < 2^31 get different ids *)
Theorem C04_ids_distinct : forall i j : nat, i <> j ->
  (Z.abs (Z.of_nat i - Z.of_nat j) < 2 ^ 31)%Z -> id_of_index i <> id_of_index j.
Proof. exact ids_distinct. Qed.
Print Assumptions C04_ids_distinct.

(* SendReply / SendError: the answer carries the request's service, object, action and id *)
Theorem C04_reply_echoes_key : forall g ty p,
  fkey (mk_frame ty (fkey g) p (f_tag g)) = fkey g /\ f_tag (mk_frame ty (fkey g) p (f_tag g)) = f_tag g.
Proof. exact reply_echoes_key. Qed.
Print Assumptions C04_reply_echoes_key.

(* endPoint.dispatch on the client: a frame from the server matches the handler of at most one
   pending call, and it is the answer to that very call *)
Theorem C04_dispatch_unique : forall k flt tg fr ok ce ls,
  let st := exec k flt tg fr ok ce init ls in bounded st ->
  forall c i j g, In g (s2c st c) -> (i < issued st c)%nat -> (j < issued st c)%nat ->
  hit (calls st c i) g = true -> hit (calls st c j) g = true -> i = j /\ f_tag g = TCall c i.
Proof.
  intros k flt tg fr ok ce ls st Bd c i j g Hin Li Lj Hi Hj.
  pose proof (exec_invariant k flt tg fr ok ce invA (invA_step k flt tg fr ok ce) ls init invA_init) as IA.
  split; [exact (dispatch_unique st c i j g IA Bd Hin Li Lj Hi Hj)|exact (hit_is_own st c i g IA Bd Hin Li Hi)].
Qed.
Print Assumptions C04_dispatch_unique.

(* the only step that changes an execution counter is a mailbox goroutine handling one mail whose
   type runs the method: exactly +1, for that mail's request *)
Theorem C04_mailbox_once : forall k flt tg fr ok ce st l t,
  ex (step k flt tg fr ok ce st l) t = ex st t \/
  exists s o c g r, l = LMbox s o /\ take_mail s o (mails st) = Some (c, g, r) /\ t = f_tag g /\
                    runs k (f_type g) = true /\ ex (step k flt tg fr ok ce st l) t = S (ex st t).
Proof. exact mailbox_once. Qed.
Print Assumptions C04_mailbox_once.

(* the composition, for the configuration without the two defects of the pinned tree *)
Theorem C04_holds : forall k flt tg fr ok ce, clean k -> forall ls,
  let st := exec k flt tg fr ok ce init ls in bounded st ->
  (forall c i,
     (k_returns (calls st c i) <= 1)%nat /\
     (forall p, k_result (calls st c i) = Some (ROk p) ->
                p = expected fr (calls st c i) /\ ex st (TCall c i) = 1%nat) /\
     (ex st (TCall c i) <= 1)%nat /\
     (k_result (calls st c i) <> None -> k_returns (calls st c i) = 1%nat)) /\
  (forall c n,
     (ex st (TRaw c n) <= 1)%nat /\
     (rawty st c n = T_Post -> back st (TRaw c n) = O) /\
     (is_cp (rawty st c n) = false -> ex st (TRaw c n) = O)).
Proof. intros k flt tg fr ok ce Hc ls st Bd. apply inv_outcome, (inv_exec k flt tg fr ok ce Hc); [apply inv_init|exact Bd]. Qed.
Print Assumptions C04_holds.

(* exactly one: when nothing of a connection is left in the queues and mailboxes, each call sent
   on it has returned once, or its answer is in its handler's queue and Call returns at its next step *)
Theorem C04_exactly_one_when_drained : forall k flt tg fr ok ce, clean k -> flt T_Call = true -> forall ls,
  let st := exec k flt tg fr ok ce init ls in bounded st ->
  forall c i, k_sent (calls st c i) = true ->
    c2s st c = [] -> (forall g, ~ In (c, g) (mails st)) -> s2c st c = [] ->
    k_returns (calls st c i) = 1%nat \/
    (k_returns (calls st c i) = O /\ k_waiting (calls st c i) = true /\ exists g, k_chan (calls st c i) = Some g).
Proof.
  (* neither the clean configuration nor the bound on the ids is needed for this one *)
  intros k flt tg fr ok ce _ Hf ls st _. destruct (inv_ADE_exec k flt tg fr ok ce Hf ls) as [_ [ID IE]].
  exact (drained_outcome st ID IE).
Qed.
Print Assumptions C04_exactly_one_when_drained.

(* the pinned tree (both switches on) violates the property: witnesses, replayed by the harness *)
Theorem C04_refuted_noncall_runs :
  (* a cancelled call runs its method a second time *)
  ex (run_ex cfg_pinned ex_cancel) (TCall 0 0) = 2%nat /\
  (* a Capability or a Cancel frame of any peer runs the method and is answered with a Reply *)
  ex (run_ex cfg_pinned (ex_raw T_Capability)) (TRaw 0 0) = 1%nat /\
  map f_type (s2c (run_ex cfg_pinned (ex_raw T_Capability)) 0) = [T_Reply] /\
  ex (run_ex cfg_pinned (ex_raw T_Cancel)) (TRaw 0 0) = 1%nat.
Proof. split; [|split; [|split]]; vm_compute; reflexivity. Qed.
Print Assumptions C04_refuted_noncall_runs.

Theorem C04_refuted_post_answered :
  back (run_ex cfg_pinned ex_post_noact) (TRaw 0 0) = 1%nat /\ rawty (run_ex cfg_pinned ex_post_noact) 0 0 = T_Post.
Proof. split; vm_compute; reflexivity. Qed.
Print Assumptions C04_refuted_post_answered.

(* calls issued while the endpoint of their client loses the connection (Teardown.v):
   any schedule of any number of calls (register, send), answers, the loss noticed by the reader, and any
   number of overlapping executions of endPoint.closeWith, each in two halves *)

(* whatever the order of the two halves: a call returns at most once *)
Theorem C04_teardown_at_most_once : forall close_first ls i,
  (Teardown.rets (Teardown.exec close_first ls) i <= 1)%nat /\
  (Teardown.stat (Teardown.exec close_first ls) i = Teardown.SDone <-> Teardown.rets (Teardown.exec close_first ls) i = 1%nat).
Proof.
  intros cf ls i. unfold Teardown.exec. rewrite (TeardownProofs.exec_keeps _ _ (TeardownProofs.inv_once_step cf) ls Teardown.init TeardownProofs.inv_once_init i).
  destruct (Teardown.stat (Teardown.exec_from cf Teardown.init ls) i); cbn; repeat split; auto; discriminate.
Qed.
Print Assumptions C04_teardown_at_most_once.

(* the order of the source (stream.Close() first, tie_c04_closewith_close_first): once one execution of
   closeWith is over no call is blocked waiting, whenever it was issued; a call that has registered
   its handler and not written its frame yet returns (an error) at its next step *)
Theorem C04_teardown_every_call_returns : forall ls,
  let s := Teardown.exec true ls in (Teardown.completed s > 0)%nat ->
  forall i, Teardown.stat s i <> Teardown.SWait /\
    (forall b, Teardown.stat s i = Teardown.SReg b ->
       Teardown.stat (Teardown.step true s (Teardown.DSend i)) i = Teardown.SDone /\
       Teardown.rets (Teardown.step true s (Teardown.DSend i)) i = 1%nat).
Proof. exact TeardownProofs.every_call_returns. Qed.
Print Assumptions C04_teardown_every_call_returns.

(* the other order (handlers released first, stream closed last) loses a call: a call that starts
   between the two halves after the reader noticed the loss waits for ever (until somebody calls
   Close() again); with the order of the source the same schedule ends with both calls returned *)
Theorem C04_teardown_order_matters :
  (let s := Teardown.exec false TeardownProofs.witness_ls in
   Teardown.completed s = 1%nat /\ Teardown.inprog s = 0%nat /\ Teardown.reader s = false /\ Teardown.open s = false /\
   Teardown.stat s 0 = Teardown.SDone /\ Teardown.stat s 1 = Teardown.SWait /\ Teardown.rets s 1 = 0%nat /\
   forall ls', Teardown.no_tear1 ls' = true ->
     Teardown.stat (Teardown.exec_from false s ls') 1 = Teardown.SWait /\ Teardown.rets (Teardown.exec_from false s ls') 1 = 0%nat) /\
  (let s := Teardown.exec true TeardownProofs.witness_ls in
   Teardown.stat s 0 = Teardown.SDone /\ Teardown.rets s 0 = 1%nat /\ Teardown.stat s 1 = Teardown.SDone /\ Teardown.rets s 1 = 1%nat).
Proof. exact (conj TeardownProofs.order_matters TeardownProofs.same_schedule_source_order). Qed.
Print Assumptions C04_teardown_order_matters.

(* the scenarios the harness forces (calls placed before the loss / while the reader holds its error /
   inside stream.Close() / after it; loss noticed by the reader or local Close(); answers arriving or
   not): every placement of up to four calls ends with every call returned *)
Theorem C04_teardown_scenarios_small_scope :
  forallb (fun ps => TeardownProofs.scen_ok true false false ps && TeardownProofs.scen_ok true false true ps &&
                     TeardownProofs.scen_ok true true false ps && TeardownProofs.scen_ok true true true ps)
          (TeardownProofs.all_lists 4) = true.
Proof.
  apply forallb_forall. intros ps H.
  now rewrite !TeardownProofs.scen_ok_source_order by exact (TeardownProofs.all_lists_le 4 ps H).
Qed.
Print Assumptions C04_teardown_scenarios_small_scope.

(* two calls in flight on one connection, sent in the opposite order of their ids: each returns
   once with the result of its own payload, each method body ran once *)
Example C04_nonvacuous :
  let st := run_ex cfg_clean ex_two_calls in
  k_result (calls st 0 0) = Some (ROk (rev p12)) /\ k_result (calls st 0 1) = Some (ROk (rev p345)) /\
  ex st (TCall 0 0) = 1%nat /\ ex st (TCall 0 1) = 1%nat /\ k_returns (calls st 0 0) = 1%nat /\ bounded st.
Proof.
  cbv zeta. split; [|split; [|split; [|split; [|split]]]]; [vm_compute; reflexivity..|].
  apply bounded_short. vm_compute. discriminate.
Qed.
