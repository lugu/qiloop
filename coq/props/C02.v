(* C02 — Dynamic values survive encode/decode unchanged, byte for byte.  Theorems only;
   proofs in theories/ValueProofs.v and WireProofs.v, instantiated at the signature parser in WireTop.v; the
   witnesses in WireRefute.v. *)
From QV Require Import Value WireDefs ValueProofs ParseOpt WireTop WireRefute.
Local Open Scope N_scope.

(* every well-formed dynamic value, at any nesting depth, followed by any bytes: the decoder
   (value.NewValue over the PEG model of signature.Parse) returns the value itself and
   consumes exactly its encoding.  wf_dval = within the decoder's own limits; an opaque value
   carries any signature of the grammar that NewValue does not special-case, with well-typed data. *)
Theorem C02_roundtrip : forall c v rest, value_reader_no_len c = false -> wf_dval v ->
  new_value parse_opt c (enc_dval v ++ rest) = ROk (v, rest).
Proof. exact value_roundtrip_top. Qed.
Print Assumptions C02_roundtrip.

(* hence re-encoding the decoded value reproduces the bytes *)
Theorem C02_reencode : forall c v rest, value_reader_no_len c = false -> wf_dval v ->
  exists v', new_value parse_opt c (enc_dval v ++ rest) = ROk (v', rest) /\ enc_dval v' = enc_dval v.
Proof. intros c v rest Hc Hwf. exists v. split; [now apply value_roundtrip_top|reflexivity]. Qed.
Print Assumptions C02_reencode.

(* "equal value": the encoding determines the value.  Two well-formed values, each followed by
   any bytes, that yield the same byte string are the same value followed by the same bytes;
   in particular no value's encoding is a proper prefix of another's *)
Theorem C02_injective : forall v1 v2 r1 r2, wf_dval v1 -> wf_dval v2 ->
  enc_dval v1 ++ r1 = enc_dval v2 ++ r2 -> v1 = v2 /\ r1 = r2.
Proof. exact value_enc_injective. Qed.
Print Assumptions C02_injective.
Theorem C02_prefix_free : forall v1 v2 r, wf_dval v1 -> wf_dval v2 ->
  enc_dval v1 = enc_dval v2 ++ r -> v1 = v2 /\ r = [].
Proof. exact (injective_not_prefix enc_dval wf_dval value_enc_injective). Qed.
Print Assumptions C02_prefix_free.

(* and a byte string splits into well-formed dynamic values in at most one way (this is what
   lets a list of values, or values written back to back, be read without any framing) *)
Theorem C02_stream_injective : forall vs1 vs2, Forall wf_dval vs1 -> Forall wf_dval vs2 ->
  flat_map enc_dval vs1 = flat_map enc_dval vs2 -> vs1 = vs2.
Proof.
  apply (injective_stream enc_dval wf_dval value_enc_injective). intros v _ He.
  pose proof (enc_dval_length_ge v) as H. rewrite He in H. inversion H.
Qed.
Print Assumptions C02_stream_injective.

(* the data of an opaque value: the signature-driven reader returns exactly the bytes it consumed.
   Any well-formed signature, containers of zero-width elements included ("[v]", "[()]", "{v()}" ...) *)
Theorem C02_opaque_data : forall c v t fuel rest, value_reader_no_len c = false ->
  wf_ty t = true -> has_ty v t = true -> (dyn_depth v <= fuel)%nat ->
  sig_read parse_opt c fuel t (spec_enc v ++ rest) = ROk (spec_enc v, rest).
Proof. exact sig_read_spec_top. Qed.
Print Assumptions C02_opaque_data.

(* refutations: the pinned valueReader (switch value_reader_no_len), and the limits the
   encoder does not apply (findings list_over_4096 / raw_over_10MiB) *)
Theorem C02_refuted_value_reader :
  exists v, new_value parse_opt only_value_reader (enc_dval opq_sm) = ROk (v, []) /\ enc_dval v <> enc_dval opq_sm.
Proof. eexists. split; [vm_compute; reflexivity|]. vm_compute. discriminate. Qed.
Print Assumptions C02_refuted_value_reader.
Theorem C02_refuted_list_over_4096 :
  exists l, new_value parse_opt wclean (enc_dval (DList (repeat DVoid 4097))) = RErr l.
Proof. eexists. exact (ValueProofs.value_unbounded_refuted parse_opt wclean). Qed.
Print Assumptions C02_refuted_list_over_4096.

Example C02_nonvacuous : wf_dval ex_dval.
Proof.
  unfold ex_dval. constructor; [vm_compute; discriminate|].
  repeat constructor; try (vm_compute; congruence).
  change (bytes_of_string "{sm}") with (bytes_of_string (print (TMap (TS SStr) (TS SValue)))).
  apply wf_opq; try (vm_compute; congruence).
Qed.
Example C02_nonvacuous_zero_width :
  wf_ty zw_ty = true /\ wfz zw_ty = false /\ has_ty zw_val zw_ty = true /\ dyn_depth zw_val = 1%nat /\ (List.length (spec_enc zw_val) = 42)%nat.
Proof. exact zw_val_ok. Qed.
