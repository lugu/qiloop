(* C10 — concurrent senders never corrupt the stream; each message arrives once, in order; each handler
   receives exactly the subsequence its filter selects, in arrival order, while its queue has room.
   Models: theories/Message.v (Message.Write / Read), theories/Endpoint.v (send_run: N senders sharing
   one stream; the handler table and dispatch).  Proofs: theories/MessageProofs.v, EndpointProofs.v. *)
From QV Require Import Reader ReaderProofs Message MessageProofs Endpoint EndpointProofs.
From Coq Require Import Permutation.

(* (a) Send = Message.Write = exactly one Write call on the stream, carrying header ++ payload *)
Theorem C10_write_once : forall m calls, valid_msg m ->
  write_msg m {| w_calls := calls; w_sched := [] |} =
    Some (Ok {| w_calls := calls ++ [enc_msg m]; w_sched := [] |}).
Proof. exact write_msg_once. Qed.
Print Assumptions C10_write_once.

(* (b) any number of senders, any lists of valid messages, any schedule of their Write calls:
   the stream carries one whole frame per message; the sequence the peer reads back - for every
   fragmentation of the byte stream - is that sequence of messages, each intact, each once;
   its projection on sender i followed by what i has not sent yet is i's list, in i's order *)
Theorem C10_concurrent_send_decodes : forall sched ls,
  Forall (Forall valid_msg) ls ->
  exists w' rest tagged,
    send_run sched ls {| w_calls := []; w_sched := [] |} [] = Some (Ok (w', rest, tagged)) /\
    w_calls w' = map enc_msg (map snd tagged) /\
    (forall i, map snd (List.filter (from_sender i) tagged) ++ nth i rest [] = nth i ls []) /\
    (forall rsched, pos_sched rsched -> exists rsched',
        read_all (S (List.length tagged)) {| s_data := List.concat (w_calls w'); s_sched := rsched |} =
          Some (map snd tagged, EEOF, {| s_data := []; s_sched := rsched' |})).
Proof. exact concurrent_send_decodes. Qed.
Print Assumptions C10_concurrent_send_decodes.

(* the documented limit is inclusive: a message whose payload is exactly MaxPayloadSize bytes is a valid message (so
   every statement of this file speaks about it), it is read back whole over every fragmentation; a header
   announcing one byte more is refused after the 28 header bytes, nothing of the payload is consumed.  The harness
   sends both through real endpoints (go/cmd/qv/c10limits.go). *)
Theorem C10_limit_is_inclusive : forall m rest sch,
  valid_header (m_header m) -> h_size (m_header m) = N.of_nat (List.length (m_payload m)) ->
  h_size (m_header m) = MaxPayloadSize -> pos_sched sch ->
  valid_msg m /\
  exists sch', read_msg {| s_data := enc_msg m ++ rest; s_sched := sch |} =
                 Some (Ok m, {| s_data := rest; s_sched := sch' |}) /\ pos_sched sch'.
Proof.
  intros m rest sch Hv Hsz Hmax Hpos.
  assert (Hm : valid_msg m) by (repeat split; try apply Hv; [exact Hsz|rewrite Hmax; apply N.le_refl]).
  split; [exact Hm|]. now apply read_msg_roundtrip.
Qed.
Print Assumptions C10_limit_is_inclusive.

Theorem C10_above_limit_refused : forall h rest sch,
  valid_header h -> (MaxPayloadSize < h_size h)%N -> pos_sched sch ->
  exists sch', read_msg {| s_data := enc_header h ++ rest; s_sched := sch |} =
                 Some (Err EOther, {| s_data := rest; s_sched := sch' |}).
Proof.
  intros h rest sch Hv Hlt Hpos. apply refuse_before_payload; [apply enc_header_length| |exact Hpos].
  right. exists h. split; [exact (dec_enc_header h Hv)|exact Hlt].
Qed.
Print Assumptions C10_above_limit_refused.

Theorem C10_concurrent_send_complete : forall sched ls w' rest tagged,
  Forall (Forall valid_msg) ls ->
  send_run sched ls {| w_calls := []; w_sched := [] |} [] = Some (Ok (w', rest, tagged)) ->
  Forall (fun l => l = []) rest ->
  forall i, map snd (List.filter (from_sender i) tagged) = nth i ls [].
Proof. exact concurrent_send_complete. Qed.
Print Assumptions C10_concurrent_send_complete.

(* (b) stated on plain lists: if the byte stream is the concatenation of the whole frames of l and l is an
   interleaving of the senders' lists, then for every fragmentation the reader returns l - every message
   intact, exactly once (l is a permutation of all the lists together), and there is an assignment of
   senders to positions under which the projection of l on each sender is that sender's list *)
Theorem C10_interleave_decodes : forall ls l sched,
  Forall (Forall valid_msg) ls -> Interleaving ls l -> pos_sched sched ->
  (exists sched', read_all (S (List.length l)) {| s_data := List.concat (map enc_msg l); s_sched := sched |} =
                    Some (l, EEOF, {| s_data := []; s_sched := sched' |})) /\
  Permutation l (List.concat ls) /\
  (exists tags, List.length tags = List.length l /\
     forall i, map snd (List.filter (fun p => Nat.eqb (fst p) i) (combine tags l)) = nth i ls []).
Proof. exact interleave_decodes. Qed.
Print Assumptions C10_interleave_decodes.

(* and every complete run of the sender system produces such an interleaving *)
Theorem C10_send_run_interleaving : forall sched pending calls sent w' rest out,
  Forall (Forall valid_msg) pending ->
  send_run sched pending {| w_calls := calls; w_sched := [] |} sent = Some (Ok (w', rest, out)) ->
  Forall (fun l => l = []) rest ->
  exists more, out = rev sent ++ more /\ Interleaving pending (map snd more).
Proof. exact send_run_interleaving. Qed.
Print Assumptions C10_send_run_interleaving.

(* (c) at every reachable state of the endpoint, for every handler: the messages its filter was
   consulted for are exactly the messages dispatched while it was in the table, in that order; and
   what its consumer has taken plus what waits in its queue is what the filter (shown each of them
   in turn) matched, restricted to those that found room, in that order *)
Theorem C10_queue_is_selected_subsequence : forall ls s rs hid h,
  run ls = RRun s rs -> nth_error (st_hs s) hid = Some h ->
  map fst (events h) = window ls hid /\
  h_recvd h ++ h_buf h = expect (h_filter h) [] (events h).
Proof. exact queue_is_selected_subsequence. Qed.
Print Assumptions C10_queue_is_selected_subsequence.

(* as long as the queue had room every time: exactly the selected subsequence of the incoming messages *)
Theorem C10_queue_with_room : forall ls s rs hid h,
  run ls = RRun s rs -> nth_error (st_hs s) hid = Some h -> forallb snd (events h) = true ->
  h_recvd h ++ h_buf h = selected (h_filter h) [] (window ls hid).
Proof. exact queue_with_room. Qed.
Print Assumptions C10_queue_with_room.

(* (c) the end of a handler's life takes nothing back: in whatever state a run leaves the handler (removed,
   closed by a shutdown of the endpoint, ended by its own filter - its queue may be closed), a consumer that
   goes on receiving obtains everything that waits in the queue; it has then received exactly what the
   filter matched among the messages that found room, in arrival order *)
Theorem C10_end_takes_nothing_back : forall ls s rs hid h,
  run ls = RRun s rs -> nth_error (st_hs s) hid = Some h ->
  exists s' rs' h', run (ls ++ repeat (LRecv hid) (List.length (h_buf h))) = RRun s' rs' /\
    nth_error (st_hs s') hid = Some h' /\ h_buf h' = [] /\ h_closed h' = h_closed h /\
    h_recvd h' = expect (h_filter h) [] (events h).
Proof.
  intros ls s rs hid h Hrun Hh. destruct (queue_is_selected_subsequence ls s rs hid h Hrun Hh) as [_ Hq].
  destruct (drain_queue _ s hid h Hh eq_refl) as (s' & h' & He & Hn & Hb & Hr & Hc).
  destruct (run_extend ls s rs _ s' Hrun He) as (rs' & Hrun'). exists s', rs', h'. repeat split; auto. congruence.
Qed.
Print Assumptions C10_end_takes_nothing_back.

Example C10_nonvacuous :
  Forall (Forall valid_msg) ex_senders /\
  exists w' tagged,
    send_run [0; 1; 1; 0] ex_senders {| w_calls := []; w_sched := [] |} [] = Some (Ok (w', [[]; []], tagged)) /\
    map (fun p => (fst p, h_id (m_header (snd p)))) tagged = [(0, 10%N); (1, 20%N); (1, 21%N); (0, 11%N)] /\
    List.length (w_calls w') = 4.
Proof. exact (conj ex_senders_valid ex_send). Qed.
