(* C18 — MetaObject -> IDL -> MetaObject is the identity; the IDL parser is total.
   Model: theories/Idl.v (GenerateIDL with the TypeSet and its collision renaming; ParseIDL on
   goparsec's combinators of theories/Peg.v; scope resolution; InterfaceType.MetaObject).
   Proofs: theories/IdlProofs.v (layers 1 and 2), theories/IdlFile.v (layer 3).

   The round trip is proved in layers: type expressions, action lines (a whole method from
   generation to the recovered signatures), whole files (C18_file_roundtrip, in the decidable form
   [roundtrip_ok] C18_file_roundtrip_ok; the correspondence run covers the file layer as well).
   [idl_safe] / [safe_name] are the hypotheses the proofs force; each one that the pinned code
   violates has a refutation witness (the C18_refuted theorems), replayed on the implementation by qv C18. *)
From QV Require Import Sig Peg SigParse Idl IdlProofs IdlFile.
From Coq Require Import NArith.
Local Open Scope string_scope.

(* the IDL name of a safe type, followed by anything that is not part of a name, is read back
   by the type parser as ity_of t ... *)
Theorem C18_type_parse : forall t, idl_safe t = true -> forall f rest, idl_depth t < f -> follow_idl rest = true ->
  fst (itype f (idl_name t ++ rest)) = Ok (NVal (VType (ity_of t))) rest.
Proof. exact itype_name. Qed.
Print Assumptions C18_type_parse.
(* ... whose references resolve, through a scope that declares the structs of t, to the signature of t *)
Theorem C18_type_resolve : forall sc t, idl_safe t = true -> scope_has sc t -> forall f, ty_depth t < f ->
  isig f sc (ity_of t) = Some (print t).
Proof. exact isig_of. Qed.
Print Assumptions C18_type_resolve.
Theorem C18_type_expressions : forall t sc g, idl_safe t = true -> scope_has sc t -> ty_depth t < g ->
  exists i, fst (itype (S (String.length (idl_name t))) (idl_name t)) = Ok (NVal (VType i)) "" /\
            isig g sc i = Some (print t).
Proof. exact idl_type_roundtrip. Qed.
Print Assumptions C18_type_expressions.

(* //uid:<n> is read back as n (fmt.Sscanf "uid:%d" on fmt's %d) *)
Theorem C18_uid_comment : forall n, (n < 2 ^ 32)%N -> scan_uid ("uid:" ++ N_to_string n) = Some n.
Proof. exact scan_uid_print. Qed.
Print Assumptions C18_uid_comment.
Theorem C18_method_line : forall f name sep l rt uid rest,
  is_iident name = true -> (uid < 2 ^ 32)%N -> is_sep sep -> Forall (param_ok f) l -> ret_ok f rt ->
  fst (imethod (itype f) (method_line name (join sep (map param_str l)) (ret_str rt) uid ++ rest)) =
  Ok (NVal (VMethod name uid (ret_ity rt) (iparams l))) (nl ++ rest).
Proof. exact method_line_parses. Qed.
Print Assumptions C18_method_line.
Theorem C18_signal_line : forall f name sep l uid rest,
  is_iident name = true -> (uid < 2 ^ 32)%N -> is_sep sep -> Forall (param_ok f) l ->
  fst (isignal (itype f) (sigprop_line "sig" name (join sep (map param_str l)) uid ++ rest)) =
  Ok (NVal (VSignal name uid (iparams l))) (nl ++ rest).
Proof. intros. now apply (sigprop_line_parses f (Some inodify_signal) "sig"). Qed.
Print Assumptions C18_signal_line.
Theorem C18_property_line : forall f name sep l uid rest,
  is_iident name = true -> (uid < 2 ^ 32)%N -> is_sep sep -> Forall (param_ok f) l ->
  fst (iproperty (itype f) (sigprop_line "prop" name (join sep (map param_str l)) uid ++ rest)) =
  Ok (NVal (VProp name uid (iparams l))) (nl ++ rest).
Proof. intros. now apply (sigprop_line_parses f (Some inodify_property) "prop"). Qed.
Print Assumptions C18_property_line.
(* one method, end to end: the line GenerateIDL writes for it parses to a method with the same
   id and name whose return and parameter signatures, resolved through a scope declaring its
   structs, are the signatures it was generated from *)
Theorem C18_method_roundtrip : forall m ts rt s sc f g rest,
  mm_params m = print (TTuple ts) -> mm_ret m = print rt -> mm_pnames m = None ->
  wf_ty (TTuple ts) = true -> wf_ty rt = true ->
  is_iident (mm_name m) = true -> (mm_uid m < 2 ^ 32)%N ->
  Forall (fun t => idl_safe t = true /\ idl_depth t < f /\ scope_has sc t /\ ty_depth t < g) ts ->
  (rt = TS SVoid \/ (idl_safe rt = true /\ idl_depth rt < f /\ scope_has sc rt /\ ty_depth rt < g)) -> 0 < g ->
  exists line s' ri pl,
    gen_method m s = Some (line, s') /\
    fst (imethod (itype f) (line ++ rest)) = Ok (NVal (VMethod (mm_name m) (mm_uid m) ri pl)) (nl ++ rest) /\
    isig g sc ri = Some (mm_ret m) /\ tuple_sig g sc pl = Some (mm_params m).
Proof. exact method_roundtrip. Qed.
Print Assumptions C18_method_roundtrip.

(* The hypotheses, stated on meta-objects given by their types (o_of prints the signatures):
   package_ok E P, for a declaration environment E (struct name -> members):
     - every interface, action and parameter name is an identifier (a letter or underscore, then letters, digits, underscores); parameter
       names are those CleanVarName produces (or P0, P1, ... when MetaMethod.Parameters is absent);
     - interface names are pairwise distinct and no struct is named like an interface;
     - within an interface the method uids are pairwise distinct, so are the signal uids and the
       property uids; uids are below 2^32 and non-zero (except the method registerEvent);
     - methods take a tuple of parameters, signals and properties have tuple-shaped signatures;
     - every parameter, return (unless void), signal and property type is well formed, idl_safe (no
       void or empty tuple inside; struct names not beginning with a basic type name, Map<, Tuple<,
       Vec<; member names identifiers) and env_ok E: every struct inside it is the one E declares
       under that name — no two different structs share a name;
   env_safe E: the structs of E are themselves idl_safe; is_pkg_name pkg.
   Then GenerateIDL succeeds and ParseIDL gives back, in order, the same interfaces with the same
   action ids, names and parameter / return / signal / property signatures — struct and member
   names included (norm_o only records, as MetaMethod.Parameters, the parameter names written). *)
Theorem C18_file_roundtrip : forall E pkg P, package_ok E P -> env_safe E -> is_pkg_name pkg = true ->
  exists text, gen_idl pkg (map o_of P) = Some text /\ parse_idl text = IOk (map norm_o P).
Proof. exact idl_file_roundtrip. Qed.
Print Assumptions C18_file_roundtrip.
Theorem C18_file_roundtrip_ok : forall E pkg P, package_ok E P -> env_safe E -> is_pkg_name pkg = true ->
  roundtrip_ok pkg (map o_of P) = true.
Proof. exact idl_roundtrip_ok. Qed.
Print Assumptions C18_file_roundtrip_ok.
(* sequences of conversions in one process: whatever packages were converted before and after
   (arbitrary ones: colliding struct names, other weak inputs, invalid signatures), a package that
   meets the hypotheses comes back — the property is per file, history does not matter *)
Theorem C18_sequence_roundtrip : forall (before after : list (string * list mobject)) E pkg P,
  package_ok E P -> env_safe E -> is_pkg_name pkg = true ->
  exists text, nth_error (convert_seq (before ++ (pkg, map o_of P) :: after)) (List.length before)
               = Some (Some (text, IOk (map norm_o P))).
Proof. exact idl_sequence_roundtrip. Qed.
Print Assumptions C18_sequence_roundtrip.
(* the four pieces of the composition, as theorems of their own *)
(* (a) registration is the identity on names and collects the structs, without name collisions *)
Theorem C18_registration_identity : forall E inames t s,
  set_ok E inames s -> env_ok E t -> (forall d, In d (structs_of t) -> ~ In (fst d) inames) ->
  exists ext, register t s = (t, s ++ ext)%list /\ set_ok E inames (s ++ ext)%list /\
              (forall d, In d (structs_of t) -> lookup (fst d) (s ++ ext)%list <> None).
Proof. exact register_ok. Qed.
Print Assumptions C18_registration_identity.
(* (b) the generated text goes through the package parser block by block *)
Theorem C18_text_parses : forall E pkg P S, package_ok E P -> env_safe E -> is_pkg_name pkg = true ->
  set_ok E (map to_name P) S ->
  fst (parse_package (package_text pkg P S)) = Ok (NVal (VPkg pkg (decl_vals E P S))) nl.
Proof. exact parse_package_ok. Qed.
Print Assumptions C18_text_parses.
(* (c) the scope of the parsed declarations declares every struct of every registered type, and the
   fuel of the signature resolution exceeds the depth of every such type *)
Theorem C18_scope_has : forall E P S t, package_ok E P -> set_ok E (map to_name P) S ->
  env_ok E t -> covers S t -> scope_has (scope_of (decl_vals E P S) []) t.
Proof. exact scope_has_covered. Qed.
Print Assumptions C18_scope_has.
Theorem C18_fuel_adequate : forall E P S, package_ok E P -> env_safe E -> set_ok E (map to_name P) S ->
  forall t i, env_ok E t -> covers S t -> idl_depth t <= ity_depth i ->
  ty_depth t < sig_fuel (scope_of (decl_vals E P S) []) i.
Proof. exact depth_below_fuel. Qed.
Print Assumptions C18_fuel_adequate.
(* (d) nodifyActionList keeps distinct, non-zero ids as they are, in order *)
Theorem C18_action_ids_kept : forall E o, object_ok E o ->
  inodify_action_list (action_nodes o) =
  NVal (VItf "" (map mentry (to_methods o)) (map gentry (to_signals o)) (map gentry (to_props o))).
Proof. exact action_list_object. Qed.
Print Assumptions C18_action_ids_kept.

(* a concrete package: its round trip is an instance of the file theorem (C18_file_roundtrip_partial below) *)
Definition ex_objs : list mobject :=
  [ {| mo_name := "Motion";
       mo_methods := [ {| mm_uid := 100; mm_name := "moveTo"; mm_params := "((fff)<Pose,x,y,theta>[(fff)<Pose,x,y,theta>])";
                          mm_ret := "b"; mm_pnames := Some ["target"; "via"] |};
                       {| mm_uid := 101; mm_name := "stop"; mm_params := "()"; mm_ret := "v"; mm_pnames := None |} ];
       mo_signals := [ {| ms_uid := 102; ms_name := "moved"; ms_sig := "({s(fff)<Pose,x,y,theta>})" |} ];
       mo_props := [ {| ms_uid := 103; ms_name := "speed"; ms_sig := "(f)" |} ] |};
    {| mo_name := "Log"; mo_methods := [ {| mm_uid := 5; mm_name := "log"; mm_params := "((sI)<Entry<T>,text,level>m)"; mm_ret := "o"; mm_pnames := None |} ];
       mo_signals := []; mo_props := [] |} ].
(* the hypotheses of C18_file_roundtrip are met by a package with shared, nested and
   template-named structs, named and unnamed parameters *)
Definition ex_pose := TStruct "Pose" [("x", TS SF32); ("y", TS SF32); ("theta", TS SF32)].
Definition ex_entry := TStruct "Entry<T>" [("text", TS SStr); ("level", TS SU32)].
Definition ex_env : env := [("Pose", [("x", TS SF32); ("y", TS SF32); ("theta", TS SF32)]); ("Entry<T>", [("text", TS SStr); ("level", TS SU32)])].
Definition ex_typed : list tobject :=
  [ {| to_name := "Motion";
       to_methods := [ {| tm_uid := 100; tm_name := "moveTo"; tm_params := [ex_pose; TList ex_pose]; tm_ret := TS SBool; tm_pnames := Some ["target"; "via"] |};
                       {| tm_uid := 101; tm_name := "stop"; tm_params := []; tm_ret := TS SVoid; tm_pnames := None |} ];
       to_signals := [ {| tg_uid := 102; tg_name := "moved"; tg_params := [TMap (TS SStr) ex_pose] |} ];
       to_props := [ {| tg_uid := 103; tg_name := "speed"; tg_params := [TS SF32] |} ] |};
    {| to_name := "Log"; to_methods := [ {| tm_uid := 5; tm_name := "log"; tm_params := [ex_entry; TS SValue]; tm_ret := TS SObject; tm_pnames := None |} ];
       to_signals := []; to_props := [] |} ].
Example C18_file_nonvacuous : package_ok ex_env ex_typed /\ env_safe ex_env /\ is_pkg_name "robot" = true /\ map o_of ex_typed = ex_objs.
Proof.
  destruct (package_okb_ok ex_env ex_typed) as [HP HE]; [vm_compute; reflexivity|]. exact (conj HP (conj HE (conj eq_refl eq_refl))).
Qed.

Theorem C18_file_roundtrip_partial : roundtrip_ok "robot" ex_objs = true.
Proof. destruct C18_file_nonvacuous as (HP & HE & Hn & <-). exact (C18_file_roundtrip_ok ex_env "robot" ex_typed HP HE Hn). Qed.
Print Assumptions C18_file_roundtrip_partial.

(* a sequence evaluated: two services with different structs named Status in one package (the second
   one is renamed Status_0: the recorded weakness colliding_struct_names), then each service alone —
   alone, each keeps the name Status *)
Definition ex_motor : list mobject :=
  [ {| mo_name := "Motor"; mo_methods := [ {| mm_uid := 100; mm_name := "status"; mm_params := "()"; mm_ret := "(fb)<Status,temperature,stiff>"; mm_pnames := None |} ];
       mo_signals := []; mo_props := [] |} ].
Definition ex_battery : list mobject :=
  [ {| mo_name := "Battery"; mo_methods := [ {| mm_uid := 100; mm_name := "level"; mm_params := "()"; mm_ret := "(ib)<Status,charge,plugged>"; mm_pnames := None |} ];
       mo_signals := []; mo_props := [] |} ].
Theorem C18_sequence_example :
  seq_roundtrip_ok [("p", ex_motor ++ ex_battery); ("p", ex_motor); ("p", ex_battery); ("p", ex_battery ++ ex_motor); ("p", ex_motor)]%list
  = [false; true; true; false; true].
Proof.
  (* the package that occurs twice is evaluated once *)
  assert (Hm : roundtrip_ok "p" ex_motor = true) by (vm_compute; reflexivity).
  unfold seq_roundtrip_ok. cbn [map fst snd]. rewrite Hm. vm_compute. reflexivity.
Qed.
Print Assumptions C18_sequence_example.

(* identifiers are identifiers: the words that structure an IDL file, the names of its basic types and
   Go's keywords are names like any other (instances of the file theorem's hypotheses, evaluated):
   a struct Range{begin,end}, a parameter named end, actions named fn / sig / prop, an interface
   named interface, a struct named end with members named struct and int32 *)
Definition ex_vocab : list mobject :=
  [ {| mo_name := "interface";
       mo_methods := [ {| mm_uid := 100; mm_name := "fn"; mm_params := "(ii)"; mm_ret := "(ii)<Range,begin,end>";
                          mm_pnames := Some ["begin"; "end"] |};
                       {| mm_uid := 101; mm_name := "end"; mm_params := "((is)<end,struct,int32>)"; mm_ret := "v"; mm_pnames := Some ["package"] |} ];
       mo_signals := [ {| ms_uid := 102; ms_name := "sig"; ms_sig := "((ii)<Range,begin,end>)" |} ];
       mo_props := [ {| ms_uid := 103; ms_name := "prop"; ms_sig := "([(is)<end,struct,int32>])" |} ] |};
    {| mo_name := "str"; mo_methods := [ {| mm_uid := 1; mm_name := "int32"; mm_params := "(s)"; mm_ret := "s"; mm_pnames := Some ["str"] |} ];
       mo_signals := []; mo_props := [] |} ].
Theorem C18_vocabulary_roundtrip : roundtrip_ok "package" ex_vocab = true.
Proof. vm_compute. reflexivity. Qed.
Print Assumptions C18_vocabulary_roundtrip.

(* the hypotheses are needed: refutation witnesses on the pinned behaviour *)
Definition one_method (params ret : string) : list mobject :=
  [ {| mo_name := "I"; mo_methods := [ {| mm_uid := 1; mm_name := "f"; mm_params := params; mm_ret := ret; mm_pnames := None |} ];
       mo_signals := []; mo_props := [] |} ].
Theorem C18_refuted_keyword_prefix_struct_name : roundtrip_ok "p" (one_method "((i)<strange,a>)" "v") = false.
Proof. vm_compute. reflexivity. Qed.
Print Assumptions C18_refuted_keyword_prefix_struct_name.
(* a struct named exactly as a basic IDL type: the word-boundary repair of basicType() does not help,
   "P0: str" is the basic type *)
Theorem C18_refuted_basic_type_struct_name : roundtrip_ok "p" (one_method "((i)<str,a>)" "v") = false.
Proof. vm_compute. reflexivity. Qed.
Print Assumptions C18_refuted_basic_type_struct_name.
Theorem C18_refuted_container_prefix_struct_name : roundtrip_ok "p" (one_method "((i)<Vec<T>,a>)" "v") = false.
Proof. vm_compute. reflexivity. Qed.
Print Assumptions C18_refuted_container_prefix_struct_name.
Theorem C18_refuted_colliding_struct_names :
  roundtrip_ok "p" [ {| mo_name := "I";
                        mo_methods := [ {| mm_uid := 1; mm_name := "f"; mm_params := "((i)<A,a>)"; mm_ret := "v"; mm_pnames := None |};
                                        {| mm_uid := 2; mm_name := "g"; mm_params := "((s)<A,b>)"; mm_ret := "v"; mm_pnames := None |} ];
                        mo_signals := []; mo_props := [] |} ] = false.
Proof. vm_compute. reflexivity. Qed.
Print Assumptions C18_refuted_colliding_struct_names.
Theorem C18_refuted_non_tuple_signal_property :
  roundtrip_ok "p" [ {| mo_name := "I"; mo_methods := []; mo_signals := [ {| ms_uid := 1; ms_name := "s"; ms_sig := "i" |} ]; mo_props := [] |} ] = false.
Proof. vm_compute. reflexivity. Qed.
Print Assumptions C18_refuted_non_tuple_signal_property.
Theorem C18_refuted_uid_zero :
  roundtrip_ok "p" [ {| mo_name := "I"; mo_methods := [ {| mm_uid := 0; mm_name := "f"; mm_params := "()"; mm_ret := "v"; mm_pnames := None |} ];
                        mo_signals := []; mo_props := [] |} ] = false.
Proof. vm_compute. reflexivity. Qed.
Print Assumptions C18_refuted_uid_zero.
Theorem C18_refuted_empty_tuple_or_void_in_container : roundtrip_ok "p" (one_method "(())" "v") = false /\ roundtrip_ok "p" (one_method "()" "[v]") = false.
Proof. vm_compute. split; reflexivity. Qed.
Print Assumptions C18_refuted_empty_tuple_or_void_in_container.

(* the model's bounds are never reached: every text gives meta-objects, an error, or the crash below *)
Theorem C18_parser_total : forall s, parse_idl s <> IFuel /\ parse_idl s <> IHang.
Proof. exact parse_idl_total. Qed.
Print Assumptions C18_parser_total.
(* a struct that contains itself: computing the signature never ends (stack overflow in Go) *)
Theorem C18_refuted_self_referential_struct_crash :
  parse_idl "struct A
 a: A
end
interface I
 fn f(x: A)
end" = ICrash.
Proof. vm_compute. reflexivity. Qed.
Print Assumptions C18_refuted_self_referential_struct_crash.

Example C18_nonvacuous :
  idl_safe (TMap (TS SStr) (TList (TStruct "Pose" [("x", TS SF32)]))) = true /\
  scope_has [("Pose", ScStruct "Pose" [("x", IBasic SF32)])] (TMap (TS SStr) (TList (TStruct "Pose" [("x", TS SF32)]))) /\
  param_ok 5 ("target", TStruct "Pose" [("x", TS SF32)]) /\
  parse_idl "interface I
	fn f(a: int32) -> str //uid:5
end
" = IOk [{| mo_name := "I"; mo_methods := [{| mm_uid := 5; mm_name := "f"; mm_params := "(i)"; mm_ret := "s"; mm_pnames := Some ["a"] |}];
            mo_signals := []; mo_props := [] |}].
Proof. vm_compute. repeat split; auto. Qed.
