(* C15 — The service directory is a linearizable registry.
   This file holds the property theorems only; models in theories/Directory.v and Lin.v,
   proofs in theories/DirectoryProofs.v and LinProofs.v.

   Reading guide.  [cstep g] is the transliteration of bus/directory/directory.go
   (staging, services, lastID and the methods), [astep] the abstract registry (entries with
   a status, ids from a counter).  [run step s ops] gives the final state and, per
   operation, its result and the signals it emitted.  [lifecycle_of id tr] replays the
   results of a run for one identifier: handed out by a successful registerService, made
   visible by a successful serviceReady, ended by a successful unregisterService.
   [g : cfg] carries the two defect switches of the pinned code (cfg_unsync, cfg_wrap). *)
From Coq Require Import List NArith String Sorting.Sorted Permutation.
From QV Require Import Lin LinProofs Directory DirectoryProofs.
Import ListNotations.
Local Open Scope N_scope.

(* the implementation model refines the abstract registry: same results, same signals *)
Theorem C15_refinement : forall g ops, cfg_wrap g = false ->
  snd (run (cstep g) cinit ops) = snd (run astep ainit ops).
Proof. exact refinement. Qed.
Print Assumptions C15_refinement.

(* identifiers are assigned strictly increasing (hence never reused) *)
Theorem C15_ids_increasing : forall g ops, cfg_wrap g = false ->
  StronglySorted N.lt (tr_ids (snd (run (cstep g) cinit ops))).
Proof.
  intros g ops Hw. rewrite (refinement g ops Hw). apply (StronglySorted_inv (ids_increasing_gen ops ainit)).
Qed.
Print Assumptions C15_ids_increasing.

(* a name is held by at most one entry of staging ∪ services; so is an identifier *)
Theorem C15_name_unique : forall g ops, cfg_wrap g = false ->
  let c := fst (run (cstep g) cinit ops) in
  NoDup (map (fun p => i_name (snd p)) (staging c ++ services c)) /\
  NoDup (map fst (staging c ++ services c)).
Proof. exact concrete_unique. Qed.
Print Assumptions C15_name_unique.

(* service / services see an entry exactly from serviceReady until unregisterService:
   after any sequence, an identifier is listed iff its life is in the Ready state, a lookup
   by name answers with the entry whose life is Ready under that name and fails when there
   is none, and the list is sorted by identifier *)
Theorem C15_visibility : forall ops,
  let a := fst (run astep ainit ops) in
  let tr := snd (run astep ainit ops) in
  (forall id, (exists n, lifecycle_of id tr = LReady n) <->
              (exists e, In e (a_entries a) /\ a_id e = id /\ a_ready e = true)) /\
  (forall n, match snd (fst (astep a (OService n))) with
             | RInfo i => lifecycle_of (i_id i) tr = LReady n /\ i_name i = n
             | RErr => forall id, lifecycle_of id tr <> LReady n
             | _ => False
             end) /\
  (exists l, snd (fst (astep a OServices)) = RList l /\ StronglySorted id_le l /\
             forall id, In id (map i_id l) <-> exists n, lifecycle_of id tr = LReady n).
Proof. exact visibility. Qed.
Print Assumptions C15_visibility.

(* updateServiceInfo cannot change a service's name, identity or status, whatever its
   argument and outcome *)
Theorem C15_update_identity : forall ops i,
  let a := fst (run astep ainit ops) in
  forall id n rd, entry_with (fst (fst (astep a (OUpdate i)))) id n rd <-> entry_with a id n rd.
Proof. intros ops i a. apply update_keeps_identity, (reach ops). Qed.
Print Assumptions C15_update_identity.

(* signals: for every identifier the emitted serviceAdded / serviceRemoved are exactly those
   its life calls for — none before ready, one added at ready, one removed at the
   unregistration of a ready service, in that order, carrying the registered name *)
Theorem C15_events_exact : forall g ops id, cfg_wrap g = false ->
  events_for id (tr_events (snd (run (cstep g) cinit ops))) =
  life_events id (lifecycle_of id (snd (run (cstep g) cinit ops))).
Proof. intros g ops id Hw. rewrite (refinement g ops Hw). apply events_exact. Qed.
Print Assumptions C15_events_exact.

(* the executable checker decides linearizability (generic in the spec) *)
Theorem C15_lin_check_correct : forall h,
  lin_check astep_r dres_eqb ainit h = true <-> linearizable astep_r ainit h.
Proof. intros h. apply lin_check_iff, dres_eqb_spec. Qed.
Print Assumptions C15_lin_check_correct.

(* every history of an object whose operations are single atomic steps inside their call
   interval is linearizable (generic) *)
Theorem C15_atomic_lin : forall (St Op Res : Type) (step : St -> Op -> St * Res) init tr st',
  stamped 0 tr -> arun step (init, []) tr st' -> linearizable step init (ops_of (erase tr)).
Proof. exact atomic_lin. Qed.
Print Assumptions C15_atomic_lin.

(* the property: with both defects absent, every history the directory can produce —
   any number of remote and local callers, any interleaving — is equivalent to a sequential
   run of the abstract registry that respects real time; the sequential clauses above hold
   of every such run *)
Theorem C15_holds : forall g, clean g ->
  forall h, dir_history g h -> linearizable astep_r ainit h.
Proof. exact dir_linearizable. Qed.
Print Assumptions C15_holds.

(* identifiers under concurrency: in a linearizable history no identifier is handed to two
   registrations, and along the explaining sequential order (real time respected) the
   identifiers of the completed registrations increase strictly.  With C15_holds: every
   history of the synchronised directory, whatever the interleaving. *)
Theorem C15_hist_ids_increasing : forall h, linearizable astep_r ainit h ->
  exists lin rest, Permutation h (lin ++ rest) /\ Forall (fun x => o_ret x = None) rest /\ rt_ok lin /\
    StronglySorted N.lt (hist_ids lin) /\ Permutation (hist_ids h) (hist_ids lin).
Proof. exact lin_ids_increasing. Qed.
Print Assumptions C15_hist_ids_increasing.

Theorem C15_hist_ids_distinct : forall h, linearizable astep_r ainit h -> NoDup (hist_ids h).
Proof. exact lin_ids_distinct. Qed.
Print Assumptions C15_hist_ids_distinct.

(* the pinned code: no lock — two overlapping registrations of one name both succeed *)
Theorem C15_refuted_unsync_local : forall g, cfg_unsync g = true ->
  exists h, dir_history g h /\ ~ linearizable astep_r ainit h.
Proof. exact unsync_refuted. Qed.
Print Assumptions C15_refuted_unsync_local.

(* the pinned code: the uint32 counter wraps after 2^32-1 registrations
   (register/unregister 2^32-1 times, then register once more) *)
Theorem C15_refuted_id_wrap : forall g, cfg_wrap g = true ->
  exists ops, ~ StronglySorted N.lt (tr_ids (snd (run (cstep g) cinit ops))).
Proof.
  intros g Hw. exists (cycle (S (N.to_nat (W32 - 2))) 0 ++ [reg_a]).
  apply (wrap_run g _ Hw). rewrite N2Nat.id. reflexivity.
Qed.
Print Assumptions C15_refuted_id_wrap.

(* hypotheses are satisfiable: a concrete life cycle on the clean model, and a concurrent
   history with two overlapping calls that the checker accepts *)
Example C15_nonvacuous :
  let i := Build_info "a" 0 "m" 1 ["e"%string] "" "" in
  clean cfg_clean /\
  snd (run (cstep cfg_clean) cinit [ORegister i; OReady 1; OService "a"; OUnregister 1; OService "a"]) =
  [(ORegister i, RId 1, []); (OReady 1, ROk, [EvAdded 1 "a"]); (OService "a", RInfo (with_id i 1), []);
   (OUnregister 1, ROk, [EvRemoved 1 "a"]); (OService "a", RErr, [])] /\
  lin_check astep_r dres_eqb ainit
    [Build_orec 1 (ORegister i) 1 (Some (4, RId 1)); Build_orec 2 (OService "a") 2 (Some (3, RErr));
     Build_orec 2 (OReady 1) 5 (Some (6, ROk))] = true.
Proof. exact (conj (conj eq_refl eq_refl) (conj eq_refl eq_refl)). Qed.
