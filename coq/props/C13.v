(* C13 — subscribers get each emitted event exactly once, in order, only while subscribed.
   Property theorems only.  Models: theories/Signals.v (proofs: SignalsInv1/3/4/5, SignalsMain; predicates and
   witness runs: SignalsProofs), SignalsRaw.v (SignalsRawProofs), SignalsFwd.v (SignalsFwdProofs). *)
From QV Require Import Signals SignalsProofs SignalsStep SignalsInv3 SignalsMain SignalsRaw SignalsRawProofs.
From QV Require Import SignalsFwd SignalsFwdProofs.
Local Open Scope N_scope.

(* Reading of the statement.  A run is any sequence of labels accepted by [run] from [init]: every
   interleaving of the atomic actions of the subscriber goroutines (any number, on any
   connections, any signals), the client endpoints, the object's mailbox goroutine and the one
   emitter.  For subscriber x: s_got = payloads read so far, in order; s_all = the emissions of its
   signal taken while its connection was registered, since its handler was installed; s_skip =
   events already in transit to its connection at that moment; s_win = emissions of its signal
   between the acknowledgement (SubscribeID returns nil) and the cancel request.
   [delivery_ok]: read ++ queued ++ in transit = s_skip ++ s_all: nothing lost, duplicated,
   reordered or foreign, and a subscriber that keeps reading (LDeliver enabled while queued) gets all
   of it.  [window_ok]: s_all = s_pre ++ s_win ++ post: every emission of the window is in it.
   "Within the queue capacity": overflow st = false (no event met a full queue). *)
Theorem C13_holds : forall g tr st s x,
  clean g -> run g init tr = Some st -> overflow st = false ->
  nth_error (subs st) s = Some x ->
  delivery_ok st x /\ prefix_ok x /\ window_ok x /\ (s_pc x = PAcked -> s_ackd x = true).
Proof. eauto using c13_delivery, clean_repaired. Qed.
Print Assumptions C13_holds.

(* between acknowledgement and cancel request the connection is registered by exactly one entry of
   the object's table (several subscribers of one client share it; subscribers on other
   connections have their own): the mechanism behind "each receives its own complete copy, one
   leaving does not disturb the others" — C13_holds is stated for every subscriber of every run *)
Theorem C13_holds_registered : forall g tr st s x,
  clean g -> run g init tr = Some st -> nth_error (subs st) s = Some x -> s_pc x = PAcked ->
  List.length (ents (table st) (s_conn x) (s_sig x)) = 1%nat.
Proof. eauto using c13_registered, clean_repaired. Qed.
Print Assumptions C13_holds_registered.

(* after the server has acknowledged the removal of a registration no further event for it is
   sent on that connection: in the log of frames written to connection c, no Event frame carries
   the message id of a registration after the Reply to the unregisterEvent call that removed it *)
Theorem C13_holds_no_event_after_unregister_reply : forall g tr st c,
  clean g -> run g init tr = Some st -> no_event_after_ack [] (dlog st c) = true.
Proof. intros g tr st c Hg. apply c13_no_event_after_ack; [apply clean_repaired|]; apply Hg. Qed.
Print Assumptions C13_holds_no_event_after_unregister_reply.

(* when the system has come to rest (no internal action enabled: every frame dispatched, every
   request answered, every queue read) no call of SubscribeID or of a cancel function is still
   waiting, every subscriber whose cancel reached the abort has its channel closed, and every live
   subscriber has read exactly s_skip ++ s_all — hence, by C13_holds, every emission of its window:
   the channel is closed once it cancels, and nothing is lost for a subscriber that keeps reading *)
Theorem C13_holds_at_rest : forall g tr st s x,
  clean g -> run g init tr = Some st -> overflow st = false -> quiescent g st = true ->
  nth_error (subs st) s = Some x ->
  (forall m, s_pc x <> PWaitReg m) /\ (forall m, s_pc x <> PWaitUnreg m) /\ s_pc x <> PAborting /\
  (live (s_pc x) = true -> s_got x = s_skip x ++ s_all x).
Proof. eauto using c13_at_rest, clean_repaired. Qed.
Print Assumptions C13_holds_at_rest.

(* the pinned tree violates the property along its switches (dup_relock together with uid_global); witnesses by computation *)
Theorem C13_refuted_sub_unserialised :
  exists st x, run (with_switch false false true false) init tr17 = Some st /\
    quiescent (with_switch false false true false) st = true /\
    nth_error (subs st) 1 = Some x /\ s_pc x = PAcked /\ s_win x = [11] /\
    s_got x = [] /\ s_queue x = [] /\ inflight st (s_conn x) (s_sig x) = [].
Proof. exact refuted_sub_unserialised. Qed.
Print Assumptions C13_refuted_sub_unserialised.

Theorem C13_refuted_snapshot_send :
  exists st, run (with_switch false true false false) init tr16 = Some st /\
    quiescent (with_switch false true false false) st = true /\
    no_event_after_ack [] (dlog st 1%nat) = false.
Proof. exact refuted_snapshot_send. Qed.
Print Assumptions C13_refuted_snapshot_send.

Theorem C13_refuted_uid_global :
  exists st x, run (with_switch true false false false) init (tr15 ++ [LReply; LCliRecv 1]) = Some st /\
    quiescent (with_switch true false false false) st = true /\
    nth_error (subs st) 1 = Some x /\ s_pc x = PFailed.
Proof. exact refuted_uid_global. Qed.
Print Assumptions C13_refuted_uid_global.

Theorem C13_refuted_uid_global_relock :
  exists st x, run (with_switch true false false true) init (tr15 ++ [LEmitSnap 200 31]) = Some st /\
    quiescent (with_switch true false false true) st = true /\ dead st = true /\
    nth_error (subs st) 0 = Some x /\ s_pc x = PAcked /\ s_win x = [31] /\
    s_got x = [] /\ s_queue x = [] /\ inflight st (s_conn x) (s_sig x) = [].
Proof. exact refuted_uid_global_relock. Qed.
Print Assumptions C13_refuted_uid_global_relock.

(* Registrations whose ids are chosen by the caller (SignalsRaw.v: the table operations of the model
   above with any ids; [rclean]: ids compared per connection, a refused duplicate leaves the table
   alone), next to connections in every kind of bad health ([RBreak c k]: every write to c fails with
   EPIPE / a reset / a closed direction, or with io.EOF — UpdateSignal then drops the registration in
   the middle of its loop —, the connection is closed, one write fails, writes are slow).  "One
   subscriber leaving [or failing] does not disturb the others", at the level of registrations: a
   registerEvent that was acknowledged is sent every later emission of its signal until an
   unregisterEvent for its own (connection, id) is processed, as long as ITS OWN connection is not
   broken — whatever else is registered, refused or removed meanwhile (the same id for another signal,
   the same id on another connection, ...) and whatever happens to the other connections, wherever
   their registrations sit in the table relative to this one. *)
Theorem C13_holds_raw_registration_kept : forall g, rclean g -> forall pre post c m sig uid p,
  snd (raw_step g (raw_run g rinit pre) (RReg c m sig uid)) = OAck ->
  (forall s, ~ In (RUnreg c s uid) post) ->
  (forall k, ~ In (RBreak c k) (pre ++ post)) ->
  exists l, snd (raw_step g (raw_run g rinit (pre ++ RReg c m sig uid :: post)) (REmit sig p)) = OSent l /\ In (c, m) l.
Proof. intros g G. apply raw_acked_receives, G. Qed.
Print Assumptions C13_holds_raw_registration_kept.

(* while no connection is in bad health an emission is the plain fan-out over the registrations of the
   signal, in table order, and leaves the table alone *)
Theorem C13_holds_raw_emission_all_healthy : forall g st sig p, r_bad st = [] -> r_once st = [] ->
  snd (raw_step g st (REmit sig p)) = OSent (targets sig (r_table st)) /\
  r_table (fst (raw_step g st (REmit sig p))) = r_table st.
Proof. intros g st sig p B O. cbn [raw_step]. rewrite B, O, emit_go_healthy. split; reflexivity. Qed.
Print Assumptions C13_holds_raw_emission_all_healthy.

(* nothing is written to a connection every write to which fails *)
Theorem C13_holds_raw_broken_gets_nothing : forall g st sig p c m l, bad_of (r_bad st) c <> None ->
  snd (raw_step g st (REmit sig p)) = OSent l -> ~ In (c, m) l.
Proof. exact raw_bad_gets_nothing. Qed.
Print Assumptions C13_holds_raw_broken_gets_nothing.

(* after an acknowledged unregisterEvent the table has no entry of that (connection, id): later emissions send nothing to it *)
Theorem C13_holds_raw_unregistered : forall g, rclean g -> forall os c s uid,
  snd (raw_step g (raw_run g rinit os) (RUnreg c s uid)) = OAck ->
  forall u, In u (r_table (fst (raw_step g (raw_run g rinit os) (RUnreg c s uid)))) -> is_user c uid u = false.
Proof. intros g G. apply raw_removed, G. Qed.
Print Assumptions C13_holds_raw_unregistered.

(* a refused registerEvent / unregisterEvent changes nothing *)
Theorem C13_holds_raw_refused_no_effect : forall g, rclean g -> forall st o,
  snd (raw_step g st o) = ORefused -> fst (raw_step g st o) = st.
Proof. intros g G. apply raw_refused, G. Qed.
Print Assumptions C13_holds_raw_refused_no_effect.

(* the table operation of SignalsRaw.v is the one the mailbox goroutine of the full model performs *)
Theorem C13_raw_is_mailbox_step : forall g st c f rest st',
  up st c = f :: rest -> step g st (LMbox c) = Some st' ->
  table st' = r_table (fst (raw_step g (rof (table st)) (op_of c f))).
Proof. exact step_mbox_is_raw_step. Qed.
Print Assumptions C13_raw_is_mailbox_step.


(* The client side of subscriptions on one client (SignalsFwd.v): handler slots whose indexes are the
   handler ids (reused once free), one forwarding goroutine per subscription (FTake: it takes an event
   from its queue and is blocked in its send until FRead: the subscriber receives), cancel functions
   (FCancel: close(abort); FAbort: the forwarder sees it, RemoveHandler(its id), close(events)), the
   connection's end (FDown).  Every interleaving of these labels for any number of subscribers of any
   signals: a subscriber that has not cancelled, on a connection that is up, still has its handler in
   its slot, its queue and its channel are open, and what it has received ++ the event its forwarder
   holds ++ its queue is exactly the sequence of events of its signal dispatched since its subscription
   (within the queue capacity); for a subscriber that has cancelled the same equation says that what
   it received is a prefix of it.  [f_all] is ghost and does not depend on the slots. *)
Theorem C13_holds_client_side : forall tr st s x,
  frun finit tr = Some st -> nth_error (fsubs st) s = Some x ->
  (fover st = false -> f_got x ++ oh (f_hold x) ++ f_queue x = f_all x) /\
  (f_abort x = false -> fdown st = false ->
     f_qclosed x = false /\ f_done x = false /\ slots st (f_slot x) = Some s).
Proof. exact fwd_holds. Qed.
Print Assumptions C13_holds_client_side.

(* one subscriber's cancel never removes another's handler: the RemoveHandler of forwarder s leaves every
   other subscription and every slot that holds another subscription's handler as they were *)
Theorem C13_holds_cancel_removes_own_handler : forall tr st s st',
  frun finit tr = Some st -> fstep st (FAbort s) = Some st' ->
  forall s', s' <> s ->
    nth_error (fsubs st') s' = nth_error (fsubs st) s' /\
    (forall i, slots st i = Some s' -> slots st' i = Some s').
Proof. intros tr st s st' Hr. exact (abort_removes_own st s st' (reach_inv tr st Hr)). Qed.
Print Assumptions C13_holds_cancel_removes_own_handler.

(* the queue of a subscription is closed by no step but its own forwarder's abort and the connection's end *)
Theorem C13_holds_closed_only_by_own_cancel : forall tr st l st' s x,
  frun finit tr = Some st -> fstep st l = Some st' ->
  nth_error (fsubs st) s = Some x -> f_qclosed x = false ->
  l <> FAbort s -> l <> FDown ->
  exists x', nth_error (fsubs st') s = Some x' /\ f_qclosed x' = false.
Proof. exact fwd_closed_by. Qed.
Print Assumptions C13_holds_closed_only_by_own_cancel.

(* what the correspondence replays (operations of a harness that owns the readers, with the forwarders'
   forced steps in between) is a run of this transition system: the theorems above hold for its states *)
Theorem C13_client_side_replay_is_run : forall os st,
  freplay finit os = Some st -> exists tr, frun finit tr = Some st.
Proof. intros os st. exact (freplay_run os finit st). Qed.
Print Assumptions C13_client_side_replay_is_run.

Example C13_nonvacuous : exists st, run cfg0 init tr_ex = Some st /\ overflow st = false /\
  map (fun x => (s_pc x, s_got x, s_win x)) (subs st) =
    [(PClosed, [5], [5]); (PClosed, [5; 6], [5; 6]); (PAcked, [5; 6], [5; 6])].
Proof.
  destruct (run_observed cfg0 tr_ex (fun st => (overflow st, map (fun x => (s_pc x, s_got x, s_win x)) (subs st)))
              (false, [(PClosed, [5], [5]); (PClosed, [5; 6], [5; 6]); (PAcked, [5; 6], [5; 6])]))
    as (st & R & [= O E]); [vm_compute; reflexivity|].
  exists st. exact (conj R (conj O E)).
Qed.

(* cancel with an undelivered event, a new subscriber before the leaver reads on, the leaver reads to the end *)
Theorem C13_witness_client_side : exists st, freplay finit fwd_ops_ex = Some st /\
  map (fun x => (f_slot x, f_done x, f_got x)) (fsubs st) = [(0%nat, true, [1]); (1%nat, false, [2])] /\
  slots st 0%nat = None /\ slots st 1%nat = Some 1%nat /\ fover st = false.
Proof. eexists. split; [vm_compute; reflexivity|]. vm_compute. auto. Qed.
Print Assumptions C13_witness_client_side.
