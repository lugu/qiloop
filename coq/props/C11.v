(* C11 — Losing the connection fails calls promptly instead of hanging them.
   Property theorems only; the model is theories/ConnLoss.v (a labelled transition system of one
   client endpoint with n calls, m subscriptions, d OnDisconnect callbacks), the proofs are in
   theories/ConnLossProofs.v.  "For every schedule" = for every label sequence accepted by [run];
   [terminal s] = the connection is lost (dead or closed) and no goroutine that exists can take
   another step (the readers of the events channels are goroutines of the system: "the reader
   keeps reading").  [reachable s] = s is reached from [init n m d] by some label sequence. *)
From QV Require Import ConnLoss ConnLossProofs.
From Coq Require Import List.
Import ListNotations.

(* no schedule makes the client panic (close of a closed channel, send on a closed channel) *)
Theorem C11_no_panic : forall s, reachable s -> panicked s = false.
Proof. exact no_panic. Qed.
Print Assumptions C11_no_panic.

(* after the loss nothing waits for ever: in a terminal state every call of the scenario has
   returned (or was never started) *)
Theorem C11_calls_return : forall s, reachable s -> terminal s ->
  forall c, c < nn s -> cp s c = CIdle \/ exists b, cp s c = CDone b.
Proof. intros s R. exact (terminal_calls s (inv_reachable s R)). Qed.
Print Assumptions C11_calls_return.

(* ... and what it returned is an error, for the calls in flight at the loss as well as for the
   calls made later, unless a Reply for it had already been read from the stream ([can_ok]) *)
Theorem C11_calls_fail : forall s tr s' c, reachable s -> lost s = true -> ~ can_ok s c -> c < nn s ->
  run tr s = Some s' -> terminal s' ->
  (cp s c <> CIdle -> cp s' c = CDone false) /\ (cp s' c = CIdle \/ cp s' c = CDone false).
Proof. intros s tr s' c R. exact (calls_fail s tr s' c (inv_reachable s R)). Qed.
Print Assumptions C11_calls_fail.

(* every subscription made before the loss has its events channel closed *)
Theorem C11_subscriptions_closed : forall s0 tr s i, reachable s0 -> lost s0 = false -> sp s0 i <> SNone -> i < mm s0 ->
  run tr s0 = Some s -> terminal s -> evclosed s i = true.
Proof. intros s0 tr s i R Hl. exact (subs_closed s0 tr s i (inv_reachable s0 R) (open_not_done s0 (inv_reachable s0 R) Hl)). Qed.
Print Assumptions C11_subscriptions_closed.

(* every callback registered before the loss has run exactly once; no callback ever runs twice *)
Theorem C11_callbacks_once : forall s0 tr s j, reachable s0 -> lost s0 = false -> cbreg s0 j = true ->
  run tr s0 = Some s -> terminal s -> cbcount s j = 1.
Proof. intros s0 tr s j R Hl. exact (cb_once s0 tr s j (inv_reachable s0 R) (open_not_done s0 (inv_reachable s0 R) Hl)). Qed.
Print Assumptions C11_callbacks_once.
Theorem C11_callbacks_at_most_once : forall s j, reachable s -> cbcount s j <= 1.
Proof. exact cb_at_most_once. Qed.
Print Assumptions C11_callbacks_at_most_once.

(* a Reply that sits in the call's reply channel is returned to the caller, whatever happens to
   the connection afterwards, provided its own Send does not fail and it is not cancelled *)
Theorem C11_reply_delivered : forall tr s s' c, reachable s -> holds_reply s c -> c < nn s -> run tr s = Some s' ->
  ~ In (LCallSendFail c) tr -> ~ In (LCancel c) tr -> terminal s' -> cp s' c = CDone true.
Proof. intros tr s s' c R. exact (reply_delivered tr s s' c (inv_reachable s R)). Qed.
Print Assumptions C11_reply_delivered.

(* early reply: while the call is still inside Send (pc CMade) its handler is already in the table,
   so a Reply read and dispatched now lands in its reply channel *)
Theorem C11_early_reply : forall s c k, reachable s -> cp s c = CMade k -> intab s (OCall c) -> cancelled s c = false ->
  proc s = PRead -> lost s = false ->
  exists s1, run [LPeerMsg (MFor (OCall c) TReply); LDispatch] s = Some s1 /\ holds_reply s1 c /\ cp s1 c = CMade k.
Proof. intros s c k R. exact (early_reply_lands s c k (inv_reachable s R)). Qed.
Print Assumptions C11_early_reply.

(* "within bounded time", as a bound on steps: once the connection is lost no schedule is longer
   than [measure s] labels (an explicit linear function of what is still pending: 10 per call not yet
   made, at most 5 per call in progress, 3 per occupied handler slot, 2 per closer goroutine, 3 per
   queued event, ...), so a terminal state is reached within that many steps whatever the scheduler
   does; the initial measure of a scenario is 10n + 5m + 4d + 6; a call takes at most 3 steps of its
   own after MakeHandler *)
Theorem C11_bounded : forall tr s s', reachable s -> lost s = true -> run tr s = Some s' ->
  length tr + measure s' <= measure s.
Proof. intros tr s s' R. exact (lost_run_bounded tr s s' (inv_reachable s R) (reachable_bounded s R)). Qed.
Print Assumptions C11_bounded.
Theorem C11_measure_init : forall n m d, measure (init n m d) = 10 * n + 5 * m + 4 * d + 6.
Proof. exact measure_init. Qed.
Print Assumptions C11_measure_init.
Theorem C11_call_own_steps : forall s l s' c, step s l = Some s' ->
  (l = LCallSend c \/ l = LCallSendFail c \/ l = LCallRemove c \/ (exists b, l = LCallSel c b) \/ l = LCallCancelSend c) ->
  callrank (cp s' c) < callrank (cp s c) /\ callrank (cp s c) <= 5.
Proof. exact call_own_steps. Qed.
Print Assumptions C11_call_own_steps.

(* MakeHandler registers the handler whatever the number of handlers already live: the table
   has no bound, the slot returned holds the new handler *)
Theorem C11_always_registered : forall tb o, nth_error (fst (alloc tb o)) (snd (alloc tb o)) = Some (Some o).
Proof. exact alloc_slot. Qed.
Print Assumptions C11_always_registered.

(* the reader never waits inside dispatch, lost connection or not: the Error message dispatch
   writes for a Call that found a full queue is part of the step, its result is discarded *)
Theorem C11_dispatch_never_waits : forall s m, panicked s = false -> proc s = PHave m ->
  exists s', step s LDispatch = Some s' /\ proc s' = PRead.
Proof. exact dispatch_enabled. Qed.
Print Assumptions C11_dispatch_never_waits.

(* the hypotheses are met by a concrete run: two calls, one subscription, one callback; the reply
   to call 0 is dispatched before either Send has returned (early reply), an event is queued, the
   connection dies; afterwards call 0 has its reply, call 1 an error, the events channel is closed
   after its one payload was read, the callback ran once *)
Example C11_nonvacuous :
  reachable ex_s0 /\ (lost ex_s0 = false /\ sp ex_s0 0 <> SNone /\ cbreg ex_s0 0 = true /\ cp ex_s0 0 = CWait /\ cp ex_s0 1 = CWait) /\
  ~ can_ok ex_s0 1 /\ holds_reply ex_s0 0 /\ run ex_tr ex_s0 = Some ex_s /\ terminal ex_s /\
  (cp ex_s 0 = CDone true /\ cp ex_s 1 = CDone false /\ evclosed ex_s 0 = true /\ delivered ex_s 0 = 1 /\ cbcount ex_s 0 = 1).
Proof. exact (conj ex_reachable (conj ex_before (conj ex_not_ok (conj ex_holds (conj ex_run (conj ex_terminal ex_after)))))). Qed.
Print Assumptions C11_nonvacuous.
