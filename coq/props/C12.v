(* C12 — one client cannot stop a service from serving others.
   Property theorems only; model theories/Hostile.v, proofs theories/HostileProofs.v (service 0: Auth.v, AuthStateless.v).

   The model is parameterised by a total function [cls] that says, for an object kind, an action
   and a payload, what argument decoding and the method body yield: "decoding returns a value or
   an error" is C07's property and is assumed here (lib/claims/C12.json).  A run is any label
   sequence accepted by [hrun] from a freshly started server ([hstart]: distinct object keys, nothing queued): any number of clients,
   any frames of any type (an unreadable one stands for garbage or a disconnect at any point), any
   interleaving of the connections' process and consumer goroutines, the objects' mailbox
   goroutines and the closers. *)
From QV Require Import Signals Hostile HostileProofs.
From QV Require Auth AuthStateless.
Local Open Scope N_scope.

(* no Deadlock / blocked-for-ever state is reachable: every object's goroutine is idle between two
   mails (never dead, never blocked in a write), every mailbox and consumer queue is within its
   capacity, no endpoint mutex stays held, no connection goroutine is blocked in a write *)
Theorem C12_holds_safe : forall cls g st0 tr st,
  hclean g -> hstart st0 -> hrun cls g st0 tr = Some st -> HInv st.
Proof. intros cls g st0 tr st Hc [H0 _] H. exact (proj1 (run_inv cls g Hc st0 tr st H0 H)). Qed.
Print Assumptions C12_holds_safe.

(* ... and from every reachable state a call of a fresh client to any object is answered after at
   most MailboxCap + 5 steps, all of them steps of that object's goroutine and of the fresh
   connection's own goroutines (nothing is needed from the hostile client or its connection) —
   unless the requests the object had already accepted contain a terminate that names it *)
Theorem C12_holds_probe : forall cls g st0 tr st o x pl oid sg u,
  hclean g -> hstart st0 -> hrun cls g st0 tr = Some st ->
  nth_error (objs st) o = Some x -> o_kind x <> KAuth ->
  cls (o_kind x) A_metaObject pl = PArgs oid sg u -> (oid = 0 \/ oid = o_id x) ->
  (List.length (probe_sched st o x pl) <= MailboxCap + 5)%nat /\
  ((exists st', hrun cls g st (probe_sched st o x pl) = Some st' /\ probe_answered st' (List.length (conns st)) = true) \/
   (exists st1 x1, hrun cls g st (repeat (LObj o) (List.length (o_mb x))) = Some st1 /\ nth_error (objs st1) o = Some x1 /\
                   o_alive x1 = false)).
Proof.
  intros cls g st0 tr st o x pl oid sg u Hc [H0 K0] H. destruct (run_inv cls g Hc st0 tr st H0 H) as [I K].
  apply probe_answered_bounded; try assumption. exact (keys_distinct_okeys _ _ K K0).
Qed.
Print Assumptions C12_holds_probe.

(* the harness's server (authentication service, directory, a generic service with two objects) is such a start *)
Theorem C12_start : forall id2, id2 <> 1 -> hstart (hinit_of id2).
Proof. exact hstart_init. Qed.
Print Assumptions C12_start.

(* the exception removes exactly what it names: an object stops being alive only by executing a
   terminate request (action 3) addressed to it whose argument is its own id (or 0); holds for
   every configuration *)
Theorem C12_removed_only_by_terminate : forall cls g st l st' o x x',
  hstep cls g st l = Some st' -> nth_error (objs st) o = Some x -> nth_error (objs st') o = Some x' ->
  o_alive x = true -> o_alive x' = false ->
  l = LObj o /\ exists c f r oid sg u, o_mb x = (c, f) :: r /\ f_act f = A_terminate /\
                 cls (o_kind x) (f_act f) (f_pl f) = PArgs oid sg u /\ oid_ok x oid = true.
Proof.
  intros cls g st l st' o x x' H Ex Ex' Al Al'.
  destruct (hstep_obj_at cls g st l st' o x x' H Ex Ex') as [A|[-> (c & f & r & Em & oid & sg & u & T)]]; [congruence|].
  split; [reflexivity|]. now exists c, f, r, oid, sg, u.
Qed.
Print Assumptions C12_removed_only_by_terminate.

(* service 0 itself (model theories/Auth.v, shared with C06; proofs theories/AuthStateless.v): a fresh
   client is served only if it can first AUTHENTICATE.  The mailbox goroutine of service 0 keeps no
   state between two mails: its answer to the mail at the head of its mailbox is the same in any
   two states that agree on that mail and on "its connection is closed" — whatever any client sent
   before, for every authenticator ... *)
Theorem C12_service0_stateless : forall skip fp auth eo st st' c f q q',
  Auth.s_mbox st = (c, f) :: q -> Auth.s_mbox st' = (c, f) :: q' ->
  Auth.c_closed (Auth.get st c) = Auth.c_closed (Auth.get st' c) ->
  snd (Auth.step skip fp auth eo st Auth.LMbox) = snd (Auth.step skip fp auth eo st' Auth.LMbox).
Proof. exact AuthStateless.mbox_answer_stateless. Qed.
Print Assumptions C12_service0_stateless.

(* ... and from EVERY state (reachable or not) in which service 0's mailbox is within its capacity,
   an open connection with nothing queued that sends an authenticate request carrying accepted
   credentials is answered "done" and becomes authenticated after
     LArrive; LConn; one LMbox per mail that was already queued (mails of other connections); LMbox
   i.e. at most queue_cap + 3 steps of its own two goroutines and of service 0's goroutine *)
Theorem C12_fresh_client_authenticates : forall skip fp auth eo st c f m r u t,
  Auth.c_closed (Auth.get st c) = false -> Auth.c_dead (Auth.get st c) = false -> Auth.c_inq (Auth.get st c) = [] ->
  (List.length (Auth.s_mbox st) <= Auth.queue_cap)%nat -> (forall e, In e (Auth.s_mbox st) -> fst e <> c) ->
  Auth.type_ok (Auth.f_type f) = true -> fp (Auth.f_type f) = true ->
  Auth.f_svc f = 0 -> Auth.f_obj f = 0 -> Auth.f_act f = Auth.AuthenticateActionID ->
  Auth.dec_capmap skip (Auth.f_payload f) = Auth.DOk m r -> Auth.creds m = Some (u, t) -> auth u t = true ->
  let st' := Auth.exec skip fp auth eo st
               (Auth.LArrive c f :: Auth.LConn c :: AuthStateless.mboxes (List.length (Auth.s_mbox st))) in
  snd (Auth.step skip fp auth eo st' Auth.LMbox) =
    [Auth.OAuthCall u t true; Auth.OFrame c Message.T_Reply 0 0 Auth.AuthenticateActionID (Auth.f_id f) Auth.BAuthDone] /\
  Auth.c_authed (Auth.get (fst (Auth.step skip fp auth eo st' Auth.LMbox)) c) = true.
Proof. exact AuthStateless.fresh_client_authenticates. Qed.
Print Assumptions C12_fresh_client_authenticates.

(* the pinned tree: a second registerEvent with a known id kills the object's goroutine ... *)
Theorem C12_refuted_dup_relock :
  exists st x, hrun std_cls (hcfg_of true false false true) hinit tr_dup = Some st /\
    nth_error (objs st) 2 = Some x /\ o_gor x = ODead /\ o_alive x = true /\
    hrun std_cls (hcfg_of true false false true) st (probe_sched st 2 x (pack_args 1 0 0)) = None.
Proof. exact refuted_dup_relock. Qed.
Print Assumptions C12_refuted_dup_relock.

(* ... and a client that does not read blocks it in a write *)
Theorem C12_refuted_write_blocks :
  exists st x, hrun std_cls (hcfg_of false false true true) hinit (flood (S OutCap)) = Some st /\
    nth_error (objs st) 2 = Some x /\ (exists ws, o_gor x = OBlocked ws) /\ o_alive x = true /\
    hrun std_cls (hcfg_of false false true true) st (probe_sched st 2 x (pack_args 1 0 0)) = None.
Proof. exact refuted_write_blocks. Qed.
Print Assumptions C12_refuted_write_blocks.

Example C12_nonvacuous :
  exists st x st', hrun std_cls (hcfg_of false true false true) hinit (tr_dup ++ tl (flood 70)) = Some st /\
    nth_error (objs st) 2 = Some x /\
    hrun std_cls (hcfg_of false true false true) st (probe_sched st 2 x (pack_args 1 0 0)) = Some st' /\
    probe_answered st' (List.length (conns st)) = true.
Proof. exact ex_clean_probe. Qed.
