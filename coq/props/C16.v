(* C16 — Removed objects are unreachable and terminated exactly once; identifiers are unique
   among live objects; removing one object never affects the others.
   Property theorems only; the model is theories/Service.v, proofs are in theories/ServiceProofs.v.

   Every theorem quantifies over all reachable states of the transition system, i.e. over all
   finite sequences of the labels AddBegin / AddEnd / Remove / Recv / Deliver / Emit — all
   operation sequences and all interleavings of the goroutines at the granularity of the
   model's atomic regions (see Service.v). *)
From Coq Require Import NArith List.
From QV Require Import Service ServiceProofs.
Import ListNotations.
Local Open Scope N_scope.

(* identifiers are unique among live objects *)
Theorem C16_holds_ids_unique : forall c s k1 k2 i, clean c -> reach c s ->
  live s k1 i -> live s k2 i -> k1 = k2.
Proof.
  intros c s k1 k2 i Hc%clean_slots R H1 H2. pose proof (reach_inv _ _ Hc R) as I.
  destruct (live_slot s I _ _ H1) as (Ho1 & _). destruct (live_slot s I _ _ H2) as (Ho2 & _). congruence.
Qed.
Print Assumptions C16_holds_ids_unique.

(* the index Add chooses is held by no live object and by no Add in progress; nothing else moves *)
Theorem C16_holds_add_index_fresh : forall c s k draws s' o, clean c -> reach c s ->
  step c s (LAddBegin k draws) = Some (s', o) ->
  exists i, o = [OIndex i] /\ objects s i = None /\ st s' k = Adding i /\
    (forall k', st s k' <> Live i /\ st s k' <> Adding i) /\
    (forall j, j <> i -> objects s' j = objects s j /\ boxes s' j = boxes s j) /\
    (forall k', k' <> k -> actors s' k' = actors s k').
Proof. intros c s k draws s' o Hc R. apply add_index_fresh; [apply Hc|exact (reach_inv _ _ (clean_slots _ Hc) R)]. Qed.
Print Assumptions C16_holds_add_index_fresh.

(* objects become callable: a successful Add installs the object and its mailbox under the index,
   a frame for a live object reaches its mailbox, and the mailbox goroutine runs the method once
   and answers the caller *)
Theorem C16_holds_add_makes_live : forall c s k i, clean c -> reach c s -> st s k = Adding i ->
  exists s', step c s (LAddEnd k true) = Some (s', [ORet true]) /\ live s' k i /\
    objects s' i = Some (SObj k) /\ boxes s' i = Some (TObj k) /\
    (forall k', k' <> k -> actors s' k' = actors s k') /\
    (forall j, j <> i -> objects s' j = objects s j /\ boxes s' j = boxes s j).
Proof.
  intros c s k i Hc%clean_slots R Hs. pose proof (reach_inv _ _ Hc R) as I.
  unfold step. rewrite (not_crashed s I). unfold add_end. unfold st in Hs. rewrite Hs.
  eexists. split; [reflexivity|]. unfold live; simpl. rewrite updA_same, !upd_same. simpl.
  repeat split; auto using upd_other, updA_other.
Qed.
Print Assumptions C16_holds_add_makes_live.

Theorem C16_holds_live_receives : forall c s k i cn f, clean c -> reach c s -> live s k i -> f_obj f = i ->
  step c s (LRecv cn f) =
    Some ({| objects := objects s; boxes := boxes s;
             actors := updA (actors s) k (push_mail (actors s k) (cn, f)); crashed := false |}, []).
Proof. intros c s k i cn f Hc%clean_slots R HL <-. exact (live_receives _ _ _ _ _ (reach_inv _ _ Hc R) HL). Qed.
Print Assumptions C16_holds_live_receives.

Theorem C16_deliver_runs_once : forall c s k cn f q, crashed s = false ->
  a_queue (actors s k) = (cn, f) :: q -> f_act f = AHello ->
  exists s', step c s (LDeliver k) = Some (s', answer cn f TReply) /\
    a_execs (actors s' k) = a_execs (actors s k) + 1 /\ a_queue (actors s' k) = q /\
    (forall k', k' <> k -> actors s' k' = actors s k') /\ objects s' = objects s /\ boxes s' = boxes s.
Proof.
  intros c s k cn f q Hcr Hq Hf. unfold step. rewrite Hcr. unfold deliver. rewrite Hq, Hf.
  eexists. split; [reflexivity|]. simpl. rewrite updA_same. simpl. rewrite Hq.
  repeat split; auto using updA_other.
Qed.
Print Assumptions C16_deliver_runs_once.

(* the termination hook has run exactly once for a removed object and never for any other *)
Theorem C16_holds_hook_exactly_once : forall c s k, clean c -> reach c s ->
  a_hooks (actors s k) = match st s k with Removed => 1 | _ => 0 end.
Proof. intros c s k Hc%clean_slots R. apply (hooks_once s (reach_inv _ _ Hc R)). Qed.
Print Assumptions C16_holds_hook_exactly_once.

(* Service.Remove of a live object: every subscriber is told (one termination error each, in
   subscription order, to its own connection), the hook has run once, the index is free, the
   mailbox is gone, and no other object and no other index is affected *)
Theorem C16_holds_remove_live : forall c s k i, clean c -> reach c s -> live s k i ->
  exists s', step c s (LRemove i) =
      Some (s', map (term_frame i) (a_subs (actors s k)) ++ [ORet true]) /\
    st s' k = Removed /\ a_hooks (actors s' k) = 1 /\ a_subs (actors s' k) = [] /\
    objects s' i = None /\ boxes s' i = None /\
    a_execs (actors s' k) = a_execs (actors s k) /\ a_queue (actors s' k) = a_queue (actors s k) /\
    (forall k', k' <> k -> actors s' k' = actors s k') /\
    (forall j, j <> i -> objects s' j = objects s j /\ boxes s' j = boxes s j).
Proof. intros c s k i Hc R. apply remove_live; [apply Hc|exact (reach_inv _ _ (clean_slots _ Hc) R)]. Qed.
Print Assumptions C16_holds_remove_live.

(* the same when the object terminates itself (terminate action handled by its own mailbox) *)
Theorem C16_holds_terminate_self : forall c s k i cn f q arg, clean c -> reach c s -> live s k i ->
  a_queue (actors s k) = (cn, f) :: q -> f_act f = ATerminate arg -> (arg = 0 \/ arg = i) ->
  exists s', step c s (LDeliver k) =
      Some (s', map (term_frame i) (a_subs (actors s k)) ++ answer cn f TReply) /\
    st s' k = Removed /\ a_hooks (actors s' k) = 1 /\ a_subs (actors s' k) = [] /\
    objects s' i = None /\ boxes s' i = None /\
    a_execs (actors s' k) = a_execs (actors s k) /\ a_queue (actors s' k) = q /\
    (forall k', k' <> k -> actors s' k' = actors s k') /\
    (forall j, j <> i -> objects s' j = objects s j /\ boxes s' j = boxes s j).
Proof. intros c s k i cn f q arg Hc R. apply terminate_live; [apply Hc|exact (reach_inv _ _ (clean_slots _ Hc) R)]. Qed.
Print Assumptions C16_holds_terminate_self.

(* a removed object is unreachable: no index leads to it or to its mailbox ... *)
Theorem C16_holds_removed_unreachable : forall c s k, clean c -> reach c s -> st s k = Removed ->
  forall i, boxes s i <> Some (TObj k) /\ objects s i <> Some (SObj k).
Proof.
  intros c s k Hc%clean_slots R Hs i. pose proof (reach_inv _ _ Hc R) as I. split; intro H.
  - pose proof (box_live s I _ _ H). congruence.
  - pose proof (obj_live s I _ _ H). congruence.
Qed.
Print Assumptions C16_holds_removed_unreachable.

(* ... a frame for an index without mailbox is answered by exactly one ObjectNotFound error to
   its sender and changes nothing ... *)
Theorem C16_recv_not_found : forall c s cn f, crashed s = false -> boxes s (f_obj f) = None ->
  step c s (LRecv cn f) = Some (s, [OFrame cn (TError ENotFound) (f_obj f) (act_num (f_act f)) (f_id f)]).
Proof. exact recv_not_found. Qed.
Print Assumptions C16_recv_not_found.

(* ... a mailbox found under an index belongs to the object that is live there ... *)
Theorem C16_holds_box_is_live : forall c s i k, clean c -> reach c s -> boxes s i = Some (TObj k) -> live s k i.
Proof. intros c s i k Hc%clean_slots R H. exact (box_live s (reach_inv _ _ Hc R) _ _ H). Qed.
Print Assumptions C16_holds_box_is_live.

(* ... and whatever happens after the removal (any continuation, any schedule), the removed
   object stays removed and executes nothing except calls that were already in its mailbox
   when it was removed: frames received later never invoke it *)
Theorem C16_holds_removed_never_invoked_again : forall c tr s s' o k, clean c -> reach c s ->
  st s k = Removed -> run c s tr = Some (s', o) ->
  st s' k = Removed /\ potential (actors s' k) = potential (actors s k) /\
  a_execs (actors s' k) <= a_execs (actors s k) + hellos (a_queue (actors s k)).
Proof.
  intros c tr s s' o k Hc%clean_slots R Hs H.
  destruct (removed_never_invoked_again _ _ _ _ _ _ Hc (reach_inv _ _ Hc R) Hs H) as (P1 & P2).
  repeat split; auto. change (a_execs (actors s' k) <= potential (actors s k)). rewrite <- P2. apply N.le_add_r.
Qed.
Print Assumptions C16_holds_removed_never_invoked_again.

(* frame condition, for every configuration: a step changes only the actors it names *)
Theorem C16_step_frame : forall c s l s' o k', step c s l = Some (s', o) ->
  ~ touched s l k' -> actors s' k' = actors s k'.
Proof. exact step_frame. Qed.
Print Assumptions C16_step_frame.

(* in a reachable clean state the object found under a live object's own identifier is itself:
   a terminate handled by a live object touches no other object *)
Theorem C16_holds_terminate_touches_self_only : forall c s k i k', clean c -> reach c s -> live s k i ->
  touched s (LDeliver k) k' -> k' = k.
Proof.
  intros c s k i k' Hc%clean_slots R HL [H|H]; [auto|]. pose proof (reach_inv _ _ Hc R) as I.
  destruct (live_slot s I _ _ HL) as (Ho & _ & Hid). unfold obj_id in H. rewrite Hid in H. congruence.
Qed.
Print Assumptions C16_holds_terminate_touches_self_only.

(* with the last switch off a mailbox goroutine changes its own object only, in every state — also
   when it handles the stale terminate of an object removed long ago whose index has a new owner *)
Theorem C16_holds_mailbox_touches_own_object_only : forall c s k s' o k', terminate_by_index c = false ->
  step c s (LDeliver k) = Some (s', o) -> k' <> k -> actors s' k' = actors s k'.
Proof. exact deliver_touches_self. Qed.
Print Assumptions C16_holds_mailbox_touches_own_object_only.

Theorem C16_remove_maps_frame : forall c s i s' o j, step c s (LRemove i) = Some (s', o) -> j <> i ->
  objects s' j = objects s j /\ boxes s' j = boxes s j.
Proof. exact remove_maps_frame. Qed.
Print Assumptions C16_remove_maps_frame.

Theorem C16_remove_outputs : forall c s i s' o, step c s (LRemove i) = Some (s', o) ->
  (exists k r, objects s i = Some (SObj k) /\
     o = map (term_frame (obj_id (actors s k))) (a_subs (actors s k)) ++ [r]) \/
  (exists r, (forall k, objects s i <> Some (SObj k)) /\ o = [r]).
Proof. exact remove_outputs. Qed.
Print Assumptions C16_remove_outputs.

(* the pinned code: each defect switch alone refutes the property (witness by vm_compute) *)

(* Remove leaves the mailbox: a removed object executes a call received after its removal *)
Theorem C16_refuted_keep_box_on_remove : exists s o, run only_keep_box init wit_keep_box = Some (s, o) /\
  st s 1%nat = Removed /\ a_execs (actors s 1%nat) = 1 /\
  o = [OIndex 5; ORet true; ORet true; OFrame 0 TReply 5 act_hello 7].
Proof. eexists. eexists. split; [vm_compute; reflexivity|]. vm_compute. auto. Qed.
Print Assumptions C16_refuted_keep_box_on_remove.

(* after object 1 is gone every Add returns index 0: two live objects share it, the first is
   unreachable and was never terminated *)
Theorem C16_refuted_zero_index_untested : exists s o, run only_zero_index init wit_zero_index = Some (s, o) /\
  live s 1%nat 0 /\ live s 2%nat 0 /\ a_hooks (actors s 1%nat) = 0 /\ objects s 0 = Some (SObj 2%nat).
Proof. eexists. eexists. split; [vm_compute; reflexivity|]. vm_compute. auto. Qed.
Print Assumptions C16_refuted_zero_index_untested.

(* a failed activation leaves a nil entry: Remove of that index is a nil dereference *)
Theorem C16_refuted_nil_slot_on_failed_activate : exists s o, run only_nil_slot init wit_nil_slot = Some (s, o) /\
  crashed s = true /\ o = [OIndex 5; ORet false; OPanic].
Proof. eexists. eexists. split; [vm_compute; reflexivity|]. vm_compute. auto. Qed.
Print Assumptions C16_refuted_nil_slot_on_failed_activate.

(* Remove succeeds on the placeholder of an Add in progress: two live objects, one identifier *)
Theorem C16_refuted_remove_pending_slot : exists s o, run only_remove_pending init wit_remove_pending = Some (s, o) /\
  live s 1%nat 5 /\ live s 2%nat 5 /\ o = [OIndex 5; ORet true; OIndex 5; ORet true; ORet true].
Proof. eexists. eexists. split; [vm_compute; reflexivity|]. vm_compute. auto. Qed.
Print Assumptions C16_refuted_remove_pending_slot.

(* the terminate action removes by index: a terminate still queued when its object is removed by
   Service.Remove later terminates the object that was given the freed index *)
Theorem C16_refuted_terminate_by_index : exists s o, run only_terminate_by_index init wit_terminate_by_index = Some (s, o) /\
  st s 2%nat = Removed /\ a_hooks (actors s 2%nat) = 1 /\ objects s 5 = None /\
  o = [OIndex 5; ORet true; ORet true; OIndex 5; ORet true].
Proof. eexists. eexists. split; [vm_compute; reflexivity|]. vm_compute. auto. Qed.
Print Assumptions C16_refuted_terminate_by_index.

(* the hypotheses are met by a concrete run: add (first draw collides with object 1), subscribe,
   call, self-terminate by post with a call queued behind it, call again after the removal *)
Example C16_nonvacuous : clean cfg_clean /\ exists s, run cfg_clean init ex_trace =
  Some (s, [OIndex 9; ORet true; OFrame 2 TReply 9 0 3; OFrame 0 TReply 9 act_hello 4;
            OFrame 2 (TError ETerminated) 9 102 3; OFrame 0 (TError ENotFound) 9 act_hello 8;
            OFrame 0 TReply 9 act_hello 6]) /\
  st s 1%nat = Removed /\ a_hooks (actors s 1%nat) = 1 /\ a_execs (actors s 1%nat) = 2 /\ live s 0%nat 1.
Proof. split; [exact clean_cfg_clean|]. eexists. split; [vm_compute; reflexivity|]. vm_compute. auto. Qed.
